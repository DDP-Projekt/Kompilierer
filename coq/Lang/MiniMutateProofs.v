(* C04 — every mutant the fault injector produces is ill-formed by the specification: a failure
   of the specification at one position (sub-expression without a type, statement that is not ok in
   the environment of its position, function / import that is not ok) makes the whole program
   ill-formed.  Holds for ANY generator `gen`, hence for every fault class. *)
From Coq Require Import List Bool.
Import ListNotations.
From DDP Require Import Lang.MiniSyntax Lang.MiniTyping Lang.MiniTypingProofs Lang.MiniMutate.

Section Engine.
Variable M : imod.
Variable g : gen.

Lemma in_filter_app : forall {A} (f : A -> bool) l rest x, In x (filter f l ++ rest) -> f x = true \/ In x rest.
Proof. intros A f l rest x H; apply in_app_or in H as [H | H]; [left; apply (filter_In f x l); exact H | right; exact H]. Qed.

Lemma untypable_none : forall F G e, untypable M F G e = true -> type_of M F G e = None.
Proof. intros F G e; unfold untypable; destruct (type_of M F G e); [intros H; discriminate H | auto]. Qed.

Lemma stmt_fails_none : forall F G d r s, stmt_fails M F G d r s = true -> stmt_chk M F G d r s = None.
Proof. intros F G d r s; unfold stmt_fails; destruct (stmt_chk M F G d r s); [intros H; discriminate H | auto]. Qed.

(* an argument list with an untypable argument is rejected for every parameter list *)
Lemma args_chk_untypable_head : forall F G e a ps, type_of M F G e = None -> args_chk M F G (ACons e a) ps = false.
Proof.
  intros F G e a ps H. destruct ps as [| [t [|]] ps]; cbn; auto.
  - destruct e; auto. cbn in H. destruct (lookup G x) as [[| | |]|]; auto; discriminate H.
  - rewrite H; reflexivity.
Qed.

Lemma args_chk_bad_tail : forall F G e a ps, (forall ps', args_chk M F G a ps' = false) -> args_chk M F G (ACons e a) ps = false.
Proof.
  intros F G e a ps H. destruct ps as [| [t [|]] ps]; cbn; auto.
  - destruct e; auto. destruct (lookup G x) as [[| | |]|]; auto. rewrite H; apply andb_false_r.
  - destruct (type_of M F G e); auto. rewrite H; apply andb_false_r.
Qed.

Lemma rwE_untypable : forall F G,
  (forall e e', In e' (rwE M g F G e) -> type_of M F G e' = None) /\
  (forall a a', In a' (rwA M g F G a) -> forall ps, args_chk M F G a' ps = false).
Proof.
  intros F G; apply expr_args_ind.
  - (* ELit *) intros l e' H; cbn in H. apply in_filter_app in H as [H | []]. apply untypable_none; exact H.
  - (* EEmpty *) intros t e' H; cbn in H. apply in_filter_app in H as [H | []]. apply untypable_none; exact H.
  - (* EVar *) intros x e' H; cbn in H. apply in_filter_app in H as [H | []]. apply untypable_none; exact H.
  - (* EUn *) intros o e IH e' H; cbn in H.
    apply in_filter_app in H as [H | H]; [apply untypable_none; exact H |].
    apply in_map_iff in H as [x [<- Hx]]. cbn. rewrite (IH _ Hx); reflexivity.
  - (* EBin *) intros o l IHl r IHr e' H; cbn in H.
    apply in_filter_app in H as [H | H]; [apply untypable_none; exact H |].
    apply in_app_or in H as [H | H]; apply in_map_iff in H as [x [<- Hx]]; cbn.
    + rewrite (IHl _ Hx); reflexivity.
    + rewrite (IHr _ Hx). destruct (type_of M F G l); reflexivity.
  - (* ECast *) intros e IH t e' H; cbn in H.
    apply in_filter_app in H as [H | H]; [apply untypable_none; exact H |].
    apply in_map_iff in H as [x [<- Hx]]. cbn. rewrite (IH _ Hx); reflexivity.
  - (* EField *) intros f e IH e' H; cbn in H.
    apply in_filter_app in H as [H | H]; [apply untypable_none; exact H |].
    apply in_map_iff in H as [x [<- Hx]]. cbn. rewrite (IH _ Hx); reflexivity.
  - (* ECall *) intros f a IH e' H; cbn in H.
    apply in_filter_app in H as [H | H]; [apply untypable_none; exact H |].
    apply in_map_iff in H as [x [<- Hx]]. cbn. destruct (assoc f F) as [[ps [r|]]|]; auto.
    rewrite (IH _ Hx); reflexivity.
  - (* ESlice *) intros l IHl i IHi j IHj e' H; cbn in H.
    apply in_filter_app in H as [H | H]; [apply untypable_none; exact H |].
    apply in_app_or in H as [H | H]; [| apply in_app_or in H as [H | H]]; apply in_map_iff in H as [x [<- Hx]]; cbn.
    + rewrite (IHl _ Hx); reflexivity.
    + rewrite (IHi _ Hx). destruct (type_of M F G l); reflexivity.
    + rewrite (IHj _ Hx). destruct (type_of M F G l); auto. destruct (type_of M F G i); reflexivity.
  - (* EList *) intros e IHe a IHa e' H; cbn in H.
    apply in_filter_app in H as [H | H]; [apply untypable_none; exact H |].
    apply in_app_or in H as [H | H]; apply in_map_iff in H as [x [<- Hx]]; cbn.
    + rewrite (IHe _ Hx); reflexivity.
    + destruct (type_of M F G e); auto. rewrite (IHa _ Hx), andb_false_r. reflexivity.
  - (* ANil *) intros a' H; inversion H.
  - (* ACons *) intros e IHe a IHa a' H ps; cbn in H. apply in_app_or in H as [H | H]; apply in_map_iff in H as [x [<- Hx]].
    + apply args_chk_untypable_head; auto.
    + apply args_chk_bad_tail; intros ps'; apply IHa; auto.
Qed.

Lemma rw_slots_fail : forall F G d r s s', In s' (rw_slots M g F G s) -> stmt_chk M F G d r s' = None.
Proof.
  intros F G d r s s' H. destruct (rwE_untypable F G) as [HE HA].
  destruct s; cbn in H; try contradiction.
  - (* SVar *) apply in_map_iff in H as [w [<- Hw]]. cbn. unfold assign_chk; rewrite (HE _ _ Hw), andb_false_r. reflexivity.
  - (* SAssign *) apply in_map_iff in H as [w [<- Hw]]. cbn. destruct (lookup G x) as [[| | |]|]; auto.
    unfold assign_chk; rewrite (HE _ _ Hw). reflexivity.
  - (* SAssignIdx *) apply in_app_or in H as [H | H]; apply in_map_iff in H as [w [<- Hw]]; cbn; destruct (lookup G x) as [[| | |]|]; auto.
    + unfold indexb_expr; rewrite (HE _ _ Hw), andb_false_r. reflexivity.
    + unfold assign_chk; rewrite (HE _ _ Hw), andb_false_r. reflexivity.
  - (* SAssignField *) apply in_map_iff in H as [w [<- Hw]]. cbn. destruct (lookup G x) as [[[| | | | | | |s]| | |]|]; auto.
    destruct (field_of M s f) as [[[|] tf]|]; auto. unfold assign_chk; rewrite (HE _ _ Hw). reflexivity.
  - (* SIf *) apply in_map_iff in H as [w [<- Hw]]. cbn. unfold has_typeb; rewrite (HE _ _ Hw). reflexivity.
  - (* SWhile *) apply in_map_iff in H as [w [<- Hw]]. cbn. unfold has_typeb; rewrite (HE _ _ Hw). reflexivity.
  - (* SFor *) apply in_app_or in H as [H | H]; [| apply in_app_or in H as [H | H]].
    + apply in_map_iff in H as [w [<- Hw]]. cbn. unfold assign_chk; rewrite (HE _ _ Hw), !andb_false_r. reflexivity.
    + apply in_map_iff in H as [w [<- Hw]]. cbn. unfold numericb_expr; rewrite (HE _ _ Hw), !andb_false_r. reflexivity.
    + destruct step as [e|]; [| contradiction]. apply in_map_iff in H as [w [<- Hw]]. cbn.
      unfold numericb_expr; rewrite (HE _ _ Hw), !andb_false_r. reflexivity.
  - (* SForEach *) apply in_map_iff in H as [w [<- Hw]]. cbn [stmt_chk]. rewrite (HE _ _ Hw), !andb_false_r. reflexivity.
  - (* SRepeat *) apply in_map_iff in H as [w [<- Hw]]. cbn. destruct (block_chk M F (push G) (S d) r b); auto.
    unfold indexb_expr; rewrite (HE _ _ Hw). reflexivity.
  - (* SDoWhile *) apply in_map_iff in H as [w [<- Hw]]. cbn. destruct (block_chk M F (push G) (S d) r b); auto.
    unfold has_typeb; rewrite (HE _ _ Hw). reflexivity.
  - (* SReturn *) destruct e as [e|]; [| contradiction]. apply in_map_iff in H as [w [<- Hw]]. cbn.
    destruct r as [| [t|]]; auto. unfold has_typeb; rewrite (HE _ _ Hw). reflexivity.
  - (* SCall *) apply in_map_iff in H as [w [<- Hw]]. cbn. destruct (assoc f F) as [[ps ro]|]; auto. rewrite (HA _ _ Hw). reflexivity.
Qed.

Lemma rwS_head : forall F G d r s s' rest,
  In s' (filter (stmt_fails M F G d r) (g_stmt g F G d r s) ++ rw_slots M g F G s ++ rest) ->
  stmt_chk M F G d r s' = None \/ In s' rest.
Proof.
  intros F G d r s s' rest H. apply in_filter_app in H as [H | H]; [left; apply stmt_fails_none; exact H |].
  apply in_app_or in H as [H | H]; [left; eapply rw_slots_fail; exact H | right; exact H].
Qed.

Lemma rwS_fail : forall F,
  (forall s G d r s', In s' (rwS M g F G d r s) -> stmt_chk M F G d r s' = None) /\
  (forall b G d r b', In b' (rwB M g F G d r b) -> block_chk M F G d r b' = None).
Proof.
  intros F; apply stmt_block_ind.
  - (* SVar *) intros a t x e G d r s' H. apply rwS_head in H as [H | []]; exact H.
  - (* SConst *) intros a x l G d r s' H. apply rwS_head in H as [H | []]; exact H.
  - (* SAssign *) intros x e G d r s' H. apply rwS_head in H as [H | []]; exact H.
  - (* SAssignIdx *) intros x i e G d r s' H. apply rwS_head in H as [H | []]; exact H.
  - (* SAssignField *) intros f x e G d r s' H. apply rwS_head in H as [H | []]; exact H.
  - (* SIf *) intros c th IHth el IHel G d r s' H. apply rwS_head in H as [H | H]; [exact H |].
    apply in_app_or in H as [H | H]; apply in_map_iff in H as [x [<- Hx]]; cbn.
    + rewrite (IHth _ _ _ _ Hx). destruct (has_typeb M F G c TBool); reflexivity.
    + rewrite (IHel _ _ _ _ Hx). destruct (has_typeb M F G c TBool); auto. destruct (block_chk M F (push G) d r th); reflexivity.
  - (* SWhile *) intros c b IHb G d r s' H. apply rwS_head in H as [H | H]; [exact H |].
    apply in_map_iff in H as [x [<- Hx]]; cbn.
    rewrite (IHb _ _ _ _ Hx). destruct (has_typeb M F G c TBool); reflexivity.
  - (* SFor *) intros a t x from to step b IHb G d r s' H. apply rwS_head in H as [H | H]; [exact H |].
    apply in_map_iff in H as [y [<- Hy]]. cbn [stmt_chk]. rewrite (IHb _ _ _ _ Hy).
    match goal with |- (if ?c then _ else _) = _ => destruct c; reflexivity end.
  - (* SForEach *) intros a t x e b IHb G d r s' H. apply rwS_head in H as [H | H]; [exact H |].
    apply in_map_iff in H as [y [<- Hy]]. cbn [stmt_chk]. rewrite (IHb _ _ _ _ Hy).
    match goal with |- (if ?c then _ else _) = _ => destruct c; reflexivity end.
  - (* SRepeat *) intros b IHb n G d r s' H. apply rwS_head in H as [H | H]; [exact H |].
    apply in_map_iff in H as [y [<- Hy]]. cbn. rewrite (IHb _ _ _ _ Hy). reflexivity.
  - (* SDoWhile *) intros b IHb c G d r s' H. apply rwS_head in H as [H | H]; [exact H |].
    apply in_map_iff in H as [y [<- Hy]]. cbn. rewrite (IHb _ _ _ _ Hy). reflexivity.
  - (* SBreak *) intros G d r s' H. apply rwS_head in H as [H | []]; exact H.
  - (* SContinue *) intros G d r s' H. apply rwS_head in H as [H | []]; exact H.
  - (* SReturn *) intros e G d r s' H. apply rwS_head in H as [H | []]; exact H.
  - (* SBlock *) intros b IHb G d r s' H. apply rwS_head in H as [H | H]; [exact H |].
    apply in_map_iff in H as [x [<- Hx]]; cbn. rewrite (IHb _ _ _ _ Hx). reflexivity.
  - (* SCall *) intros f a G d r s' H. apply rwS_head in H as [H | []]; exact H.
  - (* BNil *) intros G d r b' H. cbn [rwB] in H. rewrite app_nil_r in H.
    apply in_map_iff in H as [x [<- Hx]]. apply filter_In in Hx as [_ Hx]. cbn.
    rewrite (stmt_fails_none _ _ _ _ _ Hx). reflexivity.
  - (* BCons *) intros s IHs b IHb G d r b' H. cbn [rwB] in H.
    apply in_app_or in H as [H | H]; [| apply in_app_or in H as [H | H]].
    + apply in_map_iff in H as [x [<- Hx]]. apply filter_In in Hx as [_ Hx]. cbn.
      rewrite (stmt_fails_none _ _ _ _ _ Hx). reflexivity.
    + apply in_map_iff in H as [x [<- Hx]]. cbn. rewrite (IHs _ _ _ _ Hx). reflexivity.
    + destruct (stmt_chk M F G d r s) as [G1|] eqn:E; [| inversion H].
      apply in_map_iff in H as [x [<- Hx]]. cbn. rewrite E. apply IHb; auto.
Qed.

Lemma rwF_fail : forall F G f f', In f' (rwF M g F G f) -> fun_chk M F G f' = false.
Proof.
  intros F G f f' H. unfold rwF in H. apply in_app_or in H as [H | H].
  - apply filter_In in H as [_ H]. apply negb_true_iff in H; auto.
  - apply in_map_iff in H as [b' [<- Hb]]. apply (proj2 (rwS_fail _)) in Hb.
    unfold fun_chk. change (f_name (with_body f b')) with (f_name f). change (f_params (with_body f b')) with (f_params f).
    change (f_ret (with_body f b')) with (f_ret f). change (f_body (with_body f b')) with b'.
    change (sig_of (with_body f b')) with (sig_of f). change (param_scope (with_body f b')) with (param_scope f).
    rewrite Hb. destruct (lookup G (f_name f)); auto. rewrite andb_false_r. reflexivity.
Qed.

Lemma rwT_fail : forall l F G l', In l' (rwT M g F G l) -> tops_chk M F G l' = false.
Proof.
  assert (Hins : forall F G l t, top_fails M F G t = true -> tops_chk M F G (t :: l) = false).
  { intros F G l [f|s] H; cbn in *.
    - apply negb_true_iff in H; rewrite H; reflexivity.
    - rewrite (stmt_fails_none _ _ _ _ _ H); reflexivity. }
  induction l as [| [f|s] l IH]; intros F G l' H; cbn [rwT] in H.
  - rewrite app_nil_r in H. apply in_map_iff in H as [t [<- Ht]]. apply filter_In in Ht as [_ Ht]. apply Hins; auto.
  - apply in_app_or in H as [H | H]; [| apply in_app_or in H as [H | H]].
    + apply in_map_iff in H as [t [<- Ht]]. apply filter_In in Ht as [_ Ht]. apply Hins; auto.
    + apply in_map_iff in H as [f' [<- Hf]]. cbn. rewrite (rwF_fail _ _ _ _ Hf). reflexivity.
    + destruct (fun_chk M F G f) eqn:E; [| inversion H].
      apply in_map_iff in H as [x [<- Hx]]. cbn. rewrite E. apply IH; auto.
  - apply in_app_or in H as [H | H]; [| apply in_app_or in H as [H | H]].
    + apply in_map_iff in H as [t [<- Ht]]. apply filter_In in Ht as [_ Ht]. apply Hins; auto.
    + apply in_map_iff in H as [s' [<- Hs]]. cbn. rewrite (proj1 (rwS_fail _) _ _ _ _ _ Hs). reflexivity.
    + destruct (stmt_chk M F G 0 RGlobal s) as [G1|] eqn:E; [| inversion H].
      apply in_map_iff in H as [x [<- Hx]]. cbn. rewrite E. apply IH; auto.
Qed.

End Engine.

Lemma mutants_gen_illformed : forall g p p', In p' (mutants_gen g p) -> wfb p' = false.
Proof.
  intros g p p' H. unfold mutants_gen in H. apply in_app_or in H as [H | H].
  - apply in_map_iff in H as [i [<- Hi]]. unfold rwI in Hi. apply filter_In in Hi as [_ Hi].
    unfold wfb; cbn. destruct (import_decls (p_mod p) i); [discriminate Hi | reflexivity].
  - destruct (import_decls (p_mod p) (p_imp p)) as [ds|] eqn:E; [| inversion H].
    apply in_map_iff in H as [l [<- Hl]]. unfold wfb; cbn. rewrite E. eapply rwT_fail; eauto.
Qed.

Theorem mutants_illformed : forall fc p p', In p' (mutants fc p) -> ~ wf p'.
Proof.
  intros fc p p' H Hwf. apply wfb_iff in Hwf.
  unfold mutants in H. apply mutants_gen_illformed in H. congruence.
Qed.

Theorem inject_breaks_wf : forall fc s p, wf p -> site_ok fc s p -> ~ wf (inject fc s p).
Proof.
  intros fc s p _ Hs. unfold inject. apply mutants_illformed with (fc := fc) (p := p). apply nth_In; auto.
Qed.

(* a mutant is never the program it was derived from *)
Corollary inject_changes : forall fc s p, wf p -> site_ok fc s p -> inject fc s p <> p.
Proof. intros fc s p Hwf Hs E. apply (inject_breaks_wf fc s p Hwf Hs). rewrite E; auto. Qed.
