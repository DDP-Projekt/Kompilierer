(* prec_roundtrip: parse (render e) = Some e for every expression of the binary-operator fragment. *)
From Coq Require Import List NArith Arith Bool Lia.
Import ListNotations.
From DDP Require Import Lang.Prec.

(* a module, so that short names like res, body or V do not reach importing files *)
Module Ladder.

Definition res := option (pexpr * list tok * bool).

(* ---- more fuel never changes a successful parse -------------------------------------------------- *)
Lemma mono : forall f,
  (forall l ts r, parse_lvl f l ts = Some r -> forall f', f <= f' -> parse_lvl f' l ts = Some r) /\
  (forall l lhs ts fl r, loop f l lhs ts fl = Some r -> forall f', f <= f' -> loop f' l lhs ts fl = Some r).
Proof.
  induction f as [|f [IHp IHl]]; split; intros; [discriminate H|discriminate H| |];
    (destruct f' as [|f']; [lia|]); assert (Hle : f <= f') by lia.
  - cbn [parse_lvl] in H |- *. destruct (11 <=? l).
    + destruct ts as [|[] r']; try discriminate H; [exact H|].
      destruct (parse_lvl f 0 r') as [[[e r''] b]|] eqn:E; [|discriminate H].
      rewrite (IHp _ _ _ E _ Hle). exact H.
    + destruct (parse_lvl f (S l) ts) as [[[a r'] fl]|] eqn:E; [|discriminate H].
      rewrite (IHp _ _ _ E _ Hle). exact (IHl _ _ _ _ _ H _ Hle).
  - cbn [loop] in H |- *. destruct ts as [|[] r']; try exact H.
    + destruct ((lev o =? l) && negb (is_shift o)); [|exact H].
      destruct (parse_lvl f (rhs_lvl l) r') as [[[b r''] fl']|] eqn:E; [|discriminate H].
      rewrite (IHp _ _ _ E _ Hle).
      destruct (needs_ist l); [|exact (IHl _ _ _ _ _ H _ Hle)].
      destruct r'' as [|[] r3]; try (destruct fl'; [exact (IHl _ _ _ _ _ H _ Hle)|discriminate H]).
      exact (IHl _ _ _ _ _ H _ Hle).
    + destruct (l =? 7); [|exact H].
      destruct (parse_lvl f 8 r') as [[[b r''] fl']|] eqn:E; [|discriminate H].
      rewrite (IHp _ _ _ E _ Hle).
      destruct r'' as [|[] r3]; try discriminate H. exact (IHl _ _ _ _ _ H _ Hle).
Qed.

Lemma mono_parse : forall f f' l ts r, parse_lvl f l ts = Some r -> f <= f' -> parse_lvl f' l ts = Some r.
Proof. intros f f' l ts r H. exact (proj1 (mono f) l ts r H f'). Qed.
Lemma mono_loop : forall f f' l x ts fl r, loop f l x ts fl = Some r -> f <= f' -> loop f' l x ts fl = Some r.
Proof. intros f f' l x ts fl r H. exact (proj2 (mono f) l x ts fl r H f'). Qed.

(* ---- tokens a level-p loop does not consume -------------------------------------------------------- *)
Definition quiet (p : nat) (ts : list tok) : Prop :=
  match ts with
  | KOp o :: _ => (lev o =? p) && negb (is_shift o) = false
  | KUm :: _ => p <> 7
  | _ => True
  end.

Definition quiet_from (k : nat) (ts : list tok) : Prop := forall p, k <= p -> p <= 10 -> quiet p ts.

Lemma loop_quiet : forall f p x ts fl, quiet p ts -> loop (S f) p x ts fl = Some (x, ts, fl).
Proof.
  intros f p x ts fl Q. cbn [loop].
  destruct ts as [|t r]; auto. destruct t; auto.
  - cbn [quiet] in Q. rewrite Q. reflexivity.
  - cbn [quiet] in Q. apply Nat.eqb_neq in Q. rewrite Q. reflexivity.
Qed.

(* the loops of levels l+n-1, ..., l, run in that order *)
Fixpoint cascade (g n l : nat) (x : pexpr) (ts : list tok) (fl : bool) : res :=
  match n with
  | O => Some (x, ts, fl)
  | S n' =>
      match loop g (l + n') x ts fl with
      | Some (x', ts', fl') => cascade g n' l x' ts' fl'
      | None => None
      end
  end.

Lemma cascade_app : forall g m n l x ts fl,
  cascade g (m + n) l x ts fl =
  match cascade g m (l + n) x ts fl with
  | Some (x', ts', fl') => cascade g n l x' ts' fl'
  | None => None
  end.
Proof.
  induction m as [|m IH]; intros; [reflexivity|].
  cbn [cascade Nat.add]. replace (l + (m + n)) with (l + n + m) by lia.
  destruct (loop g (l + n + m) x ts fl) as [[[x1 t1] f1]|]; [apply IH|reflexivity].
Qed.

Lemma cascade_app_inv : forall g m n l x ts fl R,
  cascade g (m + n) l x ts fl = Some R ->
  exists x' ts' fl', cascade g m (l + n) x ts fl = Some (x', ts', fl') /\ cascade g n l x' ts' fl' = Some R.
Proof.
  intros g m n l x ts fl R. rewrite cascade_app.
  destruct (cascade g m (l + n) x ts fl) as [[[x' ts'] fl']|]; [eauto 6|discriminate].
Qed.

Lemma cascade_S_inv : forall g n l x ts fl R,
  cascade g (S n) l x ts fl = Some R ->
  exists x' ts' fl', loop g (l + n) x ts fl = Some (x', ts', fl') /\ cascade g n l x' ts' fl' = Some R.
Proof.
  intros g n l x ts fl R. cbn [cascade].
  destruct (loop g (l + n) x ts fl) as [[[x' ts'] fl']|]; [eauto 6|discriminate].
Qed.

Lemma cascade_skip : forall g n l x ts fl,
  (forall p, l <= p -> p < l + n -> quiet p ts) -> cascade (S g) n l x ts fl = Some (x, ts, fl).
Proof.
  induction n as [|n IH]; intros l x ts fl Q; [reflexivity|].
  cbn [cascade]. rewrite loop_quiet by (apply Q; lia). apply IH. intros; apply Q; lia.
Qed.

Lemma cascade_top : forall g p x ts fl,
  p <= 10 -> (forall q, p < q -> q <= 10 -> quiet q ts) ->
  cascade (S g) (11 - p) p x ts fl = loop (S g) p x ts fl.
Proof.
  intros g p x ts fl Hp Q. replace (11 - p) with ((10 - p) + 1) by lia.
  rewrite cascade_app, cascade_skip by (intros; apply Q; lia).
  cbn [cascade]. rewrite Nat.add_0_r. destruct (loop (S g) p x ts fl) as [[[? ?] ?]|]; reflexivity.
Qed.

(* descending from level l+n to level l: the lower loops run afterwards *)
Lemma descend : forall n l f g ts a r fl R F,
  l + n <= 11 -> f <= F -> g <= F ->
  parse_lvl f (l + n) ts = Some (a, r, fl) ->
  cascade g n l a r fl = Some R ->
  parse_lvl (F + n) l ts = Some R.
Proof.
  induction n as [|n IH]; intros l f g ts a r fl R F Hl Hf Hg Hp Hc.
  - cbn [cascade] in Hc. inversion Hc; subst. rewrite Nat.add_0_r in Hp.
    eapply mono_parse; eauto. lia.
  - apply cascade_S_inv in Hc. destruct Hc as (x1 & t1 & f1 & EL & Hc).
    assert (Hp' : parse_lvl (S F) (l + n) ts = Some (x1, t1, f1)).
    { cbn [parse_lvl]. replace (11 <=? l + n) with false by (symmetry; apply Nat.leb_gt; lia).
      replace (S (l + n)) with (l + S n) by lia.
      rewrite (mono_parse _ F _ _ _ Hp) by lia.
      eapply mono_loop; eauto. }
    replace (F + S n) with (S F + n) by lia.
    eapply (IH l (S F) g); eauto; lia.
Qed.

Arguments descend n l {f g ts a r fl R} F.

(* the four shapes of a rendered binary expression as one: left operand (a primary for `hoch`), operator
   (`um` for the shifts), right operand, closing token (`verschoben`, `ist`, or none) *)
Definition llev (p : nat) : nat := if p =? 10 then 11 else p.
Definition sep (o : pop) : tok := if is_shift o then KUm else KOp o.
Definition suffix (o : pop) : list tok :=
  if is_shift o then [KVerschoben (match o with PShl => true | _ => false end)]
  else if needs_ist (lev o) then [KIst] else [].
Definition body (o : pop) (a b : pexpr) : list tok :=
  render_at (llev (lev o)) a ++ sep o :: render_at (rhs_lvl (lev o)) b ++ suffix o.

Lemma shift_lev : forall o, is_shift o = true -> lev o = 7.
Proof. destruct o; try discriminate; reflexivity. Qed.

Lemma render_bin : forall l o a b,
  render_at l (PBin o a b) = if lev o <? l then KLP :: body o a b ++ [KRP] else body o a b.
Proof.
  intros l o a b. cbn [render_at]. unfold body, llev, sep, suffix, rhs_lvl.
  destruct (is_shift o) eqn:SH; [rewrite (shift_lev o SH); reflexivity|].
  destruct (Nat.eqb_spec (lev o) 10) as [E|E]; [rewrite E, app_nil_r; reflexivity|].
  destruct (needs_ist (lev o)); rewrite ?app_nil_r; reflexivity.
Qed.

Lemma render_paren : forall l e, l <= 11 ->
  render_at l e = if prec e <? l then KLP :: render_at 0 e ++ [KRP] else render_at 0 e.
Proof.
  intros l [n|o a b] Hl; [|rewrite !render_bin; reflexivity].
  cbn [prec]. replace (11 <? l) with false by (symmetry; apply Nat.ltb_ge; exact Hl). reflexivity.
Qed.

(* one turn of the loop at the operator's level, once the right operand has been parsed up to the closing token *)
Definition flag_after (o : pop) (flb : bool) : bool :=
  if is_shift o then false else if needs_ist (lev o) then true else flb.

Lemma loop_op : forall o lhs b ts rest flb f fl,
  parse_lvl f (rhs_lvl (lev o)) ts = Some (b, suffix o ++ rest, flb) ->
  loop (S f) (lev o) lhs (sep o :: ts) fl = loop f (lev o) (PBin o lhs b) rest (flag_after o flb).
Proof.
  intros o lhs b ts rest flb f fl H. unfold sep, suffix, flag_after in *. cbn [loop].
  destruct (is_shift o) eqn:SH.
  - rewrite (shift_lev o SH) in *. cbn [Nat.eqb]. change (rhs_lvl 7) with 8 in H. rewrite H. cbn [app].
    destruct o; try discriminate SH; reflexivity.
  - rewrite Nat.eqb_refl, SH, H. destruct (needs_ist (lev o)); reflexivity.
Qed.

Lemma quiet_sep : forall o q r, q <> lev o -> quiet q (sep o :: r).
Proof.
  intros o q r H. unfold sep. destruct (is_shift o) eqn:SH; cbn [quiet].
  - rewrite (shift_lev o SH) in H. exact H.
  - rewrite (proj2 (Nat.eqb_neq (lev o) q)) by auto. reflexivity.
Qed.

Lemma quiet_suffix : forall o k rest, quiet_from k rest -> quiet_from k (suffix o ++ rest).
Proof.
  intros o k rest Q. unfold suffix. destruct (is_shift o); [intros q _ _; exact I|].
  destruct (needs_ist (lev o)); [intros q _ _; exact I|exact Q].
Qed.

Lemma lev_le_10 : forall o, lev o <= 10.
Proof. destruct o; cbn; lia. Qed.

Fixpoint nodes (e : pexpr) : nat :=
  match e with PAtom _ => 1 | PBin _ a b => S (nodes a + nodes b) end.

Lemma render_len : forall e l, nodes e <= length (render_at l e).
Proof.
  induction e as [n|o a IHa b IHb]; intros l; [cbn; lia|].
  rewrite render_bin. unfold body. specialize (IHa (llev (lev o))). specialize (IHb (rhs_lvl (lev o))).
  destruct (lev o <? l); cbn [length nodes]; rewrite !app_length; cbn [length]; rewrite !app_length; lia.
Qed.

(* Prec.fuel_of gives 80 per token *)
Definition V (e : pexpr) : nat := 80 * nodes e.

(* ---- the main induction ---------------------------------------------------------------------------- *)
(* the invariant: the unparenthesised rendering of e, parsed at a level l not above e's own and followed by
   tokens the loops above e's operator do not consume, yields e, and the loops down to l go on with it *)
Definition U (e : pexpr) : Prop :=
  forall l rest, l <= prec e -> quiet_from (rhs_lvl (prec e)) rest ->
  exists fl, forall g R,
    cascade (S g) (11 - l) l e rest fl = Some R ->
    parse_lvl (V e + S g) l (render_at 0 e ++ rest) = Some R.

(* what the tokens after e must be quiet for, when e is rendered for level L *)
Definition qreq (e : pexpr) (L : nat) : nat := if prec e <? L then 11 else rhs_lvl (prec e).

Lemma qreq_ge : forall e L, L <= 11 -> L <= qreq e L.
Proof.
  intros e L HL. unfold qreq, rhs_lvl. destruct (prec e <? L) eqn:E; [exact HL|].
  apply Nat.ltb_ge in E. destruct (prec e =? 10) eqn:E10; [apply Nat.eqb_eq in E10|]; lia.
Qed.

Lemma use : forall x, U x -> forall L l rest, l <= L -> L <= 11 -> quiet_from (qreq x L) rest ->
  exists fl, forall g R,
    cascade (S g) (11 - l) l x rest fl = Some R ->
    parse_lvl (V x + 20 + g) l (render_at L x ++ rest) = Some R.
Proof.
  intros x Ux L l rest Hl HL Q. rewrite (render_paren L x HL). unfold qreq in Q.
  destruct (prec x <? L) eqn:E.
  - (* parenthesised: a primary, then every loop from level 10 down to l *)
    destruct (Ux 0 (KRP :: rest)) as [fl0 H0]; [lia|intros q _ _; exact I|].
    exists false. intros g R HC.
    assert (PR : parse_lvl (S (V x + 1)) (l + (11 - l)) (KLP :: render_at 0 x ++ KRP :: rest) = Some (x, rest, false)).
    { replace (l + (11 - l)) with 11 by lia. cbn [parse_lvl Nat.leb].
      rewrite (H0 0 (x, KRP :: rest, fl0)); [reflexivity|]. apply cascade_skip. intros q _ _. exact I. }
    cbn [app]. rewrite <- app_assoc. cbn [app].
    eapply mono_parse; [eapply (descend (11 - l) l (V x + 2 + S g)); [| | |exact PR|exact HC]; lia|lia].
  - apply Nat.ltb_ge in E. destruct (Ux L rest E Q) as [fl H]. exists fl. intros g R HC.
    replace (11 - l) with ((11 - L) + (L - l)) in HC by lia.
    apply cascade_app_inv in HC. destruct HC as (x1 & t1 & f1 & EC & HC).
    assert (PL : parse_lvl (V x + S g) (l + (L - l)) (render_at 0 x ++ rest) = Some (x1, t1, f1))
      by (replace (l + (L - l)) with L in * by lia; exact (H g _ EC)).
    eapply mono_parse; [eapply (descend (L - l) l (V x + S g)); [| | |exact PL|exact HC]; lia|lia].
Qed.

Lemma operand_done : forall x lx rest,
  U x -> lx <= 11 -> quiet_from lx rest ->
  exists fl, forall g, parse_lvl (V x + 20 + g) lx (render_at lx x ++ rest) = Some (x, rest, fl).
Proof.
  intros x lx rest Ux Hl Q.
  destruct (use x Ux lx lx rest) as [fl H]; [lia|exact Hl| |].
  { intros q Hq1 Hq2. apply Q; [|exact Hq2]. pose proof (qreq_ge x lx Hl). lia. }
  exists fl. intros g. apply H. apply cascade_skip. intros q Hq1 Hq2. apply Q; lia.
Qed.

(* after the LEFT operand of a level-p operator the level-p loop goes on *)
Lemma left_operand : forall x p rest,
  U x -> p <= 10 -> (forall q, q <> p -> quiet q rest) ->
  exists fl, forall g R,
    loop (S g) p x rest fl = Some R ->
    parse_lvl (V x + 20 + g) p (render_at (llev p) x ++ rest) = Some R.
Proof.
  intros x p rest Ux Hp Q.
  assert (HL : p <= llev p /\ llev p <= 11) by (unfold llev; destruct (p =? 10); lia).
  destruct (use x Ux (llev p) p rest) as [fl H]; [apply HL|apply HL| |].
  { intros q Hq _. apply Q. revert Hq. unfold qreq, rhs_lvl, llev.
    destruct (Nat.eqb_spec p 10);
      (destruct (prec x <? _) eqn:E; [lia|apply Nat.ltb_ge in E; destruct (Nat.eqb_spec (prec x) 10); lia]). }
  exists fl. intros g R HL'. apply H. rewrite cascade_top by (auto; intros; apply Q; lia). exact HL'.
Qed.

Lemma U_atom : forall n, U (PAtom n).
Proof.
  intros n l rest Hl _. cbn [prec] in Hl. exists false. intros g R HC.
  assert (P : parse_lvl 1 (l + (11 - l)) (KAtom n :: rest) = Some (PAtom n, rest, false))
    by (replace (l + (11 - l)) with 11 by lia; reflexivity).
  eapply mono_parse; [eapply (descend (11 - l) l (S g)); [| | |exact P|exact HC]; lia|unfold V; cbn [nodes]; lia].
Qed.

Lemma U_bin : forall o a b, U a -> U b -> U (PBin o a b).
Proof.
  intros o a b Ua Ub l rest Hl Q. cbn [prec] in Hl, Q.
  pose proof (lev_le_10 o) as P10. set (p := lev o) in *.
  assert (RL : p <= rhs_lvl p /\ rhs_lvl p <= 11) by (unfold rhs_lvl; destruct (p =? 10); lia).
  destruct (operand_done b (rhs_lvl p) (suffix o ++ rest) Ub) as [flb Hb]; [apply RL|apply quiet_suffix, Q|].
  destruct (left_operand a p (sep o :: render_at (rhs_lvl p) b ++ suffix o ++ rest) Ua) as [fla Ha];
    [exact P10|intros q Hq; apply quiet_sep, Hq|].
  exists (flag_after o flb). intros g R HC.
  (* the loops above p do not look at rest; then the loop of level p; then those down to l *)
  replace (11 - l) with ((10 - p) + S (p - l)) in HC by lia.
  apply cascade_app_inv in HC. destruct HC as (x0 & t0 & f0 & HT & HC).
  rewrite cascade_skip in HT by (intros q Hq1 Hq2; apply Q; [unfold rhs_lvl; destruct (Nat.eqb_spec p 10)|]; lia).
  symmetry in HT. inversion HT; subst x0 t0 f0.
  apply cascade_S_inv in HC. destruct HC as (x1 & t1 & f1 & EL & HC). replace (l + (p - l)) with p in EL by lia.
  assert (PP : parse_lvl (V a + V b + 41 + g) (l + (p - l)) (render_at 0 (PBin o a b) ++ rest) = Some (x1, t1, f1)).
  { replace (l + (p - l)) with p by lia. subst p. rewrite render_bin. cbn [Nat.ltb Nat.leb]. unfold body.
    rewrite <- !app_assoc. cbn [app]. rewrite <- !app_assoc.
    replace (V a + V b + 41 + g) with (V a + 20 + (V b + 20 + S g)) by lia.
    apply Ha. rewrite (loop_op o a b _ rest flb _ fla (Hb (S g))).
    eapply mono_loop; [exact EL|lia]. }
  eapply mono_parse; [eapply (descend (p - l) l (V a + V b + 41 + g)); [| | |exact PP|exact HC]; lia|].
  unfold V. cbn [nodes]. lia.
Qed.

Lemma U_all : forall e, U e.
Proof. induction e; [apply U_atom|apply U_bin; assumption]. Qed.

End Ladder.
Import Ladder.

Theorem prec_roundtrip : forall e, parse (render e) = Some e.
Proof.
  intros e. unfold parse, render.
  destruct (U_all e 0 []) as [fl H]; [lia|intros p _ _; exact I|].
  assert (C : cascade 1 (11 - 0) 0 e [] fl = Some (e, [], fl)) by (apply cascade_skip; intros p _ _; exact I).
  specialize (H 0 _ C). rewrite app_nil_r in H.
  rewrite (mono_parse _ (fuel_of (render_at 0 e)) _ _ _ H); [reflexivity|].
  unfold fuel_of, V. pose proof (render_len e 0). lia.
Qed.
