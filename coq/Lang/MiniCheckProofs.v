(* C04 — soundness of the algorithm (MiniCheck) with respect to the specification (MiniTyping).

   check_with Q p = []  ->  guard Q p = true  ->  wf p

   `guard Q` only constrains the constructs on which a switched-on quirk of Q matters; for
   `patched` and `current` it is vacuous (full soundness), for `pinned` it is the
   syntactic predicate `quirk_free`.  The pinned frontend itself is unsound: witnesses below. *)
From Coq Require Import List Arith Bool.
Import ListNotations.
From DDP Require Import Lang.MiniSyntax Lang.MiniTyping Lang.MiniTypingProofs Lang.MiniCheck Lang.MiniGuard.

Lemma app_nil_iff : forall {A} (a b : list A), a ++ b = [] <-> a = [] /\ b = [].
Proof. intros A a b; split; [apply app_eq_nil | intros [-> ->]; reflexivity]. Qed.

Lemma unless_nil_iff : forall b d, unless b d = [] <-> b = true.
Proof. intros [|] d; cbn; split; intros H; auto; discriminate H. Qed.

Lemma when_nil_iff : forall b d, when b d = [] <-> b = false.
Proof. intros [|] d; cbn; split; intros H; auto; discriminate H. Qed.

Lemma vty_eqb_some : forall a t, vty_eqb a (Some t) = true -> a = Some t.
Proof. intros [a|] t H; cbn in H; [apply ty_eqb_eq in H; subst; auto | discriminate H]. Qed.

Lemma vty_eqb_some_l : forall a t, vty_eqb (Some t) a = true -> a = Some t.
Proof. intros [a|] t H; cbn in H; [apply ty_eqb_eq in H; subst; auto | discriminate H]. Qed.

Lemma assoc_bind_scope_eq : forall {A} x (b : A) s, assoc x ((x, b) :: s) = Some b.
Proof. intros; cbn; rewrite Nat.eqb_refl; reflexivity. Qed.

Lemma mem_false : forall x l, mem x l = false -> ~ In x l.
Proof. intros x l H Hin. apply existsb_eqb_In in Hin. unfold mem in H. congruence. Qed.

Lemma mem_app_false : forall x l1 l2, mem x (l1 ++ l2) = false -> mem x l1 = false /\ mem x l2 = false.
Proof. intros x l1 l2 H; unfold mem in *; rewrite existsb_app in H; apply orb_false_iff in H; auto. Qed.

Section Sound.
Variable Q : quirks.
Variable M : imod.

Notation gde := (gd_expr Q M).
Notation gda := (gd_args Q M).

Lemma tc_un_sound : forall o a r, tc_un o a = (r, []) -> exists t tr, a = Some t /\ r = Some tr /\ un_res o t = Some tr.
Proof.
  intros o [t|] r H; destruct o; cbn in H; injection H as Hr Hd; try discriminate Hd;
    apply unless_nil_iff in Hd; destruct t; try discriminate Hd; subst; cbn; eauto.
Qed.

(* the operators whose operands the typechecker validates one by one (validate2) *)
Definition validated (o : binop) : bool :=
  is_arith o || is_cmp o || is_logic o || match o with BDurch | BMod => true | _ => false end.

Lemma tc_bin_typed : forall o ta tb,
  match bin_res o ta tb with
  | Some tc => tc_bin Q o (Some ta) (Some tb) = (Some tc, [])
  | None => match snd (tc_bin Q o (Some ta) (Some tb)) with [] => False | _ :: _ => True end
  end.
Proof.
  intros o ta tb.
  destruct (validated o) eqn:Ev.
  { destruct o; try discriminate Ev; destruct ta, tb; cbn; first [reflexivity | exact I]. }
  destruct (is_eq o) eqn:Ee.
  { destruct o; try discriminate Ee; unfold bin_res; cbn; (destruct (ty_eqb ta tb); [reflexivity | exact I]). }
  destruct (is_slice1 o) eqn:Es.
  { destruct o; try discriminate Es; unfold bin_res; cbn;
      destruct (seqlike ta) eqn:Ea, (is_index tb) eqn:Eb; cbn; try exact I;
      destruct ta; try discriminate Ea; reflexivity. }
  destruct o; try discriminate.
  - (* an der Stelle *)
    unfold bin_res; cbn. destruct (is_index tb); destruct ta; cbn; first [reflexivity | exact I].
  - (* verkettet mit *)
    unfold bin_res, concat_is_list. unfold tc_bin, vlist, velem, vtextish, validate2. cbn [vty_eqb].
    destruct (is_listb ta || is_listb tb || negb (is_text ta || is_text tb)) eqn:Ec.
    + assert (Hn : negb (is_listb ta) && negb (is_listb tb) && (ty_eqb ta TText || ty_eqb tb TText) = false).
      { destruct ta; destruct tb; cbn in *; try discriminate Ec; reflexivity. }
      rewrite Hn. destruct (ty_eqb (lelem ta) (lelem tb)); [reflexivity | exact I].
    + destruct ta; destruct tb; try discriminate Ec; cbn; first [reflexivity | exact I].
Qed.

Lemma tc_bin_some : forall o ta tb c, tc_bin Q o (Some ta) (Some tb) = (c, []) -> exists tc, c = Some tc /\ bin_res o ta tb = Some tc.
Proof.
  intros o ta tb c H. pose proof (tc_bin_typed o ta tb) as T. destruct (bin_res o ta tb) as [tc|].
  - rewrite T in H. injection H as <-. eauto.
  - rewrite H in T. contradiction T.
Qed.

Lemma tc_bin_untyped : forall o x, is_eq o = false ->
  match snd (tc_bin Q o None x), snd (tc_bin Q o x None) with [], _ | _, [] => False | _, _ => True end.
Proof. intros o [[]|] H; destruct o; try discriminate H; exact I. Qed.

Lemma tc_bin_none : forall o a b c, tc_bin Q o a b = (c, []) -> a = None \/ b = None ->
  is_eq o = true /\ a = None /\ b = None /\ q_void_eq Q = true.
Proof.
  intros o a b c H Hn. destruct (is_eq o) eqn:Ee.
  - destruct o; try discriminate Ee; cbn in H; injection H as _ Hd;
      (destruct a as [ta|], b as [tb|]; cbn in Hd; try discriminate Hd;
       [destruct Hn as [E | E]; discriminate E | apply when_nil_iff, negb_false_iff in Hd; auto]).
  - exfalso. destruct Hn as [-> | ->].
    + pose proof (tc_bin_untyped o b Ee) as T. rewrite H in T. exact T.
    + pose proof (tc_bin_untyped o a Ee) as T. rewrite H in T. destruct (snd (tc_bin Q o None a)); exact T.
Qed.

Lemma struct_of_in : forall s g fs, struct_of M s = Some (g, fs) -> exists p, In (IStruct p s g fs) M.
Proof.
  induction M as [| d M' IH]; intros s g fs H; cbn in H; [discriminate H |].
  destruct d as [p x t | p x t | p f ps r | p s' g' fs' | c0 s0 fs0];
    try (destruct (IH _ _ _ H) as [p0 Hp]; exists p0; right; exact Hp).
  (* IStruct *) destruct (Nat.eqb s s') eqn:E.
  - apply Nat.eqb_eq in E; subst. inversion H; subst. exists p; left; auto.
  - destruct (IH _ _ _ H) as [p0 Hp]; exists p0; right; auto.
Qed.

Lemma field_in_priv : forall fs f t, field_in fs f = Some (false, t) ->
  existsb (fun q : bool * name * ty => match q with (false, h, _) => Nat.eqb f h | _ => false end) fs = true.
Proof.
  induction fs as [| [[p h] t'] fs IH]; intros f t H; cbn in H; [discriminate H |].
  cbn. destruct (Nat.eqb f h) eqn:E.
  - inversion H; subst. reflexivity.
  - rewrite (IH _ _ H). destruct p; reflexivity.
Qed.

Lemma priv_field_false : forall s f pub t, priv_field M f = false -> field_of M s f = Some (pub, t) -> pub = true.
Proof.
  intros s f pub t Hp Hf. unfold field_of in Hf. destruct (struct_of M s) as [[g fs]|] eqn:E; [| discriminate Hf].
  destruct pub; auto. apply struct_of_in in E as [p Hin]. apply field_in_priv in Hf.
  unfold priv_field in Hp. assert (Ht : existsb (fun d => match d with
                    | IStruct _ _ _ fs => existsb (fun q => match q with (false, h, _) => Nat.eqb f h | _ => false end) fs
                    | _ => false end) M = true).
  { apply existsb_exists. exists (IStruct p s g fs); split; auto. }
  congruence.
Qed.

Lemma tc_field_priv_nil : forall G s f pub t, tc_field_priv Q G s pub = [] -> field_of M s f = Some (pub, t) ->
  (q_field_unimported Q = true -> priv_field M f = false) -> pub = true.
Proof.
  intros G s f pub t H Hf Hg. unfold tc_field_priv in H. destruct (q_field_unimported Q).
  - destruct (lookup G s) as [[| | |]|]; try discriminate H.
    + apply unless_nil_iff in H; auto.
    + eapply priv_field_false; eauto.
  - apply unless_nil_iff in H; auto.
Qed.

(* cbn folds a recursive call back into tc_expr, but not a call of its sibling tc_args: hence three equations *)
Lemma tc_args_cons : forall F G e a t r ps,
  tc_args Q M F G (ACons e a) ((t, r) :: ps) =
  (let (t0, d) := tc_expr Q M F G e in d ++ unless (vty_eqb t0 (Some t)) DTypeArg ++ tc_args Q M F G a ps).
Proof. reflexivity. Qed.

Lemma tc_call_eq : forall F G f a,
  tc_expr Q M F G (ECall f a) = match assoc f F with None => (None, []) | Some (ps, r) => (r, tc_args Q M F G a ps) end.
Proof. reflexivity. Qed.

Lemma tc_list_eq : forall F G e a, tc_expr Q M F G (EList e a) =
  (let (t, d) := tc_expr Q M F G e in
   match t with
   | Some t0 => (Some (TList t0), d ++ when (is_listb t0) DTypeOp ++ tc_args Q M F G a (repeat (t0, false) (alen a)))
   | None => (None, d ++ [DTypeOp])
   end).
Proof. reflexivity. Qed.

Lemma tc_un_nil : forall F G o e v, tc_expr Q M F G (EUn o e) = (v, []) <->
  exists t, tc_expr Q M F G e = (t, []) /\ tc_un o t = (v, []).
Proof.
  intros F G o e v. cbn [tc_expr]. destruct (tc_expr Q M F G e) as [t d], (tc_un o t) as [r d'] eqn:Eu. split.
  - intros [= <- H]. apply app_nil_iff in H as [-> ->]. eauto.
  - intros (t' & [= <- ->] & E). rewrite Eu in E. injection E as <- ->. reflexivity.
Qed.

Lemma tc_binop_nil : forall F G o l r v, tc_expr Q M F G (EBin o l r) = (v, []) <->
  exists a b, tc_expr Q M F G l = (a, []) /\ tc_expr Q M F G r = (b, []) /\ tc_bin Q o a b = (v, []).
Proof.
  intros F G o l r v. cbn [tc_expr].
  destruct (tc_expr Q M F G l) as [a d1], (tc_expr Q M F G r) as [b d2], (tc_bin Q o a b) as [c d3] eqn:Eb. split.
  - intros [= <- H]. rewrite !app_nil_iff in H. destruct H as (-> & -> & ->). eauto.
  - intros (a' & b' & [= <- ->] & [= <- ->] & E). rewrite Eb in E. injection E as <- ->. reflexivity.
Qed.

Lemma tc_cast_nil : forall F G e t v, tc_expr Q M F G (ECast e t) = (v, []) <->
  v = Some t /\ exists s, tc_expr Q M F G e = (s, []) /\ vcast_ok s t = true.
Proof.
  intros F G e t v. cbn [tc_expr]. destruct (tc_expr Q M F G e) as [s d]. split.
  - intros [= <- H]. rewrite app_nil_iff, unless_nil_iff in H. destruct H as [-> H]. eauto.
  - intros (-> & s' & [= <- ->] & H). rewrite H. reflexivity.
Qed.

Lemma tc_field_nil : forall F G f e v, tc_expr Q M F G (EField f e) = (v, []) <->
  exists s, tc_expr Q M F G e = (s, []) /\
            match s with
            | Some (TStruct st) => exists pub tf, field_of M st f = Some (pub, tf) /\ v = Some tf /\ tc_field_priv Q G st pub = []
            | _ => v = None
            end.
Proof.
  intros F G f e v. cbn [tc_expr]. destruct (tc_expr Q M F G e) as [s d]. split.
  - intros H. exists s.
    destruct s as [[| | | | | | |st]|]; try (injection H as <- ->; auto; fail).
    destruct (field_of M st f) as [[pub tf]|]; injection H as <- H; apply app_nil_iff in H as [-> H];
      [eauto 6 | discriminate H].
  - intros (s' & [= <- ->] & H). destruct s as [[| | | | | | |st]|]; try (subst v; reflexivity).
    destruct H as (pub & tf & -> & -> & ->). reflexivity.
Qed.

Lemma tc_call_nil : forall F G f a v, tc_expr Q M F G (ECall f a) = (v, []) <->
  match assoc f F with None => v = None | Some (ps, r) => v = r /\ tc_args Q M F G a ps = [] end.
Proof.
  intros F G f a v. rewrite tc_call_eq. destruct (assoc f F) as [[ps r]|]; split.
  - intros [= <- H]; auto.
  - intros [-> ->]; reflexivity.
  - intros [= <-]; reflexivity.
  - intros ->; reflexivity.
Qed.

Lemma tc_slice_nil : forall F G l i j v, tc_expr Q M F G (ESlice l i j) = (v, []) <->
  exists ti tj, tc_expr Q M F G l = (v, []) /\ tc_expr Q M F G i = (ti, []) /\ tc_expr Q M F G j = (tj, []) /\
                vseq v = true /\ vindex ti = true /\ vindex tj = true.
Proof.
  intros F G l i j v. cbn [tc_expr].
  destruct (tc_expr Q M F G l) as [a d1], (tc_expr Q M F G i) as [ti d2], (tc_expr Q M F G j) as [tj d3]. split.
  - intros [= Hv H]. rewrite !app_nil_iff, !unless_nil_iff in H. destruct H as (-> & -> & -> & H1 & H2 & H3).
    exists ti, tj. destruct a as [[]|]; try discriminate H1; subst v; auto 7.
  - intros (ti' & tj' & [= -> ->] & [= <- ->] & [= <- ->] & H1 & -> & ->).
    rewrite H1. destruct v as [[]|]; try discriminate H1; reflexivity.
Qed.

Lemma tc_list_nil : forall F G e a v, tc_expr Q M F G (EList e a) = (v, []) <->
  exists t0, tc_expr Q M F G e = (Some t0, []) /\ is_listb t0 = false /\
             tc_args Q M F G a (repeat (t0, false) (alen a)) = [] /\ v = Some (TList t0).
Proof.
  intros F G e a v. rewrite tc_list_eq. destruct (tc_expr Q M F G e) as [[t0|] d]; split.
  - intros [= <- H]. rewrite !app_nil_iff, when_nil_iff in H. destruct H as (-> & H1 & H2). eauto 6.
  - intros (t' & [= <- ->] & -> & -> & ->). reflexivity.
  - intros [= _ H]. apply app_nil_iff in H as [_ H]. discriminate H.
  - intros (t' & [=] & _).
Qed.

Lemma tc_args_cons_nil : forall F G e a t r ps, tc_args Q M F G (ACons e a) ((t, r) :: ps) = [] <->
  tc_expr Q M F G e = (Some t, []) /\ tc_args Q M F G a ps = [].
Proof.
  intros F G e a t r ps. rewrite tc_args_cons. destruct (tc_expr Q M F G e) as [t0 d]. split.
  - intros H. rewrite !app_nil_iff, unless_nil_iff in H. destruct H as (-> & H1 & H2).
    apply vty_eqb_some in H1; subst; auto.
  - intros ([= -> ->] & ->). cbn. rewrite ty_eqb_refl. reflexivity.
Qed.

Lemma pt_ref_nil : forall G e, pt_ref G e = [] -> exists x, e = EVar x /\ (lookup G x = None \/ exists t, lookup G x = Some (BVar t)).
Proof.
  intros G e H; destruct e; cbn in H; try discriminate H. exists x; split; auto.
  destruct (lookup G x) as [[| | |]|]; try discriminate H; eauto.
Qed.

Lemma pt_args_repeat : forall F G a t1 t2,
  pt_args F G a (repeat (t1, false) (alen a)) = pt_args F G a (repeat (t2, false) (alen a)).
Proof. intros F G; induction a as [| e a IH]; intros t1 t2; cbn; [reflexivity |]. rewrite (IH t1 t2). reflexivity. Qed.


Lemma vseq_some : forall a, vseq a = true -> exists t, a = Some t /\ seqlike t = true.
Proof. intros [t|] H; [eauto | discriminate H]. Qed.
Lemma vindex_some : forall a, vindex a = true -> exists t, a = Some t /\ is_index t = true.
Proof. intros [t|] H; [eauto | discriminate H]. Qed.

(* resolver diagnostics need to be empty only where `gleich` accepts operands without a type: elsewhere an
   expression without a type is rejected by whatever uses it *)
Definition resolved (l : list diag) : Prop := q_void_eq Q = true -> l = [].

Lemma resolved_nil : forall l, l = [] -> resolved l.
Proof. intros l H _; exact H. Qed.

Lemma resolved_app : forall a b, resolved (a ++ b) -> resolved a /\ resolved b.
Proof. intros a b H; split; intros q; apply H in q; apply app_nil_iff in q; tauto. Qed.

Lemma tc_sound : forall F G,
  (forall e v, pt_expr F G e = [] -> resolved (rs_expr G e) -> gde e = true -> tc_expr Q M F G e = (v, []) ->
     match v with Some t => type_of M F G e = Some t | None => rs_expr G e = [] -> callish e = true end) /\
  (forall a ps, pt_args F G a ps = [] -> resolved (rs_args G a) -> gda a = true -> tc_args Q M F G a ps = [] ->
     args_chk M F G a ps = true).
Proof.
  intros F G; apply expr_args_ind.
  - (* ELit *) intros l v _ _ _ H; inversion H; reflexivity.
  - (* EEmpty *) intros t v Hp _ _ H; inversion H; cbn. cbn in Hp. apply unless_nil_iff in Hp. rewrite Hp; reflexivity.
  - (* EVar *) intros x v _ _ _ H; cbn in *. injection H as <-. unfold rs_ident.
    destruct (lookup G x) as [[| | |]|]; try reflexivity; discriminate.
  - (* EUn *) intros o e IH v Hp Hr Hg H. apply tc_un_nil in H as (t & E & Eu).
    apply tc_un_sound in Eu as (t0 & tr & -> & -> & Hu). cbn. rewrite (IH _ Hp Hr Hg E); exact Hu.
  - (* EBin *) intros o l IHl r IHr v Hp Hr Hg H. apply tc_binop_nil in H as (a & b & El & Er & Eb).
    cbn in Hp, Hr, Hg. apply app_nil_iff in Hp as [Hpl Hpr]. apply resolved_app in Hr as [Hrl Hrr].
    rewrite !andb_true_iff in Hg. destruct Hg as ((Hgl & Hgr) & Hge).
    specialize (IHl _ Hpl Hrl Hgl El). specialize (IHr _ Hpr Hrr Hgr Er).
    destruct a as [ta|], b as [tb|].
    + apply tc_bin_some in Eb as (tc & -> & Hb). cbn. rewrite IHl, IHr; exact Hb.
    + apply tc_bin_none in Eb as (_ & Ha & _); auto. discriminate Ha.
    + apply tc_bin_none in Eb as (_ & _ & Hb & _); auto. discriminate Hb.
    + (* gleich on two operands without a type: the guard excludes calls and field accesses *)
      apply tc_bin_none in Eb as (He & _ & _ & Hq); auto.
      rewrite Hq, He, (IHl (Hrl Hq)) in Hge. discriminate Hge.
  - (* ECast *) intros e IH t v Hp Hr Hg H. apply tc_cast_nil in H as (-> & s & E & Hc).
    cbn in Hp. apply app_nil_iff in Hp as [Hpe Hpt]. apply unless_nil_iff in Hpt.
    destruct s as [s|]; [| discriminate Hc]. cbn in Hc |- *. rewrite (IH _ Hpe Hr Hg E), Hpt, Hc; reflexivity.
  - (* EField *) intros f e IH v Hp Hr Hg H. apply tc_field_nil in H as (s & E & H).
    cbn in Hg. apply andb_true_iff in Hg as [Hg Hgf].
    destruct s as [[| | | | | | |st]|]; try (subst v; reflexivity).
    destruct H as (pub & tf & Ef & -> & Hpv). cbn. rewrite (IH _ Hp Hr Hg E), Ef.
    assert (pub = true) as ->; [| reflexivity].
    apply (tc_field_priv_nil G st f pub tf Hpv Ef). intros Hq; rewrite Hq in Hgf. apply negb_true_iff in Hgf; exact Hgf.
  - (* ECall *) intros f a IH v Hp Hr Hg H. apply tc_call_nil in H. cbn in Hp, Hr, Hg |- *. fold gda in Hg.
    destruct (assoc f F) as [[ps r]|]; [| discriminate Hp]. destruct H as [-> H].
    destruct r as [t|]; [| reflexivity]. rewrite (IH _ Hp Hr Hg H); reflexivity.
  - (* ESlice *) intros l IHl i IHi j IHj v Hp Hr Hg H.
    apply tc_slice_nil in H as (ti & tj & El & Ei & Ej & H1 & H2 & H3).
    cbn in Hp, Hr, Hg. apply app_nil_iff in Hp as [Hpl Hp]. apply app_nil_iff in Hp as [Hpi Hpj].
    apply resolved_app in Hr as [Hrl Hr]. apply resolved_app in Hr as [Hri Hrj].
    rewrite !andb_true_iff in Hg. destruct Hg as ((Hgl & Hgi) & Hgj).
    apply vseq_some in H1 as (ta & -> & Hta). apply vindex_some in H2 as (t2 & -> & Ht2).
    apply vindex_some in H3 as (t3 & -> & Ht3).
    cbn. rewrite (IHl _ Hpl Hrl Hgl El), (IHi _ Hpi Hri Hgi Ei), (IHj _ Hpj Hrj Hgj Ej), Hta, Ht2, Ht3. reflexivity.
  - (* EList *) intros e IHe a IHa v Hp Hr Hg H. apply tc_list_nil in H as (t0 & Ee & Hl & Ha & ->).
    cbn in Hp, Hr, Hg. fold gda in Hg. apply app_nil_iff in Hp as [Hpe Hpa]. apply resolved_app in Hr as [Hre Hra].
    apply andb_true_iff in Hg as [Hge Hga]. rewrite (pt_args_repeat F G a TZahl t0) in Hpa.
    cbn. rewrite (IHe _ Hpe Hre Hge Ee), Hl, (IHa _ Hpa Hra Hga Ha). reflexivity.
  - (* ANil *) intros ps Hp _ _ _; destruct ps; [reflexivity | discriminate Hp].
  - (* ACons *) intros e IHe a IHa ps Hp Hr Hg H. cbn in Hr, Hg. fold gde in Hg.
    apply resolved_app in Hr as [Hre Hra]. apply andb_true_iff in Hg as [Hge Hga].
    destruct ps as [| [t [|]] ps]; cbn in Hp; try discriminate Hp; apply app_nil_iff in Hp as [Hpe Hpa];
      apply tc_args_cons_nil in H as [E Ha].
    + (* Referenz: a name that does not resolve has no type, which is an argument mismatch *)
      apply pt_ref_nil in Hpe as (x & -> & Hx). cbn in E |- *. injection E as E.
      destruct Hx as [Hx | [t0 Hx]]; rewrite Hx in E |- *; [discriminate E | injection E as ->].
      rewrite ty_eqb_refl. apply IHa; auto.
    + cbn. rewrite (IHe _ Hpe Hre Hge E), ty_eqb_refl. apply IHa; auto.
Qed.

(* the initialiser evaluated with the declared variable already in the table *)
Lemma tc_bind_inv : forall F G x tx,
  (forall e v, mem x (fv_expr e) = false -> tc_expr Q M F (bind G x (BVar tx)) e = (v, []) -> tc_expr Q M F G e = (v, [])) /\
  (forall a ps, mem x (fv_args a) = false -> tc_args Q M F (bind G x (BVar tx)) a ps = [] -> tc_args Q M F G a ps = []).
Proof.
  intros F G x tx; apply expr_args_ind.
  - (* ELit *) intros l v _ H; exact H.
  - (* EEmpty *) intros t v _ H; exact H.
  - (* EVar *) intros y v Hn H; cbn in *. rewrite orb_false_r in Hn. apply Nat.eqb_neq in Hn.
    rewrite lookup_bind_neq in H; auto.
  - (* EUn *) intros o e IH v Hn H. cbn in Hn. apply tc_un_nil in H as (t & E & Eu). apply tc_un_nil. exists t; auto.
  - (* EBin *) intros o l IHl r IHr v Hn H. cbn in Hn. apply mem_app_false in Hn as [Hnl Hnr].
    apply tc_binop_nil in H as (a & b & El & Er & Eb). apply tc_binop_nil. exists a, b; auto.
  - (* ECast *) intros e IH t v Hn H. cbn in Hn. apply tc_cast_nil in H as (-> & s & E & Hc). apply tc_cast_nil. split; [reflexivity | exists s; auto].
  - (* EField *) intros f e IH v Hn H. cbn in Hn. apply tc_field_nil in H as (s & E & H). apply tc_field_nil.
    exists s; split; [apply IH; assumption |].
    destruct s as [[| | | | | | |st]|]; auto. destruct H as (pub & tf & Ef & -> & Hpv). exists pub, tf. repeat split; auto.
    (* a Kombination called x would be hidden by the new binding, which makes the lookup by name panic *)
    unfold tc_field_priv in *. destruct (q_field_unimported Q); [| exact Hpv].
    destruct (Nat.eq_dec st x) as [-> | Hne].
    + rewrite lookup_bind_eq in Hpv. discriminate Hpv.
    + rewrite lookup_bind_neq in Hpv; auto.
  - (* ECall *) intros f a IH v Hn H. cbn in Hn. apply tc_call_nil in H. apply tc_call_nil.
    destruct (assoc f F) as [[ps r]|]; [| exact H]. destruct H as [-> H]. auto.
  - (* ESlice *) intros l IHl i IHi j IHj v Hn H. cbn in Hn.
    apply mem_app_false in Hn as [Hnl Hn]. apply mem_app_false in Hn as [Hni Hnj].
    apply tc_slice_nil in H as (ti & tj & El & Ei & Ej & H). apply tc_slice_nil. exists ti, tj. repeat split; try apply H; auto.
  - (* EList *) intros e IHe a IHa v Hn H. cbn in Hn. apply mem_app_false in Hn as [Hne Hna].
    apply tc_list_nil in H as (t0 & Ee & Hl & Ha & ->). apply tc_list_nil. exists t0. auto 6.
  - (* ANil *) intros ps _ H; exact H.
  - (* ACons *) intros e IHe a IHa ps Hn H. destruct ps as [| [t r] ps]; [exact H |].
    cbn in Hn. apply mem_app_false in Hn as [Hne Hna].
    apply tc_args_cons_nil in H as [E Ha]. apply tc_args_cons_nil. auto.
Qed.

(* the resolver only depends on the bindings of the variables of the expression *)
Lemma rs_ext : forall G1 G2,
  (forall e, (forall y, In y (fv_expr e) -> lookup G1 y = lookup G2 y) -> rs_expr G1 e = rs_expr G2 e) /\
  (forall a, (forall y, In y (fv_args a) -> lookup G1 y = lookup G2 y) -> rs_args G1 a = rs_args G2 a).
Proof.
  intros G1 G2; apply expr_args_ind; cbn; intros; auto.
  - unfold rs_ident. rewrite H; auto.
  - rewrite H, H0; auto; intros y Hy; apply H1; apply in_or_app; auto.
  - rewrite H, H0, H1; auto; intros y Hy; apply H2; apply in_or_app; auto; right; apply in_or_app; auto.
  - rewrite H, H0; auto; intros y Hy; apply H1; apply in_or_app; auto.
  - rewrite H, H0; auto; intros y Hy; apply H1; apply in_or_app; auto.
Qed.

(* cbn leaves a call of the sibling ck_block / tcs_block unfolded; `fold` names it again *)
Lemma art_diag_nil_iff : forall t a, art_diag M t a = [] <-> genderb M t a = true.
Proof.
  intros t a; unfold art_diag, genderb. destruct (gender M t); [apply unless_nil_iff |].
  split; intros H; discriminate H.
Qed.

Lemma ck_var_nil : forall F G d r a t x e G', ck_stmt Q M F G d r (SVar a t x e) = ([], G') <->
  ty_ok G t = true /\ genderb M t a = true /\ pt_expr F G e = [] /\ rs_expr G e = [] /\ in_top G x = false /\
  G' = bind G x (BVar t) /\ tc_init Q M F (if q_tc_by_name Q then bind G x (BVar t) else G) e t = [].
Proof.
  intros. cbn [ck_stmt tcs_stmt]. unfold insert, pt_type. destruct (in_top G x); cbv beta iota; split.
  - intros [= H _]. rewrite !app_nil_iff in H. destruct H as (_ & _ & H). discriminate H.
  - intros (_ & _ & _ & _ & H & _). discriminate H.
  - intros [= H <-]. rewrite !app_nil_iff, unless_nil_iff, art_diag_nil_iff in H.
    destruct H as ((H1 & H2 & H3) & H4 & H5). auto 10.
  - intros (-> & Ha & -> & -> & _ & -> & ->). rewrite (proj2 (art_diag_nil_iff _ _) Ha). reflexivity.
Qed.

Lemma ck_const_nil : forall F G d r a x l G', ck_stmt Q M F G d r (SConst a x l) = ([], G') <->
  a = Die /\ in_top G x = false /\ G' = bind G x (BConst (lit_ty l)).
Proof.
  intros. cbn [ck_stmt]. unfold insert. rewrite <- article_eqb_iff. destruct (in_top G x); cbv beta iota; split.
  - intros [= H _]. apply app_nil_iff in H as [_ H]. discriminate H.
  - intros (_ & H & _). discriminate H.
  - intros [= H <-]. rewrite app_nil_iff, unless_nil_iff in H. tauto.
  - intros (-> & _ & ->). reflexivity.
Qed.

(* parser and resolver together: the target of an assignment is a variable *)
Lemma target_nil : forall G x,
  match lookup G x with Some (BVar _) | None => [] | Some _ => [DConstAssign] end = [] /\ rs_ident G x = [] <->
  exists t, lookup G x = Some (BVar t).
Proof.
  intros G x. unfold rs_ident. destruct (lookup G x) as [[| | |]|]; split;
    try (intros [H1 H2]; discriminate); try (intros [t0 [=]]); eauto.
Qed.

Lemma ck_assign_nil : forall F G d r x e G', ck_stmt Q M F G d r (SAssign x e) = ([], G') <->
  G' = G /\ pt_expr F G e = [] /\ (exists t, lookup G x = Some (BVar t)) /\ rs_expr G e = [] /\
  tcs_stmt Q M (q_tc_by_name Q) F G r (SAssign x e) = [].
Proof.
  intros. cbn [ck_stmt]. split.
  - intros [= H <-]. rewrite !app_nil_iff in H. destruct H as ((Hp & Hc) & (Hx & Hr) & Ht).
    repeat split; auto. destruct (lookup G x) as [[| | |]|]; try discriminate Hx; eauto.
  - intros (-> & -> & (t & ->) & -> & ->). reflexivity.
Qed.

Lemma ck_assignidx_nil : forall F G d r x i e G', ck_stmt Q M F G d r (SAssignIdx x i e) = ([], G') <->
  G' = G /\ pt_expr F G e = [] /\ pt_expr F G i = [] /\ (exists t, lookup G x = Some (BVar t)) /\
  rs_expr G i = [] /\ rs_expr G e = [] /\ tcs_stmt Q M (q_tc_by_name Q) F G r (SAssignIdx x i e) = [].
Proof.
  intros. cbn [ck_stmt]. split.
  - intros [= H <-]. rewrite !app_nil_iff in H. destruct H as ((Hpe & Hc & Hpi) & (Hx & Hri & Hre) & Ht).
    repeat split; auto. apply target_nil; auto.
  - intros (-> & -> & -> & Hx & -> & -> & ->). apply target_nil in Hx as [-> ->]. reflexivity.
Qed.

Lemma ck_assignfield_nil : forall F G d r f x e G', ck_stmt Q M F G d r (SAssignField f x e) = ([], G') <->
  G' = G /\ pt_expr F G e = [] /\
  (if q_field_name_lookup Q then match lookup G f with Some (BVar _) | None => [] | Some _ => [DConstAssign] end else []) = [] /\
  (exists t, lookup G x = Some (BVar t)) /\ rs_expr G e = [] /\
  tcs_stmt Q M (q_tc_by_name Q) F G r (SAssignField f x e) = [].
Proof.
  intros. cbn [ck_stmt]. split.
  - intros [= H <-]. rewrite !app_nil_iff in H. destruct H as ((Hpe & Hf & Hc) & (Hx & Hre) & Ht).
    repeat split; auto. apply target_nil; auto.
  - intros (-> & -> & -> & Hx & -> & ->). apply target_nil in Hx as [-> ->]. reflexivity.
Qed.

Lemma ck_if_nil : forall F G d r c th el G', ck_stmt Q M F G d r (SIf c th el) = ([], G') <->
  G' = G /\ pt_expr F G c = [] /\ rs_expr G c = [] /\
  (exists G1, ck_block Q M F (push G) d r th = ([], G1)) /\ (exists G2, ck_block Q M F (push G) d r el = ([], G2)) /\
  tcs_stmt Q M (q_tc_by_name Q) F G r (SIf c th el) = [].
Proof.
  intros. cbn [ck_stmt]. fold (ck_block Q M).
  destruct (ck_block Q M F (push G) d r th) as [d1 G1], (ck_block Q M F (push G) d r el) as [d2 G2]. split.
  - intros [= H <-]. rewrite !app_nil_iff in H. destruct H as (Hp & -> & -> & Hr & Ht). eauto 10.
  - intros (-> & -> & -> & (? & [= -> _]) & (? & [= -> _]) & ->). reflexivity.
Qed.

Lemma ck_while_nil : forall F G d r c b G', ck_stmt Q M F G d r (SWhile c b) = ([], G') <->
  G' = G /\ pt_expr F G c = [] /\ rs_expr G c = [] /\ (exists G1, ck_block Q M F (push G) (S d) r b = ([], G1)) /\
  tcs_stmt Q M (q_tc_by_name Q) F G r (SWhile c b) = [].
Proof.
  intros. cbn [ck_stmt]. fold (ck_block Q M). destruct (ck_block Q M F (push G) (S d) r b) as [d1 G1]. split.
  - intros [= H <-]. rewrite !app_nil_iff in H. destruct H as (Hp & -> & Hr & Ht). eauto 10.
  - intros (-> & -> & -> & (? & [= -> _]) & ->). reflexivity.
Qed.

Lemma ck_for_nil : forall F G d r a t x from to step b G', ck_stmt Q M F G d r (SFor a t x from to step b) = ([], G') <->
  G' = G /\ ty_ok G t = true /\ genderb M t a = true /\
  pt_expr F G from = [] /\ pt_expr F G to = [] /\ pt_opt F G step = [] /\
  (exists Gb, ck_block Q M F (bind (push G) x (BVar t)) (S d) r b = ([], Gb) /\
              let Gr := if q_tc_by_name Q then Gb else G in
              rs_expr Gr from = [] /\ rs_expr Gr to = [] /\ rs_opt Gr step = []) /\
  tcs_stmt Q M (q_tc_by_name Q) F G r (SFor a t x from to step b) = [].
Proof.
  intros. cbn [ck_stmt]. fold (ck_block Q M). unfold pt_type.
  destruct (ck_block Q M F (bind (push G) x (BVar t)) (S d) r b) as [d1 Gb]. split.
  - intros [= H <-]. apply app_nil_iff in H as [Hp H]. apply app_nil_iff in H as [-> H]. apply app_nil_iff in H as [Hr Ht].
    rewrite !app_nil_iff, unless_nil_iff, art_diag_nil_iff in Hp. rewrite !app_nil_iff in Hr.
    destruct Hp as (Hpt & Hpa & Hpf & Hpto & Hps). repeat split; auto. exists Gb; auto.
  - intros (-> & -> & Ha & -> & -> & -> & (? & [= -> <-] & -> & -> & ->) & ->).
    rewrite (proj2 (art_diag_nil_iff _ _) Ha). reflexivity.
Qed.

Lemma ck_foreach_nil : forall F G d r a t x e b G', ck_stmt Q M F G d r (SForEach a t x e b) = ([], G') <->
  G' = G /\ ty_ok G t = true /\ genderb M t a = true /\ pt_expr F G e = [] /\ rs_expr G e = [] /\
  (exists Gb, ck_block Q M F (bind (push G) x (BVar t)) (S d) r b = ([], Gb)) /\
  tcs_stmt Q M (q_tc_by_name Q) F G r (SForEach a t x e b) = [].
Proof.
  intros. cbn [ck_stmt]. fold (ck_block Q M). unfold pt_type.
  destruct (ck_block Q M F (bind (push G) x (BVar t)) (S d) r b) as [d1 Gb]. split.
  - intros [= H <-]. rewrite !app_nil_iff, unless_nil_iff, art_diag_nil_iff in H.
    destruct H as ((Hpt & Hpa & Hpe) & -> & Hr & Ht). eauto 12.
  - intros (-> & -> & Ha & -> & -> & (? & [= -> _]) & ->). rewrite (proj2 (art_diag_nil_iff _ _) Ha). reflexivity.
Qed.

Lemma ck_repeat_nil : forall F G d r b n G', ck_stmt Q M F G d r (SRepeat b n) = ([], G') <->
  G' = G /\ pt_expr F G n = [] /\ rs_expr G n = [] /\ (exists G1, ck_block Q M F (push G) (S d) r b = ([], G1)) /\
  tcs_stmt Q M (q_tc_by_name Q) F G r (SRepeat b n) = [].
Proof.
  intros. cbn [ck_stmt]. fold (ck_block Q M). destruct (ck_block Q M F (push G) (S d) r b) as [d1 G1]. split.
  - intros [= H <-]. rewrite !app_nil_iff in H. destruct H as (-> & Hp & Hr & Ht). eauto 10.
  - intros (-> & -> & -> & (? & [= -> _]) & ->). reflexivity.
Qed.

Lemma ck_dowhile_nil : forall F G d r b c G', ck_stmt Q M F G d r (SDoWhile b c) = ([], G') <->
  G' = G /\ pt_expr F G c = [] /\ rs_expr G c = [] /\ (exists G1, ck_block Q M F (push G) (S d) r b = ([], G1)) /\
  tcs_stmt Q M (q_tc_by_name Q) F G r (SDoWhile b c) = [].
Proof.
  intros. cbn [ck_stmt]. fold (ck_block Q M). destruct (ck_block Q M F (push G) (S d) r b) as [d1 G1]. split.
  - intros [= H <-]. rewrite !app_nil_iff in H. destruct H as (-> & Hp & Hr & Ht). eauto 10.
  - intros (-> & -> & -> & (? & [= -> _]) & ->). reflexivity.
Qed.

Lemma ck_jump_nil : forall F G d r s G', s = SBreak \/ s = SContinue ->
  (ck_stmt Q M F G d r s = ([], G') <-> G' = G /\ exists d', d = S d').
Proof.
  intros F G d r s G' [-> | ->]; cbn [ck_stmt]; destruct d; (split; [intros [= <-] | intros (-> & d' & [=])]); eauto.
Qed.

Lemma ck_return_nil : forall F G d r oe G', ck_stmt Q M F G d r (SReturn oe) = ([], G') <->
  G' = G /\ pt_opt F G oe = [] /\ (exists rt, r = RFun rt) /\ rs_opt G oe = [] /\ tc_return Q M F G r oe = [].
Proof.
  intros. cbn [ck_stmt tcs_stmt]. split.
  - intros [= H <-]. rewrite !app_nil_iff in H. destruct H as ((Hp & Hg) & Hr & Ht).
    repeat split; auto. destruct r; [discriminate Hg | eauto].
  - intros (-> & -> & (rt & ->) & -> & ->). reflexivity.
Qed.

Lemma ck_blockstmt_nil : forall F G d r b G', ck_stmt Q M F G d r (SBlock b) = ([], G') <->
  G' = G /\ (exists G1, ck_block Q M F (push G) d r b = ([], G1)) /\
  tcs_stmt Q M (q_tc_by_name Q) F G r (SBlock b) = [].
Proof.
  intros. cbn [ck_stmt]. fold (ck_block Q M). destruct (ck_block Q M F (push G) d r b) as [d1 G1]. split.
  - intros [= H <-]. rewrite !app_nil_iff in H. destruct H as (-> & Ht). eauto.
  - intros (-> & (? & [= -> _]) & ->). reflexivity.
Qed.

Lemma ck_call_nil : forall F G d r f a G', ck_stmt Q M F G d r (SCall f a) = ([], G') <->
  G' = G /\ pt_expr F G (ECall f a) = [] /\ rs_args G a = [] /\ snd (tc_expr Q M F G (ECall f a)) = [].
Proof.
  intros. cbn [ck_stmt tcs_stmt]. split.
  - intros [= H <-]. rewrite !app_nil_iff in H. tauto.
  - intros (-> & -> & -> & ->). reflexivity.
Qed.

Lemma ck_cons_nil : forall F G d r s b G2, ck_block Q M F G d r (BCons s b) = ([], G2) <->
  exists G1, ck_stmt Q M F G d r s = ([], G1) /\ ck_block Q M F G1 d r b = ([], G2).
Proof.
  intros. cbn [ck_block]. fold (ck_stmt Q M).
  destruct (ck_stmt Q M F G d r s) as [d1 G1], (ck_block Q M F G1 d r b) as [d2 G2'] eqn:E. split.
  - intros [= H <-]. apply app_nil_iff in H as [-> ->]. eauto.
  - intros (? & [= -> <-] & H). rewrite E in H. injection H as -> ->. reflexivity.
Qed.

Lemma if_deep_nil : forall (deep : bool) (l : list diag), (if deep then l else []) = [] <-> (deep = true -> l = []).
Proof. intros [|] l; split; auto; discriminate. Qed.

Lemma tcs_if_nil : forall deep F G r c th el, tcs_stmt Q M deep F G r (SIf c th el) = [] <->
  tc_cond Q M F G c = [] /\
  (deep = true -> tcs_block Q M deep F (final_scope [] th :: G) r th = [] /\ tcs_block Q M deep F (final_scope [] el :: G) r el = []).
Proof. intros. cbn [tcs_stmt]. fold (tcs_block Q M). rewrite app_nil_iff, if_deep_nil, app_nil_iff. reflexivity. Qed.

Lemma tcs_while_nil : forall deep F G r c b, tcs_stmt Q M deep F G r (SWhile c b) = [] <->
  tc_cond Q M F G c = [] /\ (deep = true -> tcs_block Q M deep F (final_scope [] b :: G) r b = []).
Proof. intros. cbn [tcs_stmt]. fold (tcs_block Q M). rewrite app_nil_iff, if_deep_nil. reflexivity. Qed.

Lemma tcs_dowhile_nil : forall deep F G r b c, tcs_stmt Q M deep F G r (SDoWhile b c) = [] <->
  tc_cond Q M F G c = [] /\ (deep = true -> tcs_block Q M deep F (final_scope [] b :: G) r b = []).
Proof. intros. cbn [tcs_stmt]. fold (tcs_block Q M). rewrite app_nil_iff, if_deep_nil. reflexivity. Qed.

Lemma tcs_repeat_nil : forall deep F G r b n, tcs_stmt Q M deep F G r (SRepeat b n) = [] <->
  (let (tn, d) := tc_expr Q M F G n in d ++ unless (vindex tn) DTypeOp) = [] /\
  (deep = true -> tcs_block Q M deep F (final_scope [] b :: G) r b = []).
Proof. intros. cbn [tcs_stmt]. fold (tcs_block Q M). rewrite app_nil_iff, if_deep_nil. reflexivity. Qed.

Lemma tcs_blockstmt_nil : forall deep F G r b, tcs_stmt Q M deep F G r (SBlock b) = [] <->
  (deep = true -> tcs_block Q M deep F (final_scope [] b :: G) r b = []).
Proof. intros. cbn [tcs_stmt]. fold (tcs_block Q M). apply if_deep_nil. Qed.

Lemma tcs_for_nil : forall deep F G r a t x from to step b, tcs_stmt Q M deep F G r (SFor a t x from to step b) = [] <->
  tc_init Q M F G from t = [] /\ numeric t = true /\ tc_numeric Q M F G to = [] /\
  match step with Some e => tc_numeric Q M F G e | None => [] end = [] /\
  (deep = true -> tcs_block Q M deep F (final_scope [(x, BVar t)] b :: G) r b = []).
Proof.
  intros. cbn [tcs_stmt]. fold (tcs_block Q M). rewrite !app_nil_iff, unless_nil_iff, if_deep_nil. reflexivity.
Qed.

Lemma tcs_foreach_nil : forall deep F G r a t x e b, tcs_stmt Q M deep F G r (SForEach a t x e b) = [] <->
  tc_iter Q M F G e t = [] /\ (deep = true -> tcs_block Q M deep F (final_scope [(x, BVar t)] b :: G) r b = []).
Proof. intros. cbn [tcs_stmt]. fold (tcs_block Q M). rewrite app_nil_iff, if_deep_nil. reflexivity. Qed.

Lemma tcs_cons_nil : forall deep F G r s b, tcs_block Q M deep F G r (BCons s b) = [] <->
  tcs_stmt Q M deep F G r s = [] /\ tcs_block Q M deep F G r b = [].
Proof. intros. cbn [tcs_block]. fold (tcs_stmt Q M). apply app_nil_iff. Qed.

Lemma env_after_head : forall sc G s, (forall x b, stmt_binding s = Some (x, b) -> in_top (sc :: G) x = false) ->
  env_after (sc :: G) s = final_scope sc (BCons s BNil) :: G.
Proof.
  intros sc G s H; destruct s; try reflexivity;
    specialize (H _ _ eq_refl); cbn in *; unfold scope_add;
    (destruct (assoc x sc); [discriminate H | reflexivity]).
Qed.

Lemma final_scope_cons : forall s b sc, final_scope sc (BCons s b) = final_scope (final_scope sc (BCons s BNil)) b.
Proof. intros s b sc; destruct s; reflexivity. Qed.

(* the table a well-formed block leaves is the one the typechecker finds when it visits the block again *)
Lemma block_ok_final : forall F b sc G d r G1, block_ok M F (sc :: G) d r b G1 -> G1 = final_scope sc b :: G.
Proof.
  intros F; induction b as [| s b IH]; intros sc G d r G1 H; inversion H as [| ? ? ? ? ? G2 ? Hs Hb]; subst.
  - reflexivity.
  - apply stmt_ok_env in Hs as [-> Hs]. rewrite (env_after_head _ _ _ Hs) in Hb.
    rewrite final_scope_cons. apply IH in Hb; exact Hb.
Qed.

Lemma final_scope_names : forall b sc y,
  In y (map fst (final_scope sc b)) -> In y (map fst sc) \/ In y (block_decls b).
Proof.
  induction b as [| s b IH]; intros sc y H; [left; exact H |].
  rewrite final_scope_cons in H. apply IH in H as [H | H]; [| right; destruct s; cbn; auto].
  destruct s; auto; cbn in H; unfold scope_add in H; destruct (assoc x sc); auto;
    (destruct H as [<- | H]; cbn; auto).
Qed.

Lemma disjointb_spec : forall l1 l2 y, disjointb l1 l2 = true -> In y l1 -> ~ In y l2.
Proof.
  intros l1 l2 y H Hy. unfold disjointb in H. rewrite forallb_forall in H. apply H in Hy.
  apply negb_true_iff in Hy. apply mem_false; auto.
Qed.

(* With q_tc_by_name the resolver resolves the bounds of a counting loop in the final table of the loop body
   (resolver.VisitForStmt).  That decides acceptance only while `gleich` accepts operands without a type (otherwise the
   typechecker, looking names up in G, rejects what does not resolve there): hence the guard's condition under q_void_eq. *)
Lemma for_bounds_resolved : forall G x t b from to step,
  disjointb (fv_expr from ++ fv_expr to ++ fv_opt step) (x :: block_decls b) = true ->
  let Gr := if q_tc_by_name Q then final_scope [(x, BVar t)] b :: G else G in
  rs_expr Gr from = [] /\ rs_expr Gr to = [] /\ rs_opt Gr step = [] ->
  rs_expr G from = [] /\ rs_expr G to = [] /\ rs_opt G step = [].
Proof.
  intros G x t b from to step Hd Gr H. unfold Gr in H. destruct (q_tc_by_name Q); [| exact H].
  assert (Hsame : forall y, In y (fv_expr from ++ fv_expr to ++ fv_opt step) ->
                            lookup (final_scope [(x, BVar t)] b :: G) y = lookup G y).
  { intros y Hy. apply lookup_skip. intros Hin. apply final_scope_names in Hin.
    apply (disjointb_spec _ _ _ Hd Hy). cbn in Hin. destruct Hin as [[<- | []] | Hin]; [left | right]; auto. }
  destruct H as (Hf & Ht & Hs).
  rewrite (proj1 (rs_ext _ G) from) in Hf by (intros y Hy; apply Hsame; apply in_or_app; auto).
  rewrite (proj1 (rs_ext _ G) to) in Ht by (intros y Hy; apply Hsame; apply in_or_app; right; apply in_or_app; auto).
  repeat split; auto. destruct step as [e|]; auto. cbn in *.
  rewrite (proj1 (rs_ext _ G) e) in Hs by (intros y Hy; apply Hsame; apply in_or_app; right; apply in_or_app; auto).
  exact Hs.
Qed.

Lemma vassign_ok_some : forall s t, vassign_ok (Some s) (Some t) = assignableb s t.
Proof. intros s t; unfold vassign_ok, assignableb; cbn. rewrite (ty_eqb_sym t s), (andb_comm (numeric t)); reflexivity. Qed.

Lemma vassign_ok_none : forall t, vassign_ok None (Some t) = false.
Proof. intros t; unfold vassign_ok; cbn. apply andb_false_r. Qed.

Section SlotsSound.
Variables (F : fenv) (G : env) (e : expr).
Hypothesis Hp : pt_expr F G e = [].
Hypothesis Hr : resolved (rs_expr G e).
Hypothesis Hg : gde e = true.

Lemma tc_typed : forall t, tc_expr Q M F G e = (Some t, []) -> has_type M F G e t.
Proof. intros t E. apply type_of_iff. exact (proj1 (tc_sound F G) _ _ Hp Hr Hg E). Qed.

Lemma tc_slot_sound : forall (p : vty -> bool) D, p None = false ->
  (let (t, d) := tc_expr Q M F G e in d ++ unless (p t) D) = [] -> exists s, has_type M F G e s /\ p (Some s) = true.
Proof.
  intros p D Hnone H. destruct (tc_expr Q M F G e) as [t d] eqn:E.
  rewrite app_nil_iff, unless_nil_iff in H. destruct H as [-> H].
  destruct t as [s|]; [| congruence]. exists s; split; [apply tc_typed; exact E | exact H].
Qed.

Lemma tc_assignable_sound : forall t D,
  (let (t0, d) := tc_expr Q M F G e in d ++ unless (vassign_ok t0 (Some t)) D) = [] ->
  exists t0, has_type M F G e t0 /\ assignable t0 t.
Proof.
  intros t D H. destruct (tc_slot_sound _ D (vassign_ok_none t) H) as (s & Hs & Ha).
  rewrite vassign_ok_some in Ha. exists s; split; [exact Hs | apply assignableb_ok; exact Ha].
Qed.

Lemma tc_cond_sound : tc_cond Q M F G e = [] -> has_type M F G e TBool.
Proof. intros H. destruct (tc_slot_sound vbool _ eq_refl H) as ([] & Hs & Hb); try discriminate Hb. exact Hs. Qed.

Lemma tc_numeric_sound : tc_numeric Q M F G e = [] -> exists t, has_type M F G e t /\ numeric t = true.
Proof. apply (tc_slot_sound vnumeric _ eq_refl). Qed.

Lemma tc_index_sound : (let (t, d) := tc_expr Q M F G e in d ++ unless (vindex t) DTypeOp) = [] ->
  exists t, has_type M F G e t /\ is_index t = true.
Proof. apply (tc_slot_sound vindex _ eq_refl). Qed.

Lemma tc_iter_sound : forall t, tc_iter Q M F G e t = [] -> exists te, has_type M F G e te /\ iter_ok te t.
Proof.
  intros t H. destruct (tc_slot_sound _ _ eq_refl H) as (te & Hs & Hi). exists te; split; [exact Hs |].
  apply iter_okb_iff. unfold iter_okb. destruct te; try discriminate Hi; [exact Hi | rewrite ty_eqb_sym; exact Hi].
Qed.

End SlotsSound.

Lemma tcs_assignidx_sound : forall deep F G r x i e tx, lookup G x = Some (BVar tx) ->
  pt_expr F G i = [] -> rs_expr G i = [] -> gde i = true -> pt_expr F G e = [] -> rs_expr G e = [] -> gde e = true ->
  tcs_stmt Q M deep F G r (SAssignIdx x i e) = [] ->
  seqlike tx = true /\ (exists ti, has_type M F G i ti /\ is_index ti = true) /\
  exists t0, has_type M F G e t0 /\ assignable t0 (selem tx).
Proof.
  intros deep F G r x i e tx El Hpi Hri Hgi Hpe Hre Hge H. cbn [tcs_stmt tc_expr] in H. rewrite El in H.
  destruct (tc_expr Q M F G e) as [t0 d0] eqn:Ee. destruct (tc_expr Q M F G i) as [ti di] eqn:Ei.
  rewrite !app_nil_iff, !unless_nil_iff in H. destruct H as (-> & -> & H1 & H2 & H3).
  split; [exact H2 |]. split.
  - apply (tc_index_sound F G i Hpi (resolved_nil _ Hri) Hgi). rewrite Ei, H1. reflexivity.
  - apply (tc_assignable_sound F G e Hpe (resolved_nil _ Hre) Hge (selem tx) DTypeAssign). rewrite Ee.
    assert (H3' : vassign_ok t0 (Some (selem tx)) = true) by (destruct tx; exact H3).
    cbn. rewrite H3'. reflexivity.
Qed.

Lemma tcs_assignfield_sound : forall deep F G r f x e, pt_expr F G e = [] -> rs_expr G e = [] -> gde e = true ->
  rs_ident G x = [] -> (q_field_unimported Q = true -> priv_field M f = false) ->
  tcs_stmt Q M deep F G r (SAssignField f x e) = [] ->
  exists tf t0, has_type M F G (EField f (EVar x)) tf /\ has_type M F G e t0 /\ assignable t0 tf.
Proof.
  intros deep F G r f x e Hpe Hre Hge Hx Hgf H. cbn [tcs_stmt] in H.
  destruct (tc_expr Q M F G e) as [t0 d0] eqn:Ee. destruct (tc_expr Q M F G (EField f (EVar x))) as [tf df] eqn:Ef.
  rewrite !app_nil_iff, !unless_nil_iff in H. destruct H as (-> & -> & H1 & H2).
  destruct tf as [tf|]; [| discriminate H1]. exists tf.
  (* the target is typed as the expression `f von x` *)
  assert (Hgfx : gde (EField f (EVar x)) = true).
  { cbn. destruct (q_field_unimported Q); [rewrite Hgf |]; reflexivity. }
  pose proof (tc_typed F G (EField f (EVar x)) eq_refl (resolved_nil _ Hx) Hgfx _ Ef) as Htf.
  destruct (tc_assignable_sound F G e Hpe (resolved_nil _ Hre) Hge tf DTypeAssign) as (s & Hs & Ha).
  { rewrite Ee. cbn. rewrite H2. reflexivity. }
  eauto.
Qed.

Lemma tc_init_own_table : forall F G x t e, (if q_tc_by_name Q then negb (mem x (fv_expr e)) else true) = true ->
  tc_init Q M F (if q_tc_by_name Q then bind G x (BVar t) else G) e t = [] -> tc_init Q M F G e t = [].
Proof.
  intros F G x t e Hg H. destruct (q_tc_by_name Q); [| exact H]. apply negb_true_iff in Hg.
  unfold tc_init in *. destruct (tc_expr Q M F (bind G x (BVar t)) e) as [t0 d0] eqn:E.
  apply app_nil_iff in H as [-> H]. rewrite (proj1 (tc_bind_inv F G x t) _ _ Hg E). exact H.
Qed.

Lemma tc_return_sound : forall F G d rt oe, pt_opt F G oe = [] -> rs_opt G oe = [] -> gd_stmt Q M (SReturn oe) = true ->
  tc_return Q M F G (RFun rt) oe = [] -> stmt_ok M F G d (RFun rt) (SReturn oe) G.
Proof.
  intros F G d rt oe Hp Hr Hg Ht. unfold tc_return in Ht. destruct oe as [e|].
  - cbn in Hg, Hp, Hr. apply andb_true_iff in Hg as [Hge Hgc].
    destruct (tc_expr Q M F G e) as [t0 d0] eqn:E. apply app_nil_iff in Ht as [-> Ht].
    destruct (vty_eqb rt t0) eqn:Ev; [| discriminate Ht]. apply when_nil_iff in Ht.
    destruct t0 as [t0|].
    + apply vty_eqb_some in Ev; subst rt. constructor. apply (tc_typed F G e Hp (resolved_nil _ Hr) Hge _ E).
    + (* a value without a type returned from a function that returns nothing: excluded by the guard *)
      apply negb_false_iff in Ht. rewrite Ht in Hgc.
      rewrite (proj1 (tc_sound F G) _ _ Hp (resolved_nil _ Hr) Hge E Hr) in Hgc. discriminate Hgc.
  - apply app_nil_iff in Ht as [_ Ht]. destruct rt; [discriminate Ht | constructor].
Qed.

Lemma ck_sound : forall F,
  (forall s G d r G', ck_stmt Q M F G d r s = ([], G') -> gd_stmt Q M s = true -> stmt_ok M F G d r s G') /\
  (forall b G d r G', ck_block Q M F G d r b = ([], G') -> gd_block Q M b = true -> block_ok M F G d r b G').
Proof.
  intros F; apply stmt_block_ind.
  - (* SVar *)
    intros a t x e G d r G' H Hg. apply ck_var_nil in H as (Ht & Ha & Hp & Hr & Hin & -> & Hi).
    cbn in Hg. apply andb_true_iff in Hg as [Hge Hgx]. apply genderb_iff in Ha.
    pose proof (tc_init_own_table F G x t e Hgx Hi) as Hinit.
    destruct (tc_assignable_sound F G e Hp (resolved_nil _ Hr) Hge t _ Hinit) as (t0 & H0 & Has).
    eapply S_var; eauto.
  - (* SConst *)
    intros a x l G d r G' H _. apply ck_const_nil in H as (-> & Hin & ->). apply S_const; exact Hin.
  - (* SAssign *)
    intros x e G d r G' H Hg. apply ck_assign_nil in H as (-> & Hp & (t & El) & Hr & Ht). cbn in Hg.
    cbn [tcs_stmt tc_expr] in Ht. rewrite El in Ht.
    destruct (tc_assignable_sound F G e Hp (resolved_nil _ Hr) Hg t _ Ht) as (t0 & H0 & Has).
    eapply S_assign; eauto.
  - (* SAssignIdx *)
    intros x i e G d r G' H Hg. apply ck_assignidx_nil in H as (-> & Hpe & Hpi & (tx & El) & Hri & Hre & Ht).
    cbn in Hg. apply andb_true_iff in Hg as [Hgi Hge].
    destruct (tcs_assignidx_sound (q_tc_by_name Q) F G r x i e tx El Hpi Hri Hgi Hpe Hre Hge Ht) as (Hs & (ti & Hi & Hii) & t0 & H0 & Has).
    eapply S_assign_idx; eauto.
  - (* SAssignField *)
    intros f x e G d r G' H Hg. apply ck_assignfield_nil in H as (-> & Hpe & _ & (tx & El) & Hre & Ht).
    cbn in Hg. apply andb_true_iff in Hg as [Hge Hgf].
    destruct (tcs_assignfield_sound (q_tc_by_name Q) F G r f x e Hpe Hre Hge) as (tf & t0 & Hf & H0 & Has); auto.
    { unfold rs_ident. rewrite El. reflexivity. }
    { intros q. rewrite q in Hgf. apply negb_true_iff in Hgf. exact Hgf. }
    apply type_of_iff in Hf. cbn in Hf. rewrite El in Hf. destruct tx as [| | | | | | |s]; try discriminate Hf.
    destruct (field_of M s f) as [[[|] tf']|] eqn:Efo; try discriminate Hf. injection Hf as ->.
    eapply S_assign_field; eauto.
  - (* SIf *)
    intros c th IHth el IHel G d r G' H Hg. apply ck_if_nil in H as (-> & Hp & Hr & (G1 & E1) & (G2 & E2) & Ht).
    apply tcs_if_nil in Ht as [Hc _].
    cbn in Hg. fold (gd_block Q M) in Hg. rewrite !andb_true_iff in Hg. destruct Hg as ((Hgc & Hgth) & Hgel).
    eapply S_if; eauto using tc_cond_sound, resolved_nil.
  - (* SWhile *)
    intros c b IHb G d r G' H Hg. apply ck_while_nil in H as (-> & Hp & Hr & (G1 & E1) & Ht).
    apply tcs_while_nil in Ht as [Hc _].
    cbn in Hg. fold (gd_block Q M) in Hg. apply andb_true_iff in Hg as [Hgc Hgb].
    eapply S_while; eauto using tc_cond_sound, resolved_nil.
  - (* SFor *)
    intros a t x from to step b IHb G d r G' H Hg.
    apply ck_for_nil in H as (-> & Hty & Ha & Hpf & Hpt & Hps & (Gb & E1 & Hrs) & Ht).
    apply tcs_for_nil in Ht as (Hti & Hn & Htt & Hts & _). apply genderb_iff in Ha.
    cbn in Hg. fold (gd_block Q M) in Hg. rewrite !andb_true_iff in Hg. destruct Hg as ((((Hgf & Hgt) & Hgs) & Hgb) & Hgd).
    pose proof (IHb _ _ _ _ E1 Hgb) as Hb.
    assert (Hres : q_void_eq Q = true -> rs_expr G from = [] /\ rs_expr G to = [] /\ rs_opt G step = []).
    { intros q. rewrite q in Hgd. apply (for_bounds_resolved G x t b from to step Hgd).
      cbn [bind push] in Hb. apply block_ok_final in Hb. subst Gb. exact Hrs. }
    destruct (tc_assignable_sound F G from Hpf (fun q => proj1 (Hres q)) Hgf t _ Hti) as (t0 & H0 & Has).
    destruct (tc_numeric_sound F G to Hpt (fun q => proj1 (proj2 (Hres q))) Hgt Htt) as (t1 & H1 & Hn1).
    eapply S_for; eauto.
    destruct step as [e|]; cbn in *; [| exact I].
    apply (tc_numeric_sound F G e Hps (fun q => proj2 (proj2 (Hres q))) Hgs Hts).
  - (* SForEach *)
    intros a t x e b IHb G d r G' H Hg. apply ck_foreach_nil in H as (-> & Hty & Ha & Hp & Hr & (Gb & E1) & Ht).
    apply tcs_foreach_nil in Ht as [Hit _]. apply genderb_iff in Ha.
    cbn in Hg. fold (gd_block Q M) in Hg. apply andb_true_iff in Hg as [Hge Hgb].
    destruct (tc_iter_sound F G e Hp (resolved_nil _ Hr) Hge t Hit) as (te & Hte & Hi).
    eapply S_foreach; eauto.
  - (* SRepeat *)
    intros b IHb n G d r G' H Hg. apply ck_repeat_nil in H as (-> & Hp & Hr & (G1 & E1) & Ht).
    apply tcs_repeat_nil in Ht as [Hn _].
    cbn in Hg. fold (gd_block Q M) in Hg. apply andb_true_iff in Hg as [Hgb Hgn].
    destruct (tc_index_sound F G n Hp (resolved_nil _ Hr) Hgn Hn) as (tn & Htn & Hi).
    eapply S_repeat; eauto.
  - (* SDoWhile *)
    intros b IHb c G d r G' H Hg. apply ck_dowhile_nil in H as (-> & Hp & Hr & (G1 & E1) & Ht).
    apply tcs_dowhile_nil in Ht as [Hc _].
    cbn in Hg. fold (gd_block Q M) in Hg. apply andb_true_iff in Hg as [Hgb Hgc].
    eapply S_dowhile; eauto using tc_cond_sound, resolved_nil.
  - (* SBreak *)
    intros G d r G' H _. apply ck_jump_nil in H as (-> & d' & ->); auto. constructor.
  - (* SContinue *)
    intros G d r G' H _. apply ck_jump_nil in H as (-> & d' & ->); auto. constructor.
  - (* SReturn *)
    intros oe G d r G' H Hg. apply ck_return_nil in H as (-> & Hp & (rt & ->) & Hr & Ht).
    apply tc_return_sound; assumption.
  - (* SBlock *)
    intros b IHb G d r G' H Hg. apply ck_blockstmt_nil in H as (-> & (G1 & E1) & _).
    cbn in Hg. fold (gd_block Q M) in Hg. eapply S_block; eauto.
  - (* SCall *)
    intros f a G d r G' H Hg. apply ck_call_nil in H as (-> & Hp & Hr & Ht). cbn in Hg, Hp. fold gda in Hg.
    rewrite tc_call_eq in Ht. destruct (assoc f F) as [[ps ro]|] eqn:Ef; [| discriminate Hp]. cbn in Ht.
    eapply S_call; [exact Ef |]. apply args_chk_iff. apply (proj2 (tc_sound F G) _ _ Hp (resolved_nil _ Hr) Hg Ht).
  - (* BNil *)
    intros G d r G' H _. cbn in H. injection H as <-. constructor.
  - (* BCons *)
    intros s IHs b IHb G d r G' H Hg. apply ck_cons_nil in H as (G1 & E1 & E2).
    cbn in Hg. fold (gd_stmt Q M) in Hg. apply andb_true_iff in Hg as [Hgs Hgb].
    eapply K_cons; eauto.
Qed.

Lemma dup_names_nil : forall l, dup_names l = [] -> nodupb l = true.
Proof.
  induction l as [| x l IH]; cbn; intros H; auto. apply app_nil_iff in H as [H1 H2].
  apply when_nil_iff in H1. rewrite H1, (IH H2). reflexivity.
Qed.

Lemma flat_map_nil : forall {A B} (f : A -> list B) l, flat_map f l = [] -> forall x, In x l -> f x = [].
Proof.
  induction l as [| y l IH]; cbn; intros H x Hx; [contradiction |]. apply app_nil_iff in H as [H1 H2].
  destruct Hx as [<- | Hx]; auto.
Qed.

Lemma ck_fun_sound : forall F G f ds G' F', ck_fun Q M F G f = (ds, G', F') -> ds = [] -> gd_block Q M (f_body f) = true ->
  fun_ok M F G f /\ G' = bind G (f_name f) BFun /\ F' = (f_name f, sig_of f) :: F.
Proof.
  intros F G f ds G' F' H Hds Hg. unfold ck_fun in H.
  destruct (ck_params G (f_params f) ++ match f_ret f with Some (_, t) => pt_type G t | None => [] end) as [| x l] eqn:Eh.
  - apply app_nil_iff in Eh as [Hps Hrt].
    match type of H with context [ck_block ?a ?b ?c ?d ?e ?f0 ?g] => destruct (ck_block a b c d e f0 g) as [db Gb] eqn:Eb end.
    injection H as Hd <- <-. subst ds. rewrite !app_nil_iff in Hds. destruct Hds as (Hn & Hra & -> & Hfin).
    destruct (lookup G (f_name f)) eqn:El; [discriminate Hn |].
    split; [| split; reflexivity].
    unfold ck_params in Hps. apply app_nil_iff in Hps as [Hdup Hps].
    apply Fun_ok with (G1 := Gb).
    + exact El.
    + apply nodupb_iff. apply dup_names_nil, Hdup.
    + intros q Hq. pose proof (flat_map_nil _ _ Hps q Hq) as Hx. cbn in Hx. unfold pt_type in Hx.
      rewrite app_nil_iff, !unless_nil_iff in Hx. exact Hx.
    + destruct (f_ret f) as [[a t]|]; cbn; [| exact I]. apply unless_nil_iff in Hrt.
      apply art_diag_nil_iff in Hra. apply genderb_iff in Hra. auto.
    + exact (proj2 (ck_sound _) _ _ _ _ _ Eb Hg).
    + intros Hr. destruct (f_ret f); [| contradiction]. apply unless_nil_iff in Hfin. apply ends_in_returnb_iff, Hfin.
  - (* a bad declaration: its diagnostics are among those returned *)
    injection H as Hd _ _. subst ds. exfalso.
    apply app_nil_iff in Hds as [_ Hd]. rewrite app_assoc in Hd. apply app_nil_iff in Hd as [Hd _].
    rewrite Eh in Hd. discriminate Hd.
Qed.

Lemma ck_tops_sound : forall l F G, ck_tops Q M F G l = [] -> forallb (gd_top Q M) l = true -> tops_ok M F G l.
Proof.
  induction l as [| [f|s] l IH]; intros F G H Hg; cbn in *; [constructor | |].
  - apply andb_true_iff in Hg as [Hgf Hgl].
    destruct (ck_fun Q M F G f) as [[d1 G1] F1] eqn:Ef. apply app_nil_iff in H as [-> H].
    apply ck_fun_sound in Ef as [Hf [-> ->]]; auto. constructor; auto.
  - apply andb_true_iff in Hg as [Hgs Hgl].
    destruct (ck_stmt Q M F G 0 RGlobal s) as [d1 G1] eqn:Es. apply app_nil_iff in H as [-> H].
    econstructor; [exact (proj1 (ck_sound _) _ _ _ _ _ Es Hgs) | auto].
Qed.

End Sound.

Lemma import_fold_iff : forall M l ds0 sc F0 G1 F1,
  fold_left (ck_import_decl M) l (ds0, [sc], F0) = ([], G1, F1) <->
  ds0 = [] /\ NoDup (map idecl_name l) /\ (forall d, In d l -> assoc (idecl_name d) sc = None) /\
  G1 = [rev (map (fun d => (idecl_name d, idecl_binding d)) l) ++ sc] /\ F1 = rev (flat_map (idecl_fun M) l) ++ F0.
Proof.
  intros M; induction l as [| d l IH]; intros ds0 sc F0 G1 F1; cbn [fold_left].
  - split.
    + intros [= -> <- <-]. repeat split; [constructor | intros d []].
    + intros (-> & _ & _ & -> & ->). reflexivity.
  - unfold ck_import_decl at 2. unfold insert. cbn [in_top]. destruct (assoc (idecl_name d) sc) eqn:Ea.
    + rewrite IH. split.
      * intros (E & _). apply app_nil_iff in E as [_ E]. discriminate E.
      * intros (_ & _ & H & _). rewrite (H d (or_introl eq_refl)) in Ea. discriminate Ea.
    + cbn [bind]. rewrite IH, app_nil_r. cbn [map flat_map rev]. rewrite rev_app_distr, <- !app_assoc. cbn [app].
      split; intros (-> & Hnd & Hfresh & -> & ->); (split; [reflexivity |]); (split; [| split; [| split; reflexivity]]).
      * constructor; [| exact Hnd]. intros Hin. apply in_map_iff in Hin as (d' & Hn & Hd').
        specialize (Hfresh d' Hd'). cbn in Hfresh. rewrite Hn, Nat.eqb_refl in Hfresh. discriminate Hfresh.
      * intros d' [<- | Hd']; [exact Ea |]. specialize (Hfresh d' Hd'). cbn in Hfresh.
        destruct (Nat.eqb (idecl_name d') (idecl_name d)); [discriminate Hfresh | exact Hfresh].
      * inversion Hnd; assumption.
      * intros d' Hd'. cbn. destruct (Nat.eqb (idecl_name d') (idecl_name d)) eqn:E.
        -- apply Nat.eqb_eq in E. inversion Hnd as [| ? ? Hnot _]; subst. exfalso; apply Hnot. rewrite <- E. apply in_map; exact Hd'.
        -- apply Hfresh; right; exact Hd'.
Qed.

Lemma ck_import_decl_shape : forall M ds0 sc F d,
  exists dd sc' F', ck_import_decl M (ds0, [sc], F) d = (ds0 ++ dd, [sc'], F').
Proof. intros M ds0 sc F d. unfold ck_import_decl, insert; cbn [in_top]. destruct (assoc (idecl_name d) sc); cbn; eauto. Qed.

Lemma import_names_iff : forall M xs ds0 sc F G1 F1,
  fold_left (ck_import_name M) xs (ds0, [sc], F) = ([], G1, F1) <->
  exists ds, find_all_pub M xs = Some ds /\ fold_left (ck_import_decl M) ds (ds0, [sc], F) = ([], G1, F1).
Proof.
  intros M; induction xs as [| x xs IH]; intros ds0 sc F G1 F1; cbn [fold_left find_all_pub].
  - split; [intros H; exists []; auto | intros (ds & [= <-] & H); exact H].
  - unfold ck_import_name at 2. destruct (find_pub M x) as [d|].
    + destruct (ck_import_decl_shape M ds0 sc F d) as (dd & sc' & F' & E). rewrite E, IH. split.
      * intros (ds & Ha & H). exists (d :: ds). rewrite Ha. split; [reflexivity | cbn [fold_left]; rewrite E; exact H].
      * intros (ds & Ha & H). destruct (find_all_pub M xs) as [ds'|]; [| discriminate Ha]. injection Ha as <-.
        exists ds'. split; [reflexivity | cbn [fold_left] in H; rewrite E in H; exact H].
    + rewrite IH. split; [| intros (ds & [=] & _)].
      intros (ds & _ & H). apply import_fold_iff in H as (E & _). apply app_nil_iff in E as [_ E]. discriminate E.
Qed.

Lemma ck_import_iff : forall M i G0 F0, ck_import M i = ([], G0, F0) <->
  exists ds, import_decls M i = Some ds /\ G0 = [scope_of_decls ds] /\ F0 = funs_of_decls M ds.
Proof.
  assert (Hfold : forall M ds G0 F0, fold_left (ck_import_decl M) ds ([], [[]], []) = ([], G0, F0) <->
                    nodupb (map idecl_name ds) = true /\ G0 = [scope_of_decls ds] /\ F0 = funs_of_decls M ds).
  { intros M ds G0 F0. rewrite import_fold_iff, nodupb_iff. unfold scope_of_decls, funs_of_decls. rewrite !app_nil_r.
    split; [tauto | intros (H1 & H2 & H3); repeat split; auto]. }
  intros M i G0 F0; destruct i as [| | xs]; cbn.
  - split; [intros [= <- <-]; exists []; auto | intros (ds & [= <-] & -> & ->); reflexivity].
  - rewrite Hfold. destruct (nodupb (map idecl_name (filter idecl_pub M))); split.
    + intros (_ & H); eauto.
    + intros (ds & [= <-] & H); auto.
    + intros (E & _); discriminate E.
    + intros (ds & E & _); discriminate E.
  - rewrite import_names_iff. split.
    + intros (ds & Ha & H). apply Hfold in H as (Hnd & H). rewrite (find_all_pub_names _ _ _ Ha) in Hnd. rewrite Hnd. eauto.
    + intros (ds & Ha & H). destruct (nodupb xs) eqn:Hnd; [| discriminate Ha]. exists ds. split; [exact Ha |].
      apply Hfold. rewrite (find_all_pub_names _ _ _ Ha). auto.
Qed.

Lemma ck_import_complete : forall M i ds, import_decls M i = Some ds ->
  ck_import M i = ([], [scope_of_decls ds], funs_of_decls M ds).
Proof. intros M i ds H; apply ck_import_iff; eauto. Qed.

Theorem check_with_sound : forall Q p, check_with Q p = [] -> guard Q p = true -> wf p.
Proof.
  intros Q p H Hg. unfold check_with in H.
  destruct (ck_import (p_mod p) (p_imp p)) as [[di G0] F0] eqn:Ei.
  apply app_nil_iff in H as [-> H]. apply ck_import_iff in Ei as (ds & Hi & -> & ->).
  exists ds. split; [apply import_decls_iff; exact Hi | eapply ck_tops_sound; eauto].
Qed.

(* with the switches off the guard computes to the conjunction of its recursive calls *)
Lemma guard_off_expr : forall Q M,
  q_void_eq Q = false -> q_void_ret Q = false -> q_tc_by_name Q = false -> q_field_unimported Q = false ->
  (forall e, gd_expr Q M e = true) /\ (forall a, gd_args Q M a = true).
Proof.
  intros [q0 q1 q2 q3 q4] M H0 H1 H2 H3; cbn in H0, H1, H2, H3; subst.
  apply expr_args_ind; intros; cbn; repeat (apply andb_true_intro; split); auto.
Qed.

Lemma guard_off_stmt : forall Q M,
  q_void_eq Q = false -> q_void_ret Q = false -> q_tc_by_name Q = false -> q_field_unimported Q = false ->
  (forall s, gd_stmt Q M s = true) /\ (forall b, gd_block Q M b = true).
Proof.
  intros Q M H0 H1 H2 H3. destruct (guard_off_expr Q M H0 H1 H2 H3) as [He Ha].
  destruct Q as [q0 q1 q2 q3 q4]; cbn in H0, H1, H2, H3; subst.
  apply stmt_block_ind; intros; cbn; repeat (apply andb_true_intro; split); auto.
  - destruct step; cbn; auto.
  - destruct e; cbn; [rewrite He |]; reflexivity.
Qed.

Lemma guard_off : forall Q,
  q_void_eq Q = false -> q_void_ret Q = false -> q_tc_by_name Q = false -> q_field_unimported Q = false ->
  forall p, guard Q p = true.
Proof.
  intros Q H0 H1 H2 H3 p; unfold guard. apply forallb_forall. intros [f|s] _; cbn; apply guard_off_stmt; auto.
Qed.

Theorem check_patched_sound : forall p, check_patched p = [] -> wf p.
Proof. intros p H; apply (check_with_sound patched); auto using guard_off. Qed.

Theorem check_sound : forall p, check p = [] -> wf p.
Proof. intros p H; apply (check_with_sound current); auto using guard_off. Qed.

(* check_pinned accepts ill-formed programs: one witness per defect *)
Definition fvoid (n : name) : top :=
  TFun {| f_name := n; f_params := []; f_ret := None; f_body := BCons (SVar Die TZahl (S n) (ELit LZahl)) BNil |}.

(* Der Wahrheitswert x3 ist (f1) gleich (f1) ist. *)
Definition w_void_eq : prog :=
  {| p_mod := []; p_imp := ImpNone;
     p_tops := [fvoid 1; TStmt (SVar Der TBool 3 (EBin BGleich (ECall 1 ANil) (ECall 1 ANil)))] |}.

(* Die Funktion f3 gibt nichts zurück, macht: Gib (f1) zurück. *)
Definition w_void_ret : prog :=
  {| p_mod := []; p_imp := ImpNone;
     p_tops := [fvoid 1; TFun {| f_name := 3; f_params := []; f_ret := None; f_body := BCons (SReturn (Some (ECall 1 ANil))) BNil |}] |}.

(* Der Text x1 ist "..". Wenn wahr, dann: Die Zahl x1 ist x1. *)
Definition w_init_self : prog :=
  {| p_mod := []; p_imp := ImpNone;
     p_tops := [TStmt (SVar Der TText 1 (ELit LText));
                TStmt (SIf (ELit LBool) (BCons (SVar Die TZahl 1 (EVar 1)) BNil) BNil)] |}.

(* Binde x10 aus "modul" ein. Die Zahl x20 ist (x3 von x10).   -- x3 is a private field *)
Definition w_priv_field : prog :=
  {| p_mod := [IStruct true 1 Der [(true, 2, TZahl); (false, 3, TZahl)]; IVar true 10 (TStruct 1)];
     p_imp := ImpSome [10];
     p_tops := [TStmt (SVar Die TZahl 20 (EField 3 (EVar 10)))] |}.

(* Für jede Zahl x1 von 1 bis ((x2 gleich x2 ist) als Zahl), mache: Die Zahl x2 ist 1. *)
Definition w_for_scope : prog :=
  {| p_mod := []; p_imp := ImpNone;
     p_tops := [TStmt (SFor Die TZahl 1 (ELit LZahl) (ECast (EBin BGleich (EVar 2) (EVar 2)) TZahl) None
                            (BCons (SVar Die TZahl 2 (ELit LZahl)) BNil))] |}.

Lemma witnesses_accepted_illformed :
  Forall (fun p => check_pinned p = [] /\ wfb p = false /\ check p <> [])
         [w_void_eq; w_void_ret; w_init_self; w_priv_field; w_for_scope].
Proof. repeat constructor; vm_compute; try reflexivity; discriminate. Qed.

Theorem check_pinned_sound_refuted : exists p, check_pinned p = [] /\ ~ wf p.
Proof.
  exists w_void_eq. destruct (Forall_inv witnesses_accepted_illformed) as (H1 & H2 & _).
  split; [exact H1 |]. intros H; apply wfb_iff in H. congruence.
Qed.

(* each quirk alone suffices (the other three patched) *)
Definition only (i : nat) : quirks :=
  {| q_void_eq := Nat.eqb i 0; q_void_ret := Nat.eqb i 1; q_tc_by_name := Nat.eqb i 2; q_field_unimported := Nat.eqb i 3; q_field_name_lookup := false |}.

(* the loop-bound witness needs two of them: the resolver's misplaced resolution is only harmless while `gleich`
   rejects operands without a type *)
Definition void_eq_and_by_name : quirks :=
  {| q_void_eq := true; q_void_ret := false; q_tc_by_name := true; q_field_unimported := false; q_field_name_lookup := false |}.

Lemma each_quirk_unsound :
  check_with (only 0) w_void_eq = [] /\ check_with (only 1) w_void_ret = [] /\
  check_with (only 2) w_init_self = [] /\ check_with (only 3) w_priv_field = [] /\
  check_with void_eq_and_by_name w_for_scope = [] /\
  Forall (fun p => check_patched p <> []) [w_void_eq; w_void_ret; w_init_self; w_priv_field; w_for_scope].
Proof.
  do 5 (split; [vm_compute; reflexivity |]).
  repeat constructor; vm_compute; discriminate.
Qed.
