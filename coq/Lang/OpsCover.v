(* Syntax.v's operators are exactly the operators of src/ast/operators.go (regenerated into Gen/Operators.v on
   every run), in enum order, except BIN_FIELD_ACCESS (needs Kombinationen) and the type operators
   (Größe / Standardwert), which are outside the core fragment. *)
From Coq Require Import String List.
Import ListNotations.
From DDP Require Import Lang.Syntax Gen.Operators.
Open Scope string_scope.

Definition unop_name (o : unop) : string :=
  match o with
  | UAbs => "UN_ABS" | ULen => "UN_LEN" | UNeg => "UN_NEGATE" | UNot => "UN_NOT" | ULogicNot => "UN_LOGIC_NOT"
  end.
Definition binop_name (o : binop) : string :=
  match o with
  | BAnd => "BIN_AND" | BOr => "BIN_OR" | BXor => "BIN_XOR" | BConcat => "BIN_CONCAT" | BPlus => "BIN_PLUS"
  | BMinus => "BIN_MINUS" | BMult => "BIN_MULT" | BDiv => "BIN_DIV" | BIndex => "BIN_INDEX" | BPow => "BIN_POW"
  | BLog => "BIN_LOG" | BLogicAnd => "BIN_LOGIC_AND" | BLogicOr => "BIN_LOGIC_OR" | BLogicXor => "BIN_LOGIC_XOR"
  | BMod => "BIN_MOD" | BShl => "BIN_LEFT_SHIFT" | BShr => "BIN_RIGHT_SHIFT" | BEq => "BIN_EQUAL"
  | BNe => "BIN_UNEQUAL" | BLt => "BIN_LESS" | BGt => "BIN_GREATER" | BLe => "BIN_LESS_EQ" | BGe => "BIN_GREATER_EQ"
  | BSliceTo => "BIN_SLICE_TO" | BSliceFrom => "BIN_SLICE_FROM"
  end.
Definition terop_name (o : terop) : string :=
  match o with TSlice => "TER_SLICE" | TBetween => "TER_BETWEEN" | TFalls => "TER_FALLS" end.

Definition all_unops : list unop := [UAbs; ULen; UNeg; UNot; ULogicNot].
Definition all_binops : list binop :=
  [BAnd; BOr; BXor; BConcat; BPlus; BMinus; BMult; BDiv; BIndex; BPow; BLog; BLogicAnd; BLogicOr; BLogicXor; BMod;
   BShl; BShr; BEq; BNe; BLt; BGt; BLe; BGe; BSliceTo; BSliceFrom].
Definition all_terops : list terop := [TSlice; TBetween; TFalls].

(* each constructor stands in its list: at the head, or further down *)
Lemma all_unops_complete : forall o, In o all_unops.
Proof. destruct o; repeat first [apply in_eq | apply in_cons]. Qed.
Lemma all_binops_complete : forall o, In o all_binops.
Proof. destruct o; repeat first [apply in_eq | apply in_cons]. Qed.
Lemma all_terops_complete : forall o, In o all_terops.
Proof. destruct o; repeat first [apply in_eq | apply in_cons]. Qed.

Lemma operators_cover :
  map unop_name all_unops = gen_unary /\
  (map binop_name (firstn 23 all_binops) ++ ["BIN_FIELD_ACCESS"] ++ map binop_name (skipn 23 all_binops))%list = gen_binary /\
  map terop_name all_terops = gen_ternary.
Proof. repeat split; reflexivity. Qed.
