(* C04 — the executable specification (type_of / stmt_chk / ... / wfb) decides the declarative one. *)
From Coq Require Import List Arith Bool.
Import ListNotations.
From DDP Require Import Lang.MiniSyntax Lang.MiniTyping.

Scheme expr_mut := Induction for expr Sort Prop
  with args_mut := Induction for args Sort Prop.
Combined Scheme expr_args_ind from expr_mut, args_mut.

Scheme stmt_mut := Induction for stmt Sort Prop
  with block_mut := Induction for block Sort Prop.
Combined Scheme stmt_block_ind from stmt_mut, block_mut.

Scheme has_type_mut := Minimality for has_type Sort Prop
  with args_ok_mut := Minimality for args_ok Sort Prop.
Combined Scheme has_type_args_ok_ind from has_type_mut, args_ok_mut.

Scheme stmt_ok_mut := Minimality for stmt_ok Sort Prop
  with block_ok_mut := Minimality for block_ok Sort Prop.
Combined Scheme stmt_ok_block_ok_ind from stmt_ok_mut, block_ok_mut.

Lemma ty_eqb_refl : forall t, ty_eqb t t = true.
Proof. induction t; cbn; auto using Nat.eqb_refl. Qed.

Lemma ty_eqb_eq : forall a b, ty_eqb a b = true -> a = b.
Proof.
  induction a; destruct b; cbn; intros H; try discriminate H; auto.
  - f_equal; auto.
  - apply Nat.eqb_eq in H; subst; auto.
Qed.

Lemma ty_eqb_iff : forall a b, ty_eqb a b = true <-> a = b.
Proof. split; [apply ty_eqb_eq | intros ->; apply ty_eqb_refl]. Qed.

Lemma ty_eqb_neq : forall a b, ty_eqb a b = false <-> a <> b.
Proof.
  intros a b; split.
  - intros H E; subst; rewrite ty_eqb_refl in H; discriminate H.
  - intros H; destruct (ty_eqb a b) eqn:E; auto. apply ty_eqb_eq in E; contradiction.
Qed.

Lemma ty_eqb_sym : forall a b, ty_eqb a b = ty_eqb b a.
Proof.
  intros a b. destruct (ty_eqb b a) eqn:E.
  - apply ty_eqb_eq in E; subst; apply ty_eqb_refl.
  - apply ty_eqb_neq. intros ->. rewrite ty_eqb_refl in E; discriminate E.
Qed.

Lemma article_eqb_iff : forall a b, article_eqb a b = true <-> a = b.
Proof. destruct a, b; cbn; split; intros H; try discriminate H; auto. Qed.

Lemma lookup_bind_eq : forall G x b, lookup (bind G x b) x = Some b.
Proof. intros [| s G] x b; cbn; rewrite Nat.eqb_refl; reflexivity. Qed.

Lemma lookup_bind_neq : forall G x b y, y <> x -> lookup (bind G x b) y = lookup G y.
Proof.
  intros [| s G] x b y H; cbn.
  - apply Nat.eqb_neq in H; rewrite H; reflexivity.
  - apply Nat.eqb_neq in H; rewrite H; reflexivity.
Qed.

Lemma assoc_names : forall (sc : scope) y, assoc y sc <> None <-> In y (map fst sc).
Proof.
  induction sc as [| [z b] sc IH]; intros y; cbn.
  - split; [intros H; contradiction | intros []].
  - destruct (Nat.eqb y z) eqn:E.
    + apply Nat.eqb_eq in E; subst. split; [auto | intros _ H; discriminate H].
    + rewrite IH. split; [auto |]. intros [H | H]; auto. subst. rewrite Nat.eqb_refl in E; discriminate E.
Qed.

Lemma lookup_skip : forall (sc : scope) r y, ~ In y (map fst sc) -> lookup (sc :: r) y = lookup r y.
Proof.
  intros sc r y H; cbn. destruct (assoc y sc) eqn:E; auto.
  exfalso; apply H. apply assoc_names. congruence.
Qed.

Lemma assoc_in : forall {A} x (l : list (name * A)) b, assoc x l = Some b -> In (x, b) l.
Proof.
  induction l as [| [y c] l IH]; intros b H; cbn in H; [discriminate H |].
  destruct (Nat.eqb x y) eqn:E; [apply Nat.eqb_eq in E; subst; injection H as <-; left; auto | right; auto].
Qed.

Lemma un_res_ok : forall o t r, un_res o t = Some r <-> un_ok o t r.
Proof.
  intros o t r; split.
  - destruct o, t; cbn; intros H; inversion H; subst; constructor.
  - intros H; inversion H; subst; reflexivity.
Qed.

Lemma bin_res_ok : forall o a b c, bin_res o a b = Some c <-> bin_ok o a b c.
Proof.
  intros o a b c; split.
  - (* stated over the table itself, so that the cases without a result type are closed by computation *)
    intros H.
    enough (E : match bin_res o a b with Some c => bin_ok o a b c | None => True end) by (rewrite H in E; exact E).
    clear H c.
    destruct (is_arith o) eqn:Earith.
    { destruct o; try discriminate Earith; destruct a, b; cbn;
        first [ exact I
              | apply B_arith_byte; reflexivity
              | apply B_arith_komma; cbn; auto; fail
              | apply B_arith_zahl; cbn; auto ]. }
    destruct (is_cmp o) eqn:Ecmp.
    { destruct o; try discriminate Ecmp; destruct a, b; cbn; first [exact I | apply B_cmp; reflexivity]. }
    destruct (is_eq o) eqn:Eeq.
    { destruct o; try discriminate Eeq; unfold bin_res; (destruct (ty_eqb a b) eqn:E; [| exact I]);
        apply ty_eqb_eq in E; subst; apply B_eq; reflexivity. }
    destruct (is_logic o) eqn:Elogic.
    { destruct o; try discriminate Elogic; destruct a, b; cbn; first [exact I | apply B_logic; reflexivity]. }
    destruct (is_slice1 o) eqn:Eslice.
    { destruct o; try discriminate Eslice; unfold bin_res;
        destruct (seqlike a) eqn:Ha, (is_index b) eqn:Hb; try exact I; apply B_slice; auto. }
    destruct o; try discriminate.
    + (* durch *) destruct a, b; cbn; first [exact I | apply B_durch; reflexivity].
    + (* modulo *) destruct a, b; cbn; first [exact I | apply B_mod_byte | apply B_mod_zahl; cbn; auto].
    + (* an der Stelle *) unfold bin_res. destruct (is_index b) eqn:Hb; [| exact I].
      destruct a; try exact I; [apply B_index_text | apply B_index_list]; auto.
    + (* verkettet mit *) unfold bin_res. destruct (concat_is_list a b) eqn:Ec.
      * destruct (ty_eqb (lelem a) (lelem b)) eqn:E; [| exact I]. apply ty_eqb_eq in E. apply B_concat_list; auto.
      * destruct (textish a) eqn:Ha, (textish b) eqn:Hb; try exact I. apply B_concat_text; auto.
        unfold concat_is_list in Ec. destruct a; try discriminate Ha; destruct b; try discriminate Hb; cbn in Ec; auto; discriminate Ec.
  - (* each rule constrains its operator and operand types to finitely many shapes *)
    intros H; destruct H as [o a b Ho Ha Hb Hk | o a b Ho Ha Hb Hk | o Ho | a b Ha Hb | a b Ha Hb Hk | | o a b Ho Ha Hb
                            | o a Ho | o Ho | t i Hi | i Hi | a b Ha Hb Hk | a b He Hc | o a i Ho Ha Hi].
    + (* B_arith_komma *) destruct o; try discriminate Ho; destruct a; try discriminate Ha; destruct b; try discriminate Hb;
        destruct Hk as [E | E]; try discriminate E; reflexivity.
    + (* B_arith_zahl *) destruct o; try discriminate Ho; destruct a; try discriminate Ha; destruct b; try discriminate Hb;
        destruct Hk as [E | E]; try discriminate E; reflexivity.
    + (* B_arith_byte *) destruct o; try discriminate Ho; reflexivity.
    + (* B_durch *) destruct a; try discriminate Ha; destruct b; try discriminate Hb; reflexivity.
    + (* B_mod_zahl *) destruct a; try discriminate Ha; destruct b; try discriminate Hb; destruct Hk as [E | E]; try discriminate E; reflexivity.
    + (* B_mod_byte *) reflexivity.
    + (* B_cmp *) destruct o; try discriminate Ho; destruct a; try discriminate Ha; destruct b; try discriminate Hb; reflexivity.
    + (* B_eq *) destruct o; try discriminate Ho; cbn; rewrite ty_eqb_refl; reflexivity.
    + (* B_logic *) destruct o; try discriminate Ho; reflexivity.
    + (* B_index_list *) unfold bin_res; rewrite Hi; reflexivity.
    + (* B_index_text *) unfold bin_res; rewrite Hi; reflexivity.
    + (* B_concat_text *) destruct a; try discriminate Ha; destruct b; try discriminate Hb; destruct Hk as [E | E]; try discriminate E; reflexivity.
    + (* B_concat_list *) unfold bin_res; rewrite Hc, He, ty_eqb_refl; reflexivity.
    + (* B_slice *) destruct o; try discriminate Ho; unfold bin_res; rewrite Ha, Hi; reflexivity.
Qed.

Lemma cast_okb_ok : forall s t, cast_okb s t = true <-> cast_ok s t.
Proof.
  intros s t; split.
  - destruct t; cbn; intros H.
    + apply C_zahl; auto.
    + apply C_komma. destruct s; cbn in *; auto; discriminate H.
    + apply C_byte; auto.
    + apply C_bool. destruct s; cbn in *; auto; discriminate H.
    + apply C_char. destruct s; cbn in *; auto; discriminate H.
    + apply C_text; auto.
    + apply ty_eqb_eq in H; subst. apply C_list.
    + discriminate H.
  - intros H; inversion H; subst; cbn; auto using ty_eqb_refl.
    + destruct H0 as [-> | H0]; auto. destruct s; auto.
    + destruct H0 as [-> | [-> | ->]]; auto.
    + destruct H0 as [-> | [-> | ->]]; auto.
Qed.

Lemma assignableb_ok : forall s t, assignableb s t = true <-> assignable s t.
Proof.
  intros s t; unfold assignableb, assignable; rewrite orb_true_iff, andb_true_iff, ty_eqb_iff; tauto.
Qed.

Lemma type_of_sound : forall M F G,
  (forall e t, type_of M F G e = Some t -> has_type M F G e t) /\
  (forall a ps, args_chk M F G a ps = true -> args_ok M F G a ps).
Proof.
  intros M F G; apply expr_args_ind.
  - (* ELit *) intros l t H; inversion H; constructor.
  - (* EEmpty *) intros t0 t H; cbn in H. destruct (ty_ok G t0) eqn:E; inversion H; subst. constructor; auto.
  - (* EVar *) intros x t H; cbn in H. destruct (lookup G x) as [[| | |]|] eqn:E; inversion H; subst.
    + apply T_var; auto.
    + apply T_const; auto.
  - (* EUn *) intros o e IH t H; cbn in H. destruct (type_of M F G e) eqn:E; [| discriminate H].
    eapply T_un; [apply IH; reflexivity | apply un_res_ok; auto].
  - (* EBin *) intros o l IHl r IHr t H; cbn in H.
    destruct (type_of M F G l) eqn:El; [| discriminate H].
    destruct (type_of M F G r) eqn:Er; [| discriminate H].
    eapply T_bin; [apply IHl; reflexivity | apply IHr; reflexivity | apply bin_res_ok; auto].
  - (* ECast *) intros e IH t0 t H; cbn in H. destruct (type_of M F G e) eqn:E; [| discriminate H].
    destruct (ty_ok G t0) eqn:Et; [| discriminate H].
    destruct (cast_okb t1 t0) eqn:Ec; inversion H; subst.
    eapply T_cast; [apply IH; reflexivity | auto | apply cast_okb_ok; auto].
  - (* EField *) intros f e IH t H; cbn in H. destruct (type_of M F G e) as [[| | | | | | |s]|] eqn:E; try discriminate H.
    destruct (field_of M s f) as [[[|] tf]|] eqn:Ef; inversion H; subst.
    eapply T_field; [apply IH; reflexivity | auto].
  - (* ECall *) intros f a IH t H; cbn in H. destruct (assoc f F) as [[ps [r|]]|] eqn:E; try discriminate H.
    destruct (args_chk M F G a ps) eqn:Ea; inversion H; subst.
    eapply T_call; eauto.
  - (* ESlice *) intros l IHl i IHi j IHj t H; cbn in H.
    destruct (type_of M F G l) as [a|] eqn:El; [| discriminate H].
    destruct (type_of M F G i) as [ti|] eqn:Ei; [| discriminate H].
    destruct (type_of M F G j) as [tj|] eqn:Ej; [| discriminate H].
    destruct (seqlike a) eqn:Ha; [| discriminate H]. destruct (is_index ti) eqn:Hi; [| discriminate H].
    destruct (is_index tj) eqn:Hj; inversion H; subst. eapply T_slice; eauto.
  - (* EList *) intros e IHe a IHa t H; cbn in H. destruct (type_of M F G e) as [t0|] eqn:Ee; [| discriminate H].
    destruct (is_listb t0) eqn:Hl; [discriminate H |]. cbn in H.
    destruct (args_chk M F G a (repeat (t0, false) (alen a))) eqn:Ea; inversion H; subst. apply T_list; auto.
  - (* ANil *) intros ps H; destruct ps; [constructor | discriminate H].
  - (* ACons *) intros e IHe a IHa ps H. destruct ps as [| [t [|]] ps]; cbn in H; try discriminate H.
    + destruct e; try discriminate H. destruct (lookup G x) as [[| | |]|] eqn:E; try discriminate H.
      apply andb_true_iff in H as [H1 H2]. apply ty_eqb_eq in H1; subst. apply A_ref; auto.
    + destruct (type_of M F G e) eqn:E; [| discriminate H].
      apply andb_true_iff in H as [H1 H2]. apply ty_eqb_eq in H1; subst. apply A_val; auto.
Qed.

Lemma type_of_complete : forall M F G,
  (forall e t, has_type M F G e t -> type_of M F G e = Some t) /\
  (forall a ps, args_ok M F G a ps -> args_chk M F G a ps = true).
Proof.
  intros M F G; apply has_type_args_ok_ind; intros; cbn.
  - (* T_lit *) reflexivity.
  - (* T_empty *) rewrite H; reflexivity.
  - (* T_var *) rewrite H; reflexivity.
  - (* T_const *) rewrite H; reflexivity.
  - (* T_un *) rewrite H0. apply un_res_ok; auto.
  - (* T_bin *) rewrite H0, H2. apply bin_res_ok; auto.
  - (* T_cast *) rewrite H0, H1. apply cast_okb_ok in H2; rewrite H2; reflexivity.
  - (* T_field *) rewrite H0, H1; reflexivity.
  - (* T_call *) rewrite H, H1; reflexivity.
  - (* T_slice *) rewrite H0, H2, H4, H5, H6, H7; reflexivity.
  - (* T_list *) rewrite H0, H1, H3; reflexivity.
  - (* A_nil *) reflexivity.
  - (* A_val *) rewrite H0, ty_eqb_refl, H2; reflexivity.
  - (* A_ref *) rewrite H, ty_eqb_refl, H1; reflexivity.
Qed.

Lemma type_of_iff : forall M F G e t, type_of M F G e = Some t <-> has_type M F G e t.
Proof. intros; split; [apply type_of_sound | apply type_of_complete]. Qed.

Lemma args_chk_iff : forall M F G a ps, args_chk M F G a ps = true <-> args_ok M F G a ps.
Proof. intros; split; [apply type_of_sound | apply type_of_complete]. Qed.

Lemma has_type_unique : forall M F G e t1 t2, has_type M F G e t1 -> has_type M F G e t2 -> t1 = t2.
Proof. intros M F G e t1 t2 H1 H2; apply type_of_iff in H1, H2; congruence. Qed.

Lemma type_of_sat : forall M F G e (P : ty -> bool),
  match type_of M F G e with Some t => P t | None => false end = true <-> exists t, has_type M F G e t /\ P t = true.
Proof.
  intros M F G e P; destruct (type_of M F G e) as [t|] eqn:E; split.
  - intros H; exists t; split; [apply type_of_iff; exact E | exact H].
  - intros (t1 & H1 & H2). apply type_of_iff in H1. congruence.
  - discriminate.
  - intros (t1 & H1 & _). apply type_of_iff in H1. congruence.
Qed.

Lemma has_typeb_iff : forall M F G e t, has_typeb M F G e t = true <-> has_type M F G e t.
Proof.
  intros M F G e t; unfold has_typeb; rewrite type_of_sat; split.
  - intros (t0 & H & E). apply ty_eqb_eq in E; subst; exact H.
  - intros H; exists t; auto using ty_eqb_refl.
Qed.

Lemma assign_chk_iff : forall M F G e t,
  assign_chk M F G e t = true <-> exists t0, has_type M F G e t0 /\ assignable t0 t.
Proof.
  intros M F G e t; unfold assign_chk; rewrite type_of_sat.
  split; intros (t0 & H1 & H2); exists t0; (split; [exact H1 | apply assignableb_ok; exact H2]).
Qed.

Lemma numericb_expr_iff : forall M F G e,
  numericb_expr M F G e = true <-> exists t, has_type M F G e t /\ numeric t = true.
Proof. intros M F G e; exact (type_of_sat M F G e numeric). Qed.

Lemma indexb_expr_iff : forall M F G e,
  indexb_expr M F G e = true <-> exists t, has_type M F G e t /\ is_index t = true.
Proof. intros M F G e; exact (type_of_sat M F G e is_index). Qed.

Lemma iter_okb_iff : forall te t, iter_okb te t = true <-> iter_ok te t.
Proof.
  intros te t; unfold iter_okb, iter_ok; split.
  - destruct te; try (intros H; discriminate H); intros H; apply ty_eqb_eq in H; subst; auto.
  - intros [-> | [-> ->]]; cbn; auto using ty_eqb_refl.
Qed.

Lemma genderb_iff : forall M t a, genderb M t a = true <-> gender M t = Some a.
Proof.
  intros; unfold genderb. destruct (gender M t).
  - rewrite article_eqb_iff; split; congruence.
  - split; intros H; discriminate H.
Qed.

Lemma stmt_chk_sound : forall M F,
  (forall s G d r G', stmt_chk M F G d r s = Some G' -> stmt_ok M F G d r s G') /\
  (forall b G d r G', block_chk M F G d r b = Some G' -> block_ok M F G d r b G').
Proof.
  intros M F; apply stmt_block_ind.
  - (* SVar *) intros a t x e G d r G' H; cbn in H.
    destruct (ty_ok G t && genderb M t a && assign_chk M F G e t && negb (in_top G x)) eqn:E; inversion H; subst.
    rewrite !andb_true_iff, genderb_iff, assign_chk_iff, negb_true_iff in E.
    destruct E as (((E1 & E2) & t0 & Ht & Ha) & E4). eapply S_var; eauto.
  - (* SConst *) intros a x l G d r G' H; cbn in H.
    destruct (article_eqb a Die && negb (in_top G x)) eqn:E; inversion H; subst.
    rewrite andb_true_iff, article_eqb_iff, negb_true_iff in E. destruct E as [-> E]. apply S_const; exact E.
  - (* SAssign *) intros x e G d r G' H; cbn in H.
    destruct (lookup G x) as [[| | |]|] eqn:E; try discriminate H.
    destruct (assign_chk M F G e t) eqn:E3; inversion H; subst.
    apply assign_chk_iff in E3 as (t0 & Ht & Ha). eapply S_assign; eauto.
  - (* SAssignIdx *) intros x i e G d r G' H; cbn in H.
    destruct (lookup G x) as [[tx| | |]|] eqn:E; try discriminate H.
    destruct (seqlike tx && indexb_expr M F G i && assign_chk M F G e (selem tx)) eqn:E1; inversion H; subst.
    rewrite !andb_true_iff, indexb_expr_iff, assign_chk_iff in E1.
    destruct E1 as ((E1 & ti & Hti & Hi) & t0 & Ht & Ha). eapply S_assign_idx; eauto.
  - (* SAssignField *) intros f x e G d r G' H; cbn in H.
    destruct (lookup G x) as [[[| | | | | | |s]| | |]|] eqn:E; try discriminate H.
    destruct (field_of M s f) as [[[|] tf]|] eqn:Ef; try discriminate H.
    destruct (assign_chk M F G e tf) eqn:E3; inversion H; subst.
    apply assign_chk_iff in E3 as (t0 & Ht & Ha). eapply S_assign_field; eauto.
  - (* SIf *) intros c th IHth el IHel G d r G' H; cbn in H.
    destruct (has_typeb M F G c TBool) eqn:E1; [| discriminate H].
    destruct (block_chk M F (push G) d r th) eqn:E2; [| discriminate H].
    destruct (block_chk M F (push G) d r el) eqn:E3; inversion H; subst.
    apply has_typeb_iff in E1. eapply S_if; eauto.
  - (* SWhile *) intros c b IHb G d r G' H; cbn in H.
    destruct (has_typeb M F G c TBool) eqn:E1; [| discriminate H].
    destruct (block_chk M F (push G) (S d) r b) eqn:E2; inversion H; subst.
    apply has_typeb_iff in E1. eapply S_while; eauto.
  - (* SFor *) intros a t x from to step b IHb G d r G' H; cbn [stmt_chk] in H.
    match type of H with (if ?c then _ else _) = _ => destruct c eqn:E; [| discriminate H] end.
    destruct (block_chk M F (bind (push G) x (BVar t)) (S d) r b) eqn:E7; inversion H; subst.
    rewrite !andb_true_iff, genderb_iff, assign_chk_iff, numericb_expr_iff in E.
    destruct E as (((((E1 & E2) & E3) & t0 & Ht & Ha) & t1 & Ht1 & Hn1) & E6).
    eapply S_for; eauto.
    destruct step; cbn; auto. apply numericb_expr_iff; exact E6.
  - (* SForEach *) intros a t x e b IHb G d r G' H; cbn [stmt_chk] in H.
    match type of H with (if ?c then _ else _) = _ => destruct c eqn:E; [| discriminate H] end.
    destruct (block_chk M F (bind (push G) x (BVar t)) (S d) r b) eqn:E5; inversion H; subst.
    rewrite !andb_true_iff, genderb_iff, type_of_sat in E. destruct E as ((E1 & E2) & te & Hte & E4).
    apply iter_okb_iff in E4. eapply S_foreach; eauto.
  - (* SRepeat *) intros b IHb n G d r G' H; cbn in H.
    destruct (block_chk M F (push G) (S d) r b) eqn:E1; [| discriminate H].
    destruct (indexb_expr M F G n) eqn:E2; inversion H; subst.
    apply indexb_expr_iff in E2 as (tn & Htn & Hi). eapply S_repeat; eauto.
  - (* SDoWhile *) intros b IHb c G d r G' H; cbn in H.
    destruct (block_chk M F (push G) (S d) r b) eqn:E1; [| discriminate H].
    destruct (has_typeb M F G c TBool) eqn:E2; inversion H; subst.
    apply has_typeb_iff in E2. eapply S_dowhile; eauto.
  - (* SBreak *) intros G d r G' H; cbn in H. destruct d; inversion H; subst. constructor.
  - (* SContinue *) intros G d r G' H; cbn in H. destruct d; inversion H; subst. constructor.
  - (* SReturn *) intros [e|] G d r G' H; cbn in H.
    + destruct r as [| [t|]]; try discriminate H.
      destruct (has_typeb M F G e t) eqn:E; inversion H; subst. apply has_typeb_iff in E. constructor; auto.
    + destruct r as [| [t|]]; inversion H; subst. constructor.
  - (* SBlock *) intros b IHb G d r G' H; cbn in H.
    destruct (block_chk M F (push G) d r b) eqn:E; inversion H; subst. eapply S_block; eauto.
  - (* SCall *) intros f a G d r G' H; cbn in H.
    destruct (assoc f F) as [[ps ro]|] eqn:E; [| discriminate H].
    destruct (args_chk M F G a ps) eqn:Ea; inversion H; subst.
    apply args_chk_iff in Ea. eapply S_call; eauto.
  - (* BNil *) intros G d r G' H; inversion H; subst; constructor.
  - (* BCons *) intros s IHs b IHb G d r G' H; cbn in H.
    destruct (stmt_chk M F G d r s) eqn:E; [| discriminate H].
    eapply K_cons; eauto.
Qed.

Lemma stmt_chk_complete : forall M F,
  (forall G d r s G', stmt_ok M F G d r s G' -> stmt_chk M F G d r s = Some G') /\
  (forall G d r b G', block_ok M F G d r b G' -> block_chk M F G d r b = Some G').
Proof.
  intros M F; apply stmt_ok_block_ok_ind; intros; cbn.
  - (* S_var *) rewrite H, H3. apply genderb_iff in H0; rewrite H0.
    assert (E : assign_chk M F G e t = true) by (apply assign_chk_iff; eauto). rewrite E; reflexivity.
  - (* S_const *) rewrite H; reflexivity.
  - (* S_assign *) rewrite H. assert (E : assign_chk M F G e t = true) by (apply assign_chk_iff; eauto). rewrite E; reflexivity.
  - (* S_assign_idx *) rewrite H, H0. assert (E : indexb_expr M F G i = true) by (apply indexb_expr_iff; eauto). rewrite E.
    assert (E2 : assign_chk M F G e (selem tx) = true) by (apply assign_chk_iff; eauto). rewrite E2; reflexivity.
  - (* S_assign_field *) rewrite H, H0. assert (E2 : assign_chk M F G e tf = true) by (apply assign_chk_iff; eauto). rewrite E2; reflexivity.
  - (* S_if *) apply has_typeb_iff in H; rewrite H, H1, H3; reflexivity.
  - (* S_while *) apply has_typeb_iff in H; rewrite H, H1; reflexivity.
  - (* S_for *) rewrite H, H1. apply genderb_iff in H0; rewrite H0.
    assert (E : assign_chk M F G from t = true) by (apply assign_chk_iff; eauto). rewrite E.
    assert (E2 : numericb_expr M F G to = true) by (apply numericb_expr_iff; eauto). rewrite E2.
    assert (E3 : match step with Some e => numericb_expr M F G e | None => true end = true).
    { destruct step; auto. apply numericb_expr_iff; auto. }
    cbn in *. rewrite E3, H8; reflexivity.
  - (* S_foreach *) rewrite H. apply genderb_iff in H0; rewrite H0. apply type_of_iff in H1; rewrite H1.
    apply iter_okb_iff in H2. cbn in *. rewrite H2, H4; reflexivity.
  - (* S_repeat *) rewrite H0. assert (E : indexb_expr M F G n = true) by (apply indexb_expr_iff; eauto). rewrite E; reflexivity.
  - (* S_dowhile *) rewrite H0. apply has_typeb_iff in H1; rewrite H1; reflexivity.
  - (* S_break *) reflexivity.
  - (* S_continue *) reflexivity.
  - (* S_return_val *) apply has_typeb_iff in H; rewrite H; reflexivity.
  - (* S_return_void *) reflexivity.
  - (* S_block *) rewrite H0; reflexivity.
  - (* S_call *) rewrite H. apply args_chk_iff in H0; rewrite H0; reflexivity.
  - (* K_nil *) reflexivity.
  - (* K_cons *) rewrite H0; auto.
Qed.

Lemma stmt_chk_iff : forall M F G d r s G', stmt_chk M F G d r s = Some G' <-> stmt_ok M F G d r s G'.
Proof. intros; split; [apply stmt_chk_sound | apply stmt_chk_complete]. Qed.

Lemma block_chk_iff : forall M F G d r b G', block_chk M F G d r b = Some G' <-> block_ok M F G d r b G'.
Proof. intros; split; [apply stmt_chk_sound | apply stmt_chk_complete]. Qed.

Definition stmt_binding (s : stmt) : option (name * binding) :=
  match s with
  | SVar _ t x _ => Some (x, BVar t)
  | SConst _ x l => Some (x, BConst (lit_ty l))
  | _ => None
  end.

Definition env_after (G : env) (s : stmt) : env :=
  match stmt_binding s with Some (x, b) => bind G x b | None => G end.

Lemma stmt_ok_env : forall M F s G d r G1, stmt_ok M F G d r s G1 ->
  G1 = env_after G s /\ forall x b, stmt_binding s = Some (x, b) -> in_top G x = false.
Proof. intros M F s G d r G1 H. destruct H; split; try reflexivity; cbn; intros ? ? [= <- _]; assumption. Qed.

Lemma existsb_eqb_In : forall x l, existsb (Nat.eqb x) l = true <-> In x l.
Proof.
  intros x l; rewrite existsb_exists; split.
  - intros [y [Hy E]]. apply Nat.eqb_eq in E; subst; auto.
  - intros H; exists x; split; auto using Nat.eqb_refl.
Qed.

Lemma nodupb_iff : forall l, nodupb l = true <-> NoDup l.
Proof.
  induction l as [| x l IH]; cbn.
  - split; auto using NoDup_nil.
  - rewrite andb_true_iff, negb_true_iff, IH. split.
    + intros [H1 H2]; constructor; auto. intros Hin. apply existsb_eqb_In in Hin. congruence.
    + intros H; inversion H; subst; split; auto.
      destruct (existsb (Nat.eqb x) l) eqn:E; auto. apply existsb_eqb_In in E; contradiction.
Qed.

Lemma ends_in_returnb_iff : forall b, ends_in_returnb b = true <-> ends_in_return b.
Proof.
  intros b; unfold ends_in_returnb, ends_in_return. destruct (block_last b) eqn:E.
  - split; [intros H; eauto | intros [s0 [H1 H2]]; congruence].
  - split; [intros H; discriminate H | intros [s0 [H1 _]]; discriminate H1].
Qed.

Lemma ret_okb_iff : forall M G r, ret_okb M G r = true <-> ret_ok M G r.
Proof.
  intros M G [[a t]|]; cbn; [| tauto]. rewrite andb_true_iff, genderb_iff; tauto.
Qed.

Lemma fun_chk_iff : forall M F G f, fun_chk M F G f = true <-> fun_ok M F G f.
Proof.
  intros M F G f; unfold fun_chk; split.
  - destruct (lookup G (f_name f)) eqn:E; [intros H; discriminate H |].
    intros H. apply andb_true_iff in H as [H Hfin]. apply andb_true_iff in H as [H Hblk].
    apply andb_true_iff in H as [H Hret]. apply andb_true_iff in H as [Hnd Hps].
    destruct (block_chk M ((f_name f, sig_of f) :: F) (param_scope f :: bind G (f_name f) BFun) 0
                        (RFun (option_map snd (f_ret f))) (f_body f)) as [G1|] eqn:Eb; [| discriminate Hblk].
    apply Fun_ok with (G1 := G1); auto.
    + apply nodupb_iff; auto.
    + intros p Hp. rewrite forallb_forall in Hps. apply Hps in Hp. apply andb_true_iff in Hp; auto.
    + apply ret_okb_iff; auto.
    + apply block_chk_iff; auto.
    + intros Hr. destruct (f_ret f); [apply ends_in_returnb_iff; auto | contradiction].
  - intros [G1 H1 H2 H3 H4 H5 H6]. rewrite H1.
    apply nodupb_iff in H2; rewrite H2.
    assert (E : forallb (fun p => param_name_ok G (pname p) && ty_ok G (ptype p)) (f_params f) = true).
    { apply forallb_forall; intros p Hp. apply H3 in Hp as [Ha Hb]; rewrite Ha, Hb; reflexivity. }
    rewrite E. apply ret_okb_iff in H4; rewrite H4.
    apply block_chk_iff in H5; rewrite H5. cbn.
    destruct (f_ret f) eqn:Er; auto. apply ends_in_returnb_iff. apply H6. congruence.
Qed.

Lemma tops_chk_iff : forall M l F G, tops_chk M F G l = true <-> tops_ok M F G l.
Proof.
  intros M; induction l as [| [f|s] l IH]; intros F G; cbn.
  - split; auto using Tops_nil.
  - rewrite andb_true_iff, fun_chk_iff, IH. split.
    + intros [H1 H2]; constructor; auto.
    + intros H; inversion H; subst; auto.
  - split.
    + destruct (stmt_chk M F G 0 RGlobal s) eqn:E; [| intros H; discriminate H].
      intros H. apply stmt_chk_iff in E. apply IH in H. econstructor; eauto.
    + intros H; inversion H as [| | F0 G0 s0 r0 G1 Hs Hr]; subst. apply stmt_chk_iff in Hs; rewrite Hs. apply IH; auto.
Qed.

Lemma find_pub_name : forall M x d, find_pub M x = Some d -> idecl_name d = x.
Proof.
  induction M as [| d0 M IH]; intros x d H; cbn in H; [discriminate H |].
  destruct (Nat.eqb (idecl_name d0) x && idecl_pub d0) eqn:E; auto.
  injection H as <-. apply andb_true_iff in E as [E _]. apply Nat.eqb_eq in E; auto.
Qed.

Lemma find_all_pub_names : forall M xs ds, find_all_pub M xs = Some ds -> map idecl_name ds = xs.
Proof.
  intros M; induction xs as [| x xs IH]; intros ds H; cbn in H.
  - injection H as <-; reflexivity.
  - destruct (find_pub M x) as [d|] eqn:Ef; [| discriminate H].
    destruct (find_all_pub M xs) as [ds'|] eqn:Ea; [| discriminate H]. injection H as <-.
    cbn. rewrite (find_pub_name _ _ _ Ef), (IH _ eq_refl). reflexivity.
Qed.

Lemma find_pub_in : forall M x d, find_pub M x = Some d -> In d M.
Proof.
  induction M as [| d0 M IH]; intros x d H; cbn in H; [discriminate H |].
  destruct (Nat.eqb (idecl_name d0) x && idecl_pub d0); [injection H as <-; left; auto | right; eauto].
Qed.

Lemma find_all_pub_in : forall M xs ds, find_all_pub M xs = Some ds -> forall d, In d ds -> In d M.
Proof.
  intros M; induction xs as [| x xs IH]; intros ds H d Hd; cbn in H.
  - injection H as <-; contradiction.
  - destruct (find_pub M x) as [d0|] eqn:Ef; [| discriminate H].
    destruct (find_all_pub M xs) as [ds'|] eqn:Ea; [| discriminate H]. injection H as <-.
    destruct Hd as [<- | Hd]; [eapply find_pub_in; eauto | eapply IH; eauto].
Qed.

Lemma import_decls_in : forall M i ds, import_decls M i = Some ds -> forall d, In d ds -> In d M.
Proof.
  intros M i ds H d Hd. destruct i as [| | xs]; cbn in H.
  - injection H as <-; contradiction.
  - destruct (nodupb (map idecl_name (filter idecl_pub M))); [| discriminate H]. injection H as <-.
    apply filter_In in Hd as [Hd _]; auto.
  - destruct (nodupb xs); [| discriminate H]. eapply find_all_pub_in; eauto.
Qed.

Lemma find_all_pub_iff : forall M xs ds, find_all_pub M xs = Some ds <-> Forall2 (fun x d => find_pub M x = Some d) xs ds.
Proof.
  intros M; induction xs as [| x xs IH]; intros ds; cbn.
  - split; [intros H; inversion H; constructor | intros H; inversion H; reflexivity].
  - split.
    + destruct (find_pub M x) eqn:E; [| intros H; discriminate H].
      destruct (find_all_pub M xs) eqn:E2; intros H; inversion H; subst.
      constructor; auto. apply IH; reflexivity.
    + intros H; inversion H; subst. rewrite H2. apply IH in H4; rewrite H4; reflexivity.
Qed.

Lemma import_decls_iff : forall M i ds, import_decls M i = Some ds <-> import_ok M i ds.
Proof.
  intros M i ds; destruct i; cbn.
  - split; [intros H; inversion H; constructor | intros H; inversion H; reflexivity].
  - destruct (nodupb (map idecl_name (filter idecl_pub M))) eqn:E.
    + split; [intros H; inversion H; constructor; apply nodupb_iff; auto | intros H; inversion H; reflexivity].
    + split; [intros H; discriminate H |]. intros H; inversion H as [| Hnd |]; subst. apply nodupb_iff in Hnd; congruence.
  - destruct (nodupb xs) eqn:E.
    + rewrite find_all_pub_iff. split.
      * intros H; constructor; auto. apply nodupb_iff; auto.
      * intros H; inversion H; subst; auto.
    + split; [intros H; discriminate H |]. intros H; inversion H as [| | xs0 ds0 Hnd Hf]; subst. apply nodupb_iff in Hnd; congruence.
Qed.

Theorem wfb_iff : forall p, wfb p = true <-> wf p.
Proof.
  intros p; unfold wfb, wf; split.
  - destruct (import_decls (p_mod p) (p_imp p)) as [ds|] eqn:E; [| intros H; discriminate H].
    intros H; exists ds; split; [apply import_decls_iff; auto | apply tops_chk_iff; auto].
  - intros [ds [H1 H2]]. apply import_decls_iff in H1; rewrite H1. apply tops_chk_iff; auto.
Qed.

Lemma wf_dec : forall p, {wf p} + {~ wf p}.
Proof.
  intros p; destruct (wfb p) eqn:E; [left; apply wfb_iff; auto | right; intros H; apply wfb_iff in H; congruence].
Qed.
