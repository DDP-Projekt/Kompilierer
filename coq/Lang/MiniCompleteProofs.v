(* C04 — completeness of the algorithm, and where it fails.

     q_field_name_lookup Q = false -> wf p -> check_with Q p = []
        provided p is shadow-free, or the typechecker uses the resolver's bindings and protects fields by type;
     exists p, wf p /\ check p <> []              (`current`: the field name is looked up as a variable)
     exists p, wf p /\ check_pinned p <> []       (`pinned`: late shadowing)   *)
From Coq Require Import List Arith Bool.
Import ListNotations.
From DDP Require Import Lang.MiniSyntax Lang.MiniTyping Lang.MiniTypingProofs Lang.MiniCheck Lang.MiniGuard Lang.MiniCheckProofs
                        Lang.MiniShadowFree.

(* G' binds everything G binds, in the same way *)
Definition ext (G G' : env) : Prop := forall y b, lookup G y = Some b -> lookup G' y = Some b.

(* names of Kombinationen of the module are bound to nothing else *)
Definition sok (M : imod) (G : env) : Prop :=
  forall st, is_struct_name M st = true -> lookup G st = None \/ lookup G st = Some BStruct.

Lemma ext_refl : forall G, ext G G.
Proof. intros G y b H; auto. Qed.

Lemma ext_trans : forall G1 G2 G3, ext G1 G2 -> ext G2 G3 -> ext G1 G3.
Proof. intros G1 G2 G3 H1 H2 y b H; auto. Qed.

Lemma ext_bind : forall G x b, lookup G x = None -> ext G (bind G x b).
Proof.
  intros G x b H y b' Hy. destruct (Nat.eq_dec y x) as [-> | Hne]; [congruence |].
  rewrite lookup_bind_neq; auto.
Qed.

Lemma ext_push : forall G, ext G (push G).
Proof. intros G y b H; cbn; auto. Qed.

Lemma ext_cons_same : forall sc G G', ext G G' -> ext (sc :: G) (sc :: G').
Proof. intros sc G G' H y b Hy; cbn in *. destruct (assoc y sc); auto. Qed.

Lemma sok_bind : forall M G x b, sok M G -> is_struct_name M x = false -> sok M (bind G x b).
Proof.
  intros M G x b H Hx st Hst. destruct (Nat.eq_dec st x) as [-> | Hne]; [congruence |].
  rewrite lookup_bind_neq; auto.
Qed.

Lemma sok_push : forall M G, sok M G -> sok M (push G).
Proof. intros M G H st Hst; cbn; auto. Qed.

Lemma ty_ok_ext : forall G G' t, ext G G' -> ty_ok G t = true -> ty_ok G' t = true.
Proof.
  intros G G' t H; induction t; cbn; auto.
  destruct (lookup G s) as [[| | |]|] eqn:E; try discriminate. intros _. rewrite (H _ _ E); reflexivity.
Qed.

Lemma fresh_ok_spec : forall M G x, fresh_ok M G x = true -> lookup G x = None /\ is_struct_name M x = false.
Proof.
  intros M G x H; unfold fresh_ok in H. destruct (lookup G x); [discriminate H |].
  apply negb_true_iff in H; auto.
Qed.

Section Complete.
Variable Q : quirks.
Variable M : imod.

Lemma tc_un_complete : forall o t r, un_res o t = Some r -> tc_un o (Some t) = (Some r, []).
Proof. intros o t r H; destruct o, t; cbn in *; inversion H; reflexivity. Qed.

Lemma tc_bin_complete : forall o a b c, bin_res o a b = Some c -> tc_bin Q o (Some a) (Some b) = (Some c, []).
Proof. intros o a b c H. pose proof (tc_bin_typed Q o a b) as T. rewrite H in T. exact T. Qed.

Lemma field_of_struct : forall s f x, field_of M s f = Some x -> is_struct_name M s = true.
Proof. intros s f x H; unfold field_of in H; unfold is_struct_name; destruct (struct_of M s); [auto | discriminate H]. Qed.

Lemma tc_complete : forall F G G', ext G G' -> (q_field_unimported Q = true -> sok M G') ->
  (forall e t, has_type M F G e t ->
     tc_expr Q M F G' e = (Some t, []) /\ rs_expr G' e = [] /\ pt_expr F G' e = []) /\
  (forall a ps, args_ok M F G a ps ->
     tc_args Q M F G' a ps = [] /\ rs_args G' a = [] /\ pt_args F G' a ps = []).
Proof.
  intros F G G' Hext Hsok; apply has_type_args_ok_ind.
  - (* T_lit *) intros l. repeat split.
  - (* T_empty *) intros t Ht. cbn. unfold pt_type. rewrite (ty_ok_ext _ _ _ Hext Ht). repeat split.
  - (* T_var *) intros x t Hl. cbn. unfold rs_ident. rewrite (Hext _ _ Hl). repeat split.
  - (* T_const *) intros x t Hl. cbn. unfold rs_ident. rewrite (Hext _ _ Hl). repeat split.
  - (* T_un *) intros o e t r _ (H1 & H2 & H3) Hu. repeat split; auto.
    apply tc_un_nil. exists (Some t). split; [exact H1 | apply tc_un_complete, un_res_ok, Hu].
  - (* T_bin *) intros o l r a b c _ (L1 & L2 & L3) _ (R1 & R2 & R3) Hb. cbn [rs_expr pt_expr]. rewrite L2, L3, R2, R3.
    repeat split. apply tc_binop_nil. exists (Some a), (Some b). repeat split; auto. apply tc_bin_complete, bin_res_ok, Hb.
  - (* T_cast *) intros e s t _ (H1 & H2 & H3) Hty Hc. cbn [rs_expr pt_expr]. unfold pt_type.
    rewrite H3, (ty_ok_ext _ _ _ Hext Hty). repeat split; auto.
    apply tc_cast_nil. split; [reflexivity |]. exists (Some s). split; [exact H1 | apply cast_okb_ok, Hc].
  - (* T_field *) intros f e s t _ (H1 & H2 & H3) Hf. repeat split; auto.
    apply tc_field_nil. exists (Some (TStruct s)). split; [exact H1 |]. exists true, t. repeat split; auto.
    unfold tc_field_priv. destruct (q_field_unimported Q) eqn:Eq; [| reflexivity].
    destruct (Hsok eq_refl s (field_of_struct _ _ _ Hf)) as [Hl | Hl]; rewrite Hl; reflexivity.
  - (* T_call *) intros f a ps r Hf _ (A1 & A2 & A3). cbn [rs_expr pt_expr]. rewrite Hf. repeat split; auto.
    apply tc_call_nil. rewrite Hf. auto.
  - (* T_slice *) intros l i j a ti tj _ (L1 & L2 & L3) _ (I1 & I2 & I3) _ (J1 & J2 & J3) Ha Hi Hj.
    cbn [rs_expr pt_expr]. rewrite L2, L3, I2, I3, J2, J3. repeat split.
    apply tc_slice_nil. exists (Some ti), (Some tj). repeat split; auto.
  - (* T_list *) intros e a t _ (H1 & H2 & H3) Hl _ (A1 & A2 & A3). cbn [rs_expr pt_expr].
    rewrite H2, H3, A2, (pt_args_repeat F G' a TZahl t), A3. repeat split.
    apply tc_list_nil. exists t. auto.
  - (* A_nil *) repeat split.
  - (* A_val *) intros e a t ps _ (H1 & H2 & H3) _ (A1 & A2 & A3). cbn [rs_args pt_args]. rewrite H2, H3, A2, A3.
    repeat split. apply tc_args_cons_nil. auto.
  - (* A_ref *) intros x a t ps Hl _ (A1 & A2 & A3). cbn [rs_args rs_expr pt_args pt_ref]. unfold rs_ident.
    rewrite (Hext _ _ Hl), A2, A3. repeat split. apply tc_args_cons_nil. cbn. rewrite (Hext _ _ Hl). auto.
Qed.

Section Slots.
Variables (F : fenv) (G G' : env).
Hypothesis Hext : ext G G'.
Hypothesis Hsok : q_field_unimported Q = true -> sok M G'.

Lemma tc_slot_complete : forall e s (p : vty -> bool) D, has_type M F G e s -> p (Some s) = true ->
  (let (t, d) := tc_expr Q M F G' e in d ++ unless (p t) D) = [] /\ rs_expr G' e = [] /\ pt_expr F G' e = [].
Proof.
  intros e s p D He Hp. destruct (proj1 (tc_complete F G G' Hext Hsok) _ _ He) as (-> & Hr & Hpt).
  cbn. rewrite Hp. auto.
Qed.

Lemma tc_assignable_complete : forall e t0 t D, has_type M F G e t0 -> assignable t0 t ->
  (let (t1, d) := tc_expr Q M F G' e in d ++ unless (vassign_ok t1 (Some t)) D) = [] /\ rs_expr G' e = [] /\ pt_expr F G' e = [].
Proof.
  intros e t0 t D He Ha. apply (tc_slot_complete e t0 (fun t1 => vassign_ok t1 (Some t)) D He).
  rewrite vassign_ok_some. apply assignableb_ok, Ha.
Qed.

Lemma tc_cond_complete : forall c, has_type M F G c TBool ->
  tc_cond Q M F G' c = [] /\ rs_expr G' c = [] /\ pt_expr F G' c = [].
Proof. intros c Hc. apply (tc_slot_complete c TBool vbool _ Hc eq_refl). Qed.

Lemma tc_numeric_complete : forall e t, has_type M F G e t -> numeric t = true ->
  tc_numeric Q M F G' e = [] /\ rs_expr G' e = [] /\ pt_expr F G' e = [].
Proof. intros e t. apply (tc_slot_complete e t vnumeric). Qed.

Lemma tc_index_complete : forall e t, has_type M F G e t -> is_index t = true ->
  (let (t, d) := tc_expr Q M F G' e in d ++ unless (vindex t) DTypeOp) = [] /\ rs_expr G' e = [] /\ pt_expr F G' e = [].
Proof. intros e t. apply (tc_slot_complete e t vindex). Qed.

Lemma tc_iter_complete : forall e te t, has_type M F G e te -> iter_ok te t ->
  tc_iter Q M F G' e t = [] /\ rs_expr G' e = [] /\ pt_expr F G' e = [].
Proof.
  intros e te t He Hi. apply (tc_slot_complete e te _ _ He).
  destruct Hi as [-> | [-> ->]]; cbn; [apply ty_eqb_refl | reflexivity].
Qed.

Lemma tcs_assign_complete : forall deep r x e t t0, lookup G x = Some (BVar t) -> has_type M F G e t0 -> assignable t0 t ->
  tcs_stmt Q M deep F G' r (SAssign x e) = [] /\ rs_expr G' e = [] /\ pt_expr F G' e = [].
Proof.
  intros deep r x e t t0 El He Ha. cbn [tcs_stmt tc_expr]. rewrite (Hext _ _ El).
  apply (tc_assignable_complete e t0 t DTypeAssign He Ha).
Qed.

Lemma tcs_assignidx_complete : forall deep r x i e tx ti t0, lookup G x = Some (BVar tx) -> seqlike tx = true ->
  has_type M F G i ti -> is_index ti = true -> has_type M F G e t0 -> assignable t0 (selem tx) ->
  tcs_stmt Q M deep F G' r (SAssignIdx x i e) = [] /\
  rs_expr G' i = [] /\ pt_expr F G' i = [] /\ rs_expr G' e = [] /\ pt_expr F G' e = [].
Proof.
  intros deep r x i e tx ti t0 El Hs Hi Hii He Ha.
  destruct (proj1 (tc_complete F G G' Hext Hsok) _ _ Hi) as (I1 & I2 & I3).
  destruct (proj1 (tc_complete F G G' Hext Hsok) _ _ He) as (E1 & E2 & E3).
  repeat split; auto. cbn [tcs_stmt tc_expr]. rewrite E1, I1, (Hext _ _ El). cbn. rewrite Hii, Hs. cbn.
  apply assignableb_ok in Ha. destruct tx; try discriminate Hs; cbn in *; rewrite vassign_ok_some, Ha; reflexivity.
Qed.

Lemma tcs_assignfield_complete : forall deep r f x e s tf t0, lookup G x = Some (BVar (TStruct s)) ->
  field_of M s f = Some (true, tf) -> has_type M F G e t0 -> assignable t0 tf ->
  tcs_stmt Q M deep F G' r (SAssignField f x e) = [] /\ rs_expr G' e = [] /\ pt_expr F G' e = [].
Proof.
  intros deep r f x e s tf t0 El Ef He Ha.
  destruct (proj1 (tc_complete F G G' Hext Hsok) _ _ He) as (E1 & E2 & E3).
  assert (Hf : has_type M F G (EField f (EVar x)) tf) by (eapply T_field; [apply T_var; exact El | exact Ef]).
  destruct (proj1 (tc_complete F G G' Hext Hsok) _ _ Hf) as [F1 _].
  repeat split; auto. cbn [tcs_stmt]. rewrite E1, F1. cbn. apply assignableb_ok in Ha. rewrite vassign_ok_some, Ha. reflexivity.
Qed.

Lemma tc_return_complete : forall e t, has_type M F G e t ->
  tc_return Q M F G' (RFun (Some t)) (Some e) = [] /\ rs_expr G' e = [] /\ pt_expr F G' e = [].
Proof.
  intros e t He. destruct (proj1 (tc_complete F G G' Hext Hsok) _ _ He) as (E1 & E2 & E3).
  unfold tc_return. rewrite E1. cbn. rewrite ty_eqb_refl. auto.
Qed.

End Slots.

Lemma in_top_cons : forall sc G x, in_top (sc :: G) x = false -> assoc x sc = None.
Proof. intros sc G x H; cbn in H. destruct (assoc x sc); [discriminate H | auto]. Qed.

Lemma sok_cons_swap : forall sc G G', sok M (sc :: G) -> sok M G' -> sok M (sc :: G').
Proof.
  intros sc G G' H1 H2 st Hst. specialize (H1 st Hst). specialize (H2 st Hst). cbn in *.
  destruct (assoc st sc); auto.
Qed.

(* shadow-free statements only extend the environment *)
Lemma sf_stmt_env : forall s G G1, sf_stmt M G s = Some G1 ->
  G1 = env_after G s /\ forall x b, stmt_binding s = Some (x, b) -> fresh_ok M G x = true.
Proof.
  intros s G G1 H. destruct s; cbn in H;
    repeat match type of H with
           | (if ?c then _ else _) = _ => destruct c eqn:?; [| discriminate H]
           | match ?c with _ => _ end = _ => destruct c; [| discriminate H]
           end;
    injection H as <-; (split; [reflexivity | intros ? ? [= <- _]; assumption]).
Qed.

Lemma sf_same : forall F,
  (forall s G d r G1 G2, stmt_ok M F G d r s G1 -> sf_stmt M G s = Some G2 -> G1 = G2) /\
  (forall b G d r G1 G2, block_ok M F G d r b G1 -> sf_block M G b = Some G2 -> G1 = G2).
Proof.
  intros F.
  assert (Hs : forall s G d r G1 G2, stmt_ok M F G d r s G1 -> sf_stmt M G s = Some G2 -> G1 = G2).
  { intros s G d r G1 G2 H1 H2. apply stmt_ok_env in H1 as [-> _]. apply sf_stmt_env in H2 as [-> _]. reflexivity. }
  split; [exact Hs |].
  induction b as [| s b IH]; intros G d r G1 G2 H1 H2; inversion H1 as [| ? ? ? ? ? Ga ? Ha Hb]; subst; cbn in H2;
    [congruence |].
  destruct (sf_stmt M G s) as [Gb|] eqn:Eb; [| discriminate H2].
  rewrite (Hs _ _ _ _ _ _ Ha Eb) in Hb. eapply IH; eauto.
Qed.

Lemma sf_step : forall s G G1, sf_stmt M G s = Some G1 -> ext G G1 /\ (sok M G -> sok M G1).
Proof.
  intros s G G1 H. apply sf_stmt_env in H as [-> H]. unfold env_after. destruct (stmt_binding s) as [[x b]|].
  - destruct (fresh_ok_spec _ _ _ (H _ _ eq_refl)) as [H1 H2].
    split; [apply ext_bind; exact H1 | intros Hs; apply sok_bind; auto].
  - split; [apply ext_refl | auto].
Qed.

Lemma sf_block_step : forall b G G1, sf_block M G b = Some G1 -> ext G G1 /\ (sok M G -> sok M G1).
Proof.
  induction b as [| s b IH]; intros G G1 H; cbn in H.
  - injection H as <-. split; [apply ext_refl | auto].
  - destruct (sf_stmt M G s) as [G2|] eqn:E; [| discriminate H].
    apply sf_step in E as [E1 E2]. apply IH in H as [H1 H2]. split; [eapply ext_trans; eauto | auto].
Qed.

Definition sub_blocks (G : env) (s : stmt) : list (env * block) :=
  match s with
  | SIf _ th el => [(push G, th); (push G, el)]
  | SWhile _ b | SBlock b | SRepeat b _ | SDoWhile b _ => [(push G, b)]
  | SFor _ t x _ _ _ b | SForEach _ t x _ b => [(bind (push G) x (BVar t), b)]
  | _ => []
  end.

(* shadow-freeness is only needed under a condition P (a switch being on, the typechecker descending) *)
Lemma sf_sub : forall (P : Prop) G s, (P -> sf_stmt M G s <> None /\ sok M G) ->
  forall G0 b0, In (G0, b0) (sub_blocks G s) -> P -> sf_block M G0 b0 <> None /\ sok M G0.
Proof.
  intros P G s H G0 b0 Hin p. destruct (H p) as [Hsf Hs]. clear H.
  destruct s; cbn [sub_blocks In] in Hin; cbn [sf_stmt] in Hsf; try contradiction.
  - (* SIf *) destruct Hin as [[= <- <-] | [[= <- <-] | []]]; (split; [| apply sok_push; exact Hs]);
      destruct (sf_block M (push G) th), (sf_block M (push G) el); congruence.
  - (* SWhile *) destruct Hin as [[= <- <-] | []]. split; [| apply sok_push; exact Hs].
    destruct (sf_block M (push G) b); congruence.
  - (* SFor *) destruct (fresh_ok M G x) eqn:E; [| contradiction]. destruct Hin as [[= <- <-] | []].
    change ([(x, BVar t)] :: G) with (bind (push G) x (BVar t)).
    split; [destruct (sf_block M (bind (push G) x (BVar t)) b); congruence |].
    apply sok_bind; [apply sok_push; exact Hs | exact (proj2 (fresh_ok_spec _ _ _ E))].
  - (* SForEach *) destruct (fresh_ok M G x) eqn:E; [| contradiction]. destruct Hin as [[= <- <-] | []].
    change ([(x, BVar t)] :: G) with (bind (push G) x (BVar t)).
    split; [destruct (sf_block M (bind (push G) x (BVar t)) b); congruence |].
    apply sok_bind; [apply sok_push; exact Hs | exact (proj2 (fresh_ok_spec _ _ _ E))].
  - (* SRepeat *) destruct Hin as [[= <- <-] | []]. split; [| apply sok_push; exact Hs].
    destruct (sf_block M (push G) b); congruence.
  - (* SDoWhile *) destruct Hin as [[= <- <-] | []]. split; [| apply sok_push; exact Hs].
    destruct (sf_block M (push G) b); congruence.
  - (* SBlock *) destruct Hin as [[= <- <-] | []]. split; [| apply sok_push; exact Hs].
    destruct (sf_block M (push G) b); congruence.
Qed.

Lemma sf_cons : forall (P : Prop) F G d r s b G1, stmt_ok M F G d r s G1 ->
  (P -> sf_block M G (BCons s b) <> None /\ sok M G) ->
  (P -> sf_stmt M G s <> None /\ sok M G) /\ (P -> sf_block M G1 b <> None /\ sok M G1).
Proof.
  intros P F G d r s b G1 H1 H. split; intros p; destruct (H p) as [Hsf Hs]; cbn in Hsf;
    destruct (sf_stmt M G s) as [G2|] eqn:E; try contradiction.
  - split; [discriminate | exact Hs].
  - rewrite (proj1 (sf_same F) _ _ _ _ _ _ H1 E). split; [exact Hsf | apply (proj2 (sf_step _ _ _ E)); exact Hs].
Qed.

(* a nested block is visited in its final table on top of G' *)
Lemma nested_ok : forall F b sc G d r Gb G',
  (forall G'', ext Gb G'' -> (q_field_unimported Q = true -> sok M G'') -> tcs_block Q M true F G'' r b = []) ->
  block_ok M F (sc :: G) d r b Gb -> sf_block M (sc :: G) b <> None /\ sok M (sc :: G) ->
  ext G G' -> (q_field_unimported Q = true -> sok M G') ->
  tcs_block Q M true F (final_scope sc b :: G') r b = [].
Proof.
  intros F b sc G d r Gb G' IH Hb [Hsf Hs] Hext Hsok'.
  destruct (sf_block M (sc :: G) b) as [X|] eqn:Ex; [| contradiction].
  pose proof (proj2 (sf_same F) _ _ _ _ _ _ Hb Ex) as <-.
  pose proof (block_ok_final _ _ _ _ _ _ _ _ Hb) as ->.
  apply IH.
  - apply ext_cons_same; auto.
  - intros q. apply sok_cons_swap with (G := G); auto. apply (proj2 (sf_block_step _ _ _ Ex)); auto.
Qed.

(* when the typechecker descends into blocks it finds their final tables, which extend the ones their statements were
   checked in only if nothing is shadowed *)
Lemma tcs_ok_ext : forall F,
  (forall G d r s G1, stmt_ok M F G d r s G1 ->
     forall G' deep, (deep = true -> sf_stmt M G s <> None /\ sok M G) ->
     ext G G' -> (q_field_unimported Q = true -> sok M G') -> tcs_stmt Q M deep F G' r s = []) /\
  (forall G d r b G1, block_ok M F G d r b G1 -> sf_block M G b <> None -> sok M G ->
     forall G', ext G1 G' -> (q_field_unimported Q = true -> sok M G') -> tcs_block Q M true F G' r b = []).
Proof.
  intros F; apply stmt_ok_block_ok_ind.
  - (* S_var *) intros G d r a t x e t0 _ _ He Ha _ G' deep _ Hext Hsok'.
    apply (tc_assignable_complete F G G' Hext Hsok' e t0 t _ He Ha).
  - (* S_const *) reflexivity.
  - (* S_assign *) intros G d r x e t t0 El He Ha G' deep _ Hext Hsok'.
    apply (tcs_assign_complete F G G' Hext Hsok' deep r x e t t0 El He Ha).
  - (* S_assign_idx *) intros G d r x i e tx ti t0 El Hs Hi Hii He Ha G' deep _ Hext Hsok'.
    apply (tcs_assignidx_complete F G G' Hext Hsok' deep r x i e tx ti t0 El Hs Hi Hii He Ha).
  - (* S_assign_field *) intros G d r f x e s tf t0 El Ef He Ha G' deep _ Hext Hsok'.
    apply (tcs_assignfield_complete F G G' Hext Hsok' deep r f x e s tf t0 El Ef He Ha).
  - (* S_if *) intros G d r c th el G1 G2 Hc Hth IHth Hel IHel G' deep Hsf Hext Hsok'.
    apply tcs_if_nil. split; [apply (tc_cond_complete F G G' Hext Hsok' c Hc) |]. intros ->.
    destruct (sf_sub _ _ _ Hsf (push G) th (or_introl eq_refl) eq_refl) as [Sth Hs].
    destruct (sf_sub _ _ _ Hsf (push G) el (or_intror (or_introl eq_refl)) eq_refl) as [Sel _].
    split; [apply (nested_ok F th [] G d r G1 G') | apply (nested_ok F el [] G d r G2 G')]; auto.
  - (* S_while *) intros G d r c b G1 Hc Hb IHb G' deep Hsf Hext Hsok'.
    apply tcs_while_nil. split; [apply (tc_cond_complete F G G' Hext Hsok' c Hc) |]. intros ->.
    destruct (sf_sub _ _ _ Hsf (push G) b (or_introl eq_refl) eq_refl) as [Sb Hs].
    apply (nested_ok F b [] G (S d) r G1 G'); auto.
  - (* S_for *) intros G d r a t x from to step b t0 t1 G1 _ _ Hn Hf Ha Ht Hn1 Hst Hb IHb G' deep Hsf Hext Hsok'.
    apply tcs_for_nil. repeat split; auto.
    + apply (tc_assignable_complete F G G' Hext Hsok' from t0 t _ Hf Ha).
    + apply (tc_numeric_complete F G G' Hext Hsok' to t1 Ht Hn1).
    + destruct step as [e|]; [| reflexivity]. destruct Hst as (t2 & He & Hn2).
      apply (tc_numeric_complete F G G' Hext Hsok' e t2 He Hn2).
    + intros ->. destruct (sf_sub _ _ _ Hsf _ b (or_introl eq_refl) eq_refl) as [Sb Hs].
      apply (nested_ok F b [(x, BVar t)] G (S d) r G1 G'); auto.
  - (* S_foreach *) intros G d r a t x e b te G1 _ _ He Hi Hb IHb G' deep Hsf Hext Hsok'.
    apply tcs_foreach_nil. split; [apply (tc_iter_complete F G G' Hext Hsok' e te t He Hi) |]. intros ->.
    destruct (sf_sub _ _ _ Hsf _ b (or_introl eq_refl) eq_refl) as [Sb Hs].
    apply (nested_ok F b [(x, BVar t)] G (S d) r G1 G'); auto.
  - (* S_repeat *) intros G d r b n tn G1 Hb IHb Hn Hi G' deep Hsf Hext Hsok'.
    apply tcs_repeat_nil. split; [apply (tc_index_complete F G G' Hext Hsok' n tn Hn Hi) |]. intros ->.
    destruct (sf_sub _ _ _ Hsf (push G) b (or_introl eq_refl) eq_refl) as [Sb Hs].
    apply (nested_ok F b [] G (S d) r G1 G'); auto.
  - (* S_dowhile *) intros G d r b c G1 Hb IHb Hc G' deep Hsf Hext Hsok'.
    apply tcs_dowhile_nil. split; [apply (tc_cond_complete F G G' Hext Hsok' c Hc) |]. intros ->.
    destruct (sf_sub _ _ _ Hsf (push G) b (or_introl eq_refl) eq_refl) as [Sb Hs].
    apply (nested_ok F b [] G (S d) r G1 G'); auto.
  - (* S_break *) reflexivity.
  - (* S_continue *) reflexivity.
  - (* S_return_val *) intros G d e t He G' deep _ Hext Hsok'. apply (tc_return_complete F G G' Hext Hsok' e t He).
  - (* S_return_void *) reflexivity.
  - (* S_block *) intros G d r b G1 Hb IHb G' deep Hsf Hext Hsok'. apply tcs_blockstmt_nil. intros ->.
    destruct (sf_sub _ _ _ Hsf (push G) b (or_introl eq_refl) eq_refl) as [Sb Hs].
    apply (nested_ok F b [] G d r G1 G'); auto.
  - (* S_call *) intros G d r f a ps ro Hf Ha G' deep _ Hext Hsok'. cbn [tcs_stmt]. rewrite tc_call_eq, Hf.
    apply (proj2 (tc_complete F G G' Hext Hsok') _ _ Ha).
  - (* K_nil *) reflexivity.
  - (* K_cons *) intros G d r s b G1 G2 Hs IHs Hb IHb Hsf Hk G' Hext Hsok'.
    destruct (sf_cons True F G d r s b G1 Hs (fun _ => conj Hsf Hk)) as [Hs1 Hs2]. destruct (Hs2 I) as [Hsfb Hk1].
    assert (Hx : ext G G1 /\ ext G1 G2).
    { destruct (Hs1 I) as [Hne _]. destruct (sf_stmt M G s) as [Gc|] eqn:Ec; [| contradiction].
      rewrite <- (proj1 (sf_same F) _ _ _ _ _ _ Hs Ec) in Ec. split; [apply (sf_step _ _ _ Ec) |].
      destruct (sf_block M G1 b) as [Gb|] eqn:Eb; [| contradiction].
      rewrite (proj2 (sf_same F) _ _ _ _ _ _ Hb Eb). apply (sf_block_step _ _ _ Eb). }
    destruct Hx as [Hx1 Hx2]. apply tcs_cons_nil. split.
    + apply (IHs G' true (fun _ => Hs1 I)); auto. eapply ext_trans; [exact Hx1 | eapply ext_trans; eauto].
    + apply IHb; auto.
Qed.

(* with these switches the typechecker sees the final tables of blocks, or looks Kombinationen up by name *)
Definition scope_sensitive : Prop := q_tc_by_name Q = true \/ q_field_unimported Q = true.

Lemma sensitive_sok : forall (A : Prop) G, (scope_sensitive -> A /\ sok M G) -> q_field_unimported Q = true -> sok M G.
Proof. intros A G H q; apply H; right; exact q. Qed.

Lemma tcs_ok : forall F s G d r G1, stmt_ok M F G d r s G1 ->
  (scope_sensitive -> sf_stmt M G s <> None /\ sok M G) -> tcs_stmt Q M (q_tc_by_name Q) F G r s = [].
Proof.
  intros F s G d r G1 H1 Hsf. apply (proj1 (tcs_ok_ext F) _ _ _ _ _ H1).
  - intros q; apply Hsf; left; exact q.
  - apply ext_refl.
  - exact (sensitive_sok _ _ Hsf).
Qed.

(* the table in which the typechecker evaluates the initialiser of a declaration of x *)
Lemma init_table_ok : forall G a t x e, (scope_sensitive -> sf_stmt M G (SVar a t x e) <> None /\ sok M G) ->
  let Gx := if q_tc_by_name Q then bind G x (BVar t) else G in ext G Gx /\ (q_field_unimported Q = true -> sok M Gx).
Proof.
  intros G a t x e Hsf Gx. unfold Gx. destruct (q_tc_by_name Q) eqn:Eq; [| split; [apply ext_refl | exact (sensitive_sok _ _ Hsf)]].
  destruct (Hsf (or_introl Eq)) as [Hx Hk]. cbn in Hx. destruct (fresh_ok M G x) eqn:Ef; [| contradiction].
  apply fresh_ok_spec in Ef as [Ef1 Ef2]. split; [apply ext_bind; exact Ef1 | intros _; apply sok_bind; auto].
Qed.

(* the table in which the resolver resolves the bounds of a counting loop *)
Lemma bounds_table_ok : forall F G d r a t x from to step b G1, block_ok M F (bind (push G) x (BVar t)) d r b G1 ->
  (scope_sensitive -> sf_stmt M G (SFor a t x from to step b) <> None /\ sok M G) ->
  let Gr := if q_tc_by_name Q then G1 else G in ext G Gr /\ (q_field_unimported Q = true -> sok M Gr).
Proof.
  intros F G d r a t x from to step b G1 Hb Hsf Gr. unfold Gr.
  destruct (q_tc_by_name Q) eqn:Eq; [| split; [apply ext_refl | exact (sensitive_sok _ _ Hsf)]].
  destruct (sf_sub _ _ _ Hsf _ _ (or_introl eq_refl) (or_introl Eq)) as [Sb Hs0].
  destruct (Hsf (or_introl Eq)) as [Hx _]. cbn in Hx.
  destruct (fresh_ok M G x) eqn:Ef; [| contradiction]. apply fresh_ok_spec in Ef as [Ef _].
  destruct (sf_block M (bind (push G) x (BVar t)) b) as [X|] eqn:Ex; [| contradiction].
  pose proof (proj2 (sf_same F) _ _ _ _ _ _ Hb Ex) as <-. destruct (sf_block_step _ _ _ Ex) as [Hxb Hkb].
  split; [| auto]. eapply ext_trans; [| exact Hxb]. eapply ext_trans; [apply ext_push | apply ext_bind; cbn; exact Ef].
Qed.

Section NoFieldLookup.
(* assigneable() does not look the field name of a field assignment up as a variable *)
Hypothesis Hno_field_lookup : q_field_name_lookup Q = false.

Lemma ck_complete : forall F,
  (forall G d r s G1, stmt_ok M F G d r s G1 -> (scope_sensitive -> sf_stmt M G s <> None /\ sok M G) ->
       tcs_stmt Q M (q_tc_by_name Q) F G r s = [] -> ck_stmt Q M F G d r s = ([], G1)) /\
  (forall G d r b G1, block_ok M F G d r b G1 -> (scope_sensitive -> sf_block M G b <> None /\ sok M G) ->
       ck_block Q M F G d r b = ([], G1)).
Proof.
  intros F; apply stmt_ok_block_ok_ind.
  - (* S_var *) intros G d r a t x e t0 Hty Hg He Ha Hin Hsf _. apply genderb_iff in Hg.
    destruct (tc_assignable_complete F G G (ext_refl G) (sensitive_sok _ _ Hsf) e t0 t DTypeInit He Ha) as (_ & Hr & Hp).
    destruct (init_table_ok G a t x e Hsf) as [Hx Hk].
    apply ck_var_nil. repeat split; auto. apply (tc_assignable_complete F G _ Hx Hk e t0 t DTypeInit He Ha).
  - (* S_const *) intros G d r x l Hin _ _. apply ck_const_nil. auto.
  - (* S_assign *) intros G d r x e t t0 El He Ha Hsf Htc.
    destruct (tc_assignable_complete F G G (ext_refl G) (sensitive_sok _ _ Hsf) e t0 t DTypeInit He Ha) as (_ & Hr & Hp).
    apply ck_assign_nil. repeat split; eauto.
  - (* S_assign_idx *) intros G d r x i e tx ti t0 El Hsq Hi Hii He Ha Hsf Htc.
    destruct (tcs_assignidx_complete F G G (ext_refl G) (sensitive_sok _ _ Hsf) (q_tc_by_name Q) r x i e tx ti t0 El Hsq Hi Hii He Ha)
      as (Ht & Hri & Hpi & Hre & Hpe).
    apply ck_assignidx_nil. repeat split; eauto.
  - (* S_assign_field *) intros G d r f x e s tf t0 El Ef He Ha Hsf Htc.
    destruct (tcs_assignfield_complete F G G (ext_refl G) (sensitive_sok _ _ Hsf) (q_tc_by_name Q) r f x e s tf t0 El Ef He Ha) as (Ht & Hre & Hpe).
    apply ck_assignfield_nil. rewrite Hno_field_lookup. repeat split; eauto.
  - (* S_if *) intros G d r c th el G1 G2 Hc Hth IHth Hel IHel Hsf Htc.
    destruct (tc_cond_complete F G G (ext_refl G) (sensitive_sok _ _ Hsf) c Hc) as (_ & Hr & Hp).
    apply ck_if_nil. repeat split; eauto.
    + exists G1. apply IHth, (sf_sub _ _ _ Hsf). left; reflexivity.
    + exists G2. apply IHel, (sf_sub _ _ _ Hsf). right; left; reflexivity.
  - (* S_while *) intros G d r c b G1 Hc Hb IHb Hsf Htc.
    destruct (tc_cond_complete F G G (ext_refl G) (sensitive_sok _ _ Hsf) c Hc) as (_ & Hr & Hp).
    apply ck_while_nil. repeat split; eauto.
    exists G1. apply IHb, (sf_sub _ _ _ Hsf). left; reflexivity.
  - (* S_for *) intros G d r a t x from to step b t0 t1 G1 Hty Hg Hn Hf Ha Ht Hn1 Hst Hb IHb Hsf Htc.
    set (Gr := if q_tc_by_name Q then G1 else G).
    destruct (bounds_table_ok F G (S d) r a t x from to step b G1 Hb Hsf) as [HxGr HkGr]. fold Gr in HxGr, HkGr.
    destruct (tc_assignable_complete F G G (ext_refl G) (sensitive_sok _ _ Hsf) from t0 t DTypeInit Hf Ha) as (_ & _ & Hpf).
    destruct (tc_assignable_complete F G Gr HxGr HkGr from t0 t DTypeInit Hf Ha) as (_ & Hrf & _).
    destruct (tc_numeric_complete F G G (ext_refl G) (sensitive_sok _ _ Hsf) to t1 Ht Hn1) as (_ & _ & Hpt).
    destruct (tc_numeric_complete F G Gr HxGr HkGr to t1 Ht Hn1) as (_ & Hrt & _).
    assert (Hstep : pt_opt F G step = [] /\ rs_opt Gr step = []).
    { destruct step as [e|]; [| split; reflexivity]. destruct Hst as (t2 & He & Hn2). cbn.
      destruct (tc_numeric_complete F G G (ext_refl G) (sensitive_sok _ _ Hsf) e t2 He Hn2) as (_ & _ & ->).
      destruct (tc_numeric_complete F G Gr HxGr HkGr e t2 He Hn2) as (_ & -> & _). split; reflexivity. }
    destruct Hstep as [Hps Hrs]. apply genderb_iff in Hg.
    apply ck_for_nil. repeat split; eauto.
    exists G1. split; [apply IHb, (sf_sub _ _ _ Hsf); left; reflexivity | repeat split; assumption].
  - (* S_foreach *) intros G d r a t x e b te G1 Hty Hg He Hi Hb IHb Hsf Htc.
    destruct (tc_iter_complete F G G (ext_refl G) (sensitive_sok _ _ Hsf) e te t He Hi) as (_ & Hr & Hp). apply genderb_iff in Hg.
    apply ck_foreach_nil. repeat split; eauto.
    exists G1. apply IHb, (sf_sub _ _ _ Hsf). left; reflexivity.
  - (* S_repeat *) intros G d r b n tn G1 Hb IHb Hn Hi Hsf Htc.
    destruct (tc_index_complete F G G (ext_refl G) (sensitive_sok _ _ Hsf) n tn Hn Hi) as (_ & Hr & Hp).
    apply ck_repeat_nil. repeat split; eauto.
    exists G1. apply IHb, (sf_sub _ _ _ Hsf). left; reflexivity.
  - (* S_dowhile *) intros G d r b c G1 Hb IHb Hc Hsf Htc.
    destruct (tc_cond_complete F G G (ext_refl G) (sensitive_sok _ _ Hsf) c Hc) as (_ & Hr & Hp).
    apply ck_dowhile_nil. repeat split; eauto.
    exists G1. apply IHb, (sf_sub _ _ _ Hsf). left; reflexivity.
  - (* S_break *) intros G d r _ _. apply ck_jump_nil; eauto.
  - (* S_continue *) intros G d r _ _. apply ck_jump_nil; eauto.
  - (* S_return_val *) intros G d e t He Hsf Htc.
    destruct (tc_return_complete F G G (ext_refl G) (sensitive_sok _ _ Hsf) e t He) as (Ht & Hr & Hp).
    apply ck_return_nil. repeat split; eauto.
  - (* S_return_void *) intros G d _ Htc. apply ck_return_nil. repeat split; eauto.
  - (* S_block *) intros G d r b G1 Hb IHb Hsf Htc.
    apply ck_blockstmt_nil. repeat split; eauto.
    exists G1. apply IHb, (sf_sub _ _ _ Hsf). left; reflexivity.
  - (* S_call *) intros G d r f a ps ro Hf Ha Hsf Htc.
    destruct (proj2 (tc_complete F G G (ext_refl G) (sensitive_sok _ _ Hsf)) _ _ Ha) as (Ht & Hr & Hp).
    apply ck_call_nil. cbn [pt_expr]. rewrite tc_call_eq, Hf. auto.
  - (* K_nil *) reflexivity.
  - (* K_cons *) intros G d r s b G1 G2 Hs IHs Hb IHb Hsf.
    destruct (sf_cons _ F G d r s b G1 Hs Hsf) as [Hs1 Hs2]. apply ck_cons_nil.
    exists G1. split; [apply IHs; [exact Hs1 | apply (tcs_ok F _ _ _ _ _ Hs Hs1)] | apply IHb; exact Hs2].
Qed.

Lemma nodupb_dup_names : forall l, nodupb l = true -> dup_names l = [].
Proof.
  induction l as [| x l IH]; cbn; intros H; auto. apply andb_true_iff in H as [H1 H2].
  apply negb_true_iff in H1. rewrite H1, (IH H2). reflexivity.
Qed.

Lemma sok_scope : forall sc G, (forall y, In y (map fst sc) -> is_struct_name M y = false) -> sok M G -> sok M (sc :: G).
Proof.
  intros sc G Hn Hs st Hst. cbn. destruct (assoc st sc) eqn:E; auto.
  exfalso. assert (In st (map fst sc)) by (apply assoc_names; congruence). rewrite (Hn _ H) in Hst. discriminate Hst.
Qed.

Lemma ck_params_nil : forall G l, (forall p, In p l -> param_name_ok G (pname p) = true /\ ty_ok G (ptype p) = true) ->
  flat_map (fun p => unless (param_name_ok G (pname p)) DDup ++ pt_type G (ptype p)) l = [].
Proof.
  intros G; induction l as [| q l IH]; cbn; intros H; auto. destruct (H q (or_introl eq_refl)) as [H1 H2].
  unfold pt_type. rewrite H1, H2. cbn. auto.
Qed.

Lemma ck_fun_complete : forall F G f, fun_ok M F G f -> (scope_sensitive -> sf_fun M G f = true /\ sok M G) ->
  ck_fun Q M F G f = ([], bind G (f_name f) BFun, (f_name f, sig_of f) :: F).
Proof.
  intros F G f [G1 El Hnd Hps Hret Hblk Hfin] Hsf.
  assert (Hbody : scope_sensitive -> sf_block M (param_scope f :: bind G (f_name f) BFun) (f_body f) <> None /\
                                     sok M (param_scope f :: bind G (f_name f) BFun)).
  { intros q. destruct (Hsf q) as [Hf Hs]. unfold sf_fun in Hf. rewrite !andb_true_iff, negb_true_iff in Hf.
    destruct Hf as ((Hsn & Hsp) & Hsb). split.
    - intros E; rewrite E in Hsb; discriminate Hsb.
    - apply sok_scope; [| apply sok_bind; auto]. intros y Hy. unfold param_scope in Hy. rewrite map_map in Hy. cbn in Hy.
      apply in_map_iff in Hy as [p [<- Hp]]. apply filter_In in Hp as [Hp _].
      rewrite forallb_forall in Hsp. apply Hsp in Hp. apply andb_true_iff in Hp as [Hp _].
      apply (fresh_ok_spec _ _ _ Hp). }
  unfold ck_fun, ck_params. rewrite El, (nodupb_dup_names _ (proj2 (nodupb_iff _) Hnd)), (ck_params_nil _ _ Hps).
  assert (Hrt : match f_ret f with Some (_, t) => pt_type G t | None => [] end = [] /\
                match f_ret f with Some (a, t) => art_diag M t a | None => [] end = []).
  { destruct (f_ret f) as [[a t]|]; [| split; reflexivity]. destruct Hret as [Hr1 Hr2]. apply genderb_iff in Hr2.
    unfold pt_type. rewrite Hr1, (proj2 (art_diag_nil_iff M _ _) Hr2). split; reflexivity. }
  destruct Hrt as [-> ->]. cbn [app]. rewrite (proj2 (ck_complete _) _ _ _ _ _ Hblk Hbody).
  destruct (f_ret f) eqn:Er; [| reflexivity].
  rewrite (proj2 (ends_in_returnb_iff _) (Hfin ltac:(discriminate))). reflexivity.
Qed.

Lemma ck_tops_complete : forall l F G, tops_ok M F G l -> (scope_sensitive -> sf_tops M G l = true /\ sok M G) ->
  ck_tops Q M F G l = [].
Proof.
  intros l F G H; induction H as [F G | F G f r Hf Hr IH | F G s r G1 Hs Hr IH]; intros Hsf; cbn; [reflexivity | |].
  - rewrite (ck_fun_complete _ _ _ Hf); [cbn [app]; apply IH |]; intros q; destruct (Hsf q) as [Hq Hk]; cbn in Hq;
      apply andb_true_iff in Hq as [Hq1 Hq2]; split; auto.
    apply sok_bind; auto. unfold sf_fun in Hq1. rewrite !andb_true_iff, negb_true_iff in Hq1. tauto.
  - assert (Hside : scope_sensitive -> sf_stmt M G s <> None /\ sok M G).
    { intros q. destruct (Hsf q) as [Hq Hk]. cbn in Hq.
      destruct (sf_stmt M G s); [split; [discriminate | exact Hk] | discriminate Hq]. }
    rewrite (proj1 (ck_complete _) _ _ _ _ _ Hs Hside (tcs_ok _ _ _ _ _ _ Hs Hside)). cbn [app]. apply IH.
    intros q. destruct (Hsf q) as [Hq Hk]. cbn in Hq. destruct (sf_stmt M G s) as [G2|] eqn:Ss; [| discriminate Hq].
    rewrite (proj1 (sf_same _) _ _ _ _ _ _ Hs Ss). split; [exact Hq | apply (proj2 (sf_step _ _ _ Ss)); exact Hk].
Qed.

End NoFieldLookup.
End Complete.

Lemma sok_import : forall M ds, mod_ok M = true -> (forall d, In d ds -> In d M) -> sok M [scope_of_decls ds].
Proof.
  intros M ds Hm Hin st Hst. cbn. destruct (assoc st (scope_of_decls ds)) as [b|] eqn:E; auto. right.
  apply assoc_in in E. unfold scope_of_decls in E. apply in_rev in E. apply in_map_iff in E as [d [Hd Hdin]].
  injection Hd as Hn Hb. subst st b. apply Hin in Hdin. unfold mod_ok in Hm. rewrite forallb_forall in Hm. apply Hm in Hdin.
  destruct d; cbn in *; try reflexivity; rewrite Hst in Hdin; discriminate Hdin.
Qed.


Theorem check_with_complete_gen : forall Q p, q_field_name_lookup Q = false -> wf p ->
  (scope_sensitive Q -> shadow_free p = true) -> check_with Q p = [].
Proof.
  intros Q p Hq (ds & Himp & Htops) Hsf. apply import_decls_iff in Himp. unfold check_with.
  rewrite (ck_import_complete _ _ _ Himp). cbn [app].
  apply ck_tops_complete; auto. intros q. specialize (Hsf q). unfold shadow_free in Hsf. rewrite Himp in Hsf.
  apply andb_true_iff in Hsf as [Hm Hsf]. split; [exact Hsf |].
  apply sok_import; auto. eapply import_decls_in; eauto.
Qed.

Theorem check_with_complete : forall Q p, q_field_name_lookup Q = false -> wf p -> shadow_free p = true -> check_with Q p = [].
Proof. intros Q p Hq Hwf Hsf. apply check_with_complete_gen; auto. Qed.

Theorem check_with_complete_full : forall Q p, q_tc_by_name Q = false -> q_field_unimported Q = false ->
  q_field_name_lookup Q = false -> wf p -> check_with Q p = [].
Proof. intros Q p H1 H2 H3 Hwf. apply check_with_complete_gen; auto. intros [q | q]; congruence. Qed.

(* `check` rejects a well-formed program: a Konstante that is called like a field
     Binde "modul" ein.  Die Konstante x2 ist 1.  Speichere 3 in x2 von x10.        (x2: public field of x10's Kombination) *)
Definition w_field_name : prog :=
  {| p_mod := [IStruct true 1 Der [(true, 2, TZahl)]; IVar true 10 (TStruct 1)]; p_imp := ImpAll;
     p_tops := [TStmt (SConst Die 2 LZahl); TStmt (SAssignField 2 10 (ELit LZahl))] |}.

Theorem check_complete_refuted : exists p, wf p /\ check p <> [] /\ check_patched p = [].
Proof.
  exists w_field_name. split; [apply wfb_iff; vm_compute; reflexivity |].
  split; [vm_compute; discriminate | vm_compute; reflexivity].
Qed.

(* the switches of the pinned tree without the field-name lookup: complete on shadow-free programs (with it,
   w_field_name is shadow-free and rejected) *)
Theorem check_pinned_complete_core : forall p, wf p -> shadow_free p = true ->
  check_with {| q_void_eq := true; q_void_ret := true; q_tc_by_name := true; q_field_unimported := true; q_field_name_lookup := false |} p = [].
Proof. intros p; apply check_with_complete; reflexivity. Qed.

(* check_pinned rejects this well-formed program
     Die Zahl x1 ist 1.
     Wenn wahr, dann:
         Die Zahl x2 ist x1.        (x1 is the outer Zahl)
         Der Text x1 ist "..".      (declared afterwards; legal shadowing)
   (its re-visit of the block looked x1 up in the block's final table and found the Text) *)
Definition w_late_shadow : prog :=
  {| p_mod := []; p_imp := ImpNone;
     p_tops := [TStmt (SVar Die TZahl 1 (ELit LZahl));
                TStmt (SIf (ELit LBool) (BCons (SVar Die TZahl 2 (EVar 1)) (BCons (SVar Der TText 1 (ELit LText)) BNil)) BNil)] |}.

Theorem check_pinned_complete_refuted : exists p, wf p /\ check_pinned p <> [] /\ check p = [].
Proof.
  exists w_late_shadow. split; [apply wfb_iff; vm_compute; reflexivity |].
  split; [vm_compute; discriminate | vm_compute; reflexivity].
Qed.

(* non-vacuity: a shadow-free well-formed program with a function, a loop, a call and an import *)
Definition ex_ok : prog :=
  {| p_mod := [IStruct true 1 Der [(true, 2, TZahl); (false, 3, TZahl)]; IAlias 40 1 [2; 3]; IVar true 10 (TStruct 1); IFun true 30 [(TZahl, false)] (Some TZahl)];
     p_imp := ImpAll;
     p_tops := [TStmt (SVar Die TZahl 100 (EField 2 (EVar 10)));
                TStmt (SConst Die 104 LZahl);
                TStmt (SIf (EBin BKleiner (EVar 100) (EVar 104)) (BCons (SAssign 100 (EVar 104)) BNil) BNil);
                TFun {| f_name := 101; f_params := [(102, TZahl, true)]; f_ret := Some (Die, TZahl);
                        f_body := BCons (SAssign 102 (EBin BPlus (EVar 102) (ELit LZahl))) (BCons (SReturn (Some (EVar 102))) BNil) |};
                TStmt (SFor Die TZahl 103 (ELit LZahl) (ECall 30 (ACons (EVar 100) ANil)) None
                            (BCons (SCall 101 (ACons (EVar 100) ANil)) (BCons SBreak BNil)));
                TStmt (SVar Die (TList TZahl) 105 (EList (ELit LZahl) (ACons (EVar 100) ANil)));
                TStmt (SAssignIdx 105 (ELit LZahl) (EVar 104));
                TStmt (SAssignField 2 10 (EVar 100));
                TStmt (SForEach Die TZahl 106 (EBin BVerkettet (EVar 105) (EVar 100)) (BCons (SAssign 100 (EVar 106)) BNil));
                TStmt (SRepeat (BCons (SAssign 100 (EUn ULen (ESlice (EVar 105) (ELit LZahl) (EVar 100)))) BNil) (ELit LZahl));
                TStmt (SDoWhile (BCons (SAssign 100 (ELit LZahl)) BNil) (ELit LBool));
                TStmt (SConst Die 107 LText);
                TStmt (SVar Der (TStruct 1) 108 (ECall 40 (ACons (EVar 100) (ACons (ELit LZahl) ANil))))] |}.

Lemma ex_ok_facts : wfb ex_ok = true /\ shadow_free ex_ok = true /\ quirk_free ex_ok = true /\ check ex_ok = [] /\ check_pinned ex_ok = [].
Proof. repeat split; vm_compute; reflexivity. Qed.
