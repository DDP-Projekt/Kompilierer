(* Refinement of the ordered map to an association list looked up by keq.
   With the linear fallback of the lookup the only hypothesis is that keq is an equivalence; nothing is
   required of klt (it only decides where a new pair is stored). *)
From Coq Require Import List Arith Lia.
Import ListNotations.
From DDP Require Import Alias.OMap.

Section Proofs.
Variables K V : Type.
Variable keq klt : K -> K -> bool.
Hypothesis keq_refl : forall a, keq a a = true.
Hypothesis keq_sym : forall a b, keq a b = keq b a.
Hypothesis keq_trans : forall a b c, keq a b = true -> keq b c = true -> keq a c = true.
(* Symmetry and transitivity carry Set, Get and Delete. Reflexivity is used only in get_own, on which the
   Search theorems rest: those take three laws, the theorems about histories two. *)

Notation omap := (list (K * V)).

Fixpoint uniq (m : omap) : Prop :=
  match m with
  | [] => True
  | (k, _) :: r => (forall k', In k' (keys r) -> keq k k' = false) /\ uniq r
  end.

Lemma keq_congr a b c : keq a b = true -> keq a c = keq b c.
Proof.
  intros E. destruct (keq b c) eqn:E1; [exact (keq_trans _ _ _ E E1)|].
  destruct (keq a c) eqn:E2; [|reflexivity].
  rewrite keq_sym in E. rewrite (keq_trans _ _ _ E E2) in E1. discriminate E1.
Qed.

Lemma keq_congr_r a b c : keq a b = true -> keq c a = keq c b.
Proof. intros E. rewrite !(keq_sym c). apply keq_congr, E. Qed.

Lemma bsearch_go_found fuel (m : omap) key low high i :
  bsearch_go keq klt fuel m key low high = (i, true) ->
  exists k v, nth_error m i = Some (k, v) /\ keq k key = true.
Proof.
  revert low high. induction fuel as [|f IH]; intros low high H; cbn [bsearch_go] in H; [discriminate H|].
  destruct (low <? high); [|discriminate H].
  destruct (nth_error m ((low + high) / 2)) as [[k v]|] eqn:E; [|discriminate H].
  destruct (keq k key) eqn:Ek.
  - inversion H; subst. eauto.
  - destruct (klt k key); eauto.
Qed.

Lemma lscan_some (m : omap) key i j :
  lscan keq m key i = Some j ->
  exists k v, i <= j /\ nth_error m (j - i) = Some (k, v) /\ keq k key = true.
Proof.
  revert i. induction m as [|[k v] r IH]; intros i H; cbn in H; [discriminate H|].
  destruct (keq k key) eqn:Ek.
  - inversion H; subst. exists k, v. rewrite Nat.sub_diag. auto.
  - apply IH in H. destruct H as (k' & v' & Hle & Hn & He).
    exists k', v'. split; [lia|]. split; [|exact He].
    replace (j - i) with (S (j - S i)) by lia. exact Hn.
Qed.

Lemma lscan_none (m : omap) key i :
  lscan keq m key i = None -> forall k, In k (keys m) -> keq k key = false.
Proof.
  revert i. induction m as [|[k v] r IH]; intros i H k' Hin; cbn in *; [contradiction|].
  destruct (keq k key) eqn:Ek; [discriminate H|].
  destruct Hin as [<-|Hin]; [exact Ek|eauto].
Qed.

Lemma find_key_found (m : omap) key i :
  find_key keq klt m key = (i, true) ->
  exists k v, nth_error m i = Some (k, v) /\ keq k key = true.
Proof.
  unfold find_key, bsearch_strict. intros H.
  destruct (bsearch_go keq klt (S (length m)) m key 0 (length m)) as [i0 [|]] eqn:E.
  - inversion H; subst. eapply bsearch_go_found; eauto.
  - destruct (lscan keq m key 0) as [j|] eqn:El; [|discriminate H].
    inversion H; subst. apply lscan_some in El. destruct El as (k & v & _ & Hn & He).
    rewrite Nat.sub_0_r in Hn. eauto.
Qed.

Lemma find_key_missing (m : omap) key i :
  find_key keq klt m key = (i, false) -> forall k, In k (keys m) -> keq k key = false.
Proof.
  unfold find_key. intros H.
  destruct (bsearch_strict keq klt m key) as [i0 [|]]; [discriminate H|].
  destruct (lscan keq m key 0) as [j|] eqn:El; [discriminate H|].
  eapply lscan_none; eauto.
Qed.

Lemma nth_error_in_keys (m : omap) i k v : nth_error m i = Some (k, v) -> In k (keys m).
Proof. intros H. exact (in_map fst _ _ (nth_error_In _ _ H)). Qed.

Lemma sget_in (m : omap) key v : sget keq m key = Some v -> exists k, In (k, v) m /\ keq k key = true.
Proof.
  induction m as [|[k0 v0] r IH]; cbn; [discriminate|].
  destruct (keq k0 key) eqn:E; intros H.
  - inversion H; subst. eauto.
  - destruct (IH H) as (k & Hin & Hk). eauto.
Qed.

Lemma sget_of_in (m : omap) k v key : uniq m -> In (k, v) m -> keq k key = true -> sget keq m key = Some v.
Proof.
  induction m as [|[k0 v0] r IH]; intros Hu Hin He; [destruct Hin|].
  destruct Hu as [Hh Hr]. cbn. destruct Hin as [E|Hin].
  - inversion E; subst. rewrite He. reflexivity.
  - rewrite <- (keq_congr_r _ _ k0 He), (Hh k (in_map fst _ _ Hin)). auto.
Qed.

Lemma sget_none (m : omap) key :
  (forall k, In k (keys m) -> keq k key = false) -> sget keq m key = None.
Proof.
  induction m as [|[k v] r IH]; intros H; cbn; [reflexivity|].
  rewrite (H k) by (cbn; auto). apply IH. intros k' Hk. apply H. cbn; auto.
Qed.

Lemma sget_congr (m : omap) k k' : keq k k' = true -> sget keq m k = sget keq m k'.
Proof.
  intros E. induction m as [|[k0 v0] r IH]; cbn; [reflexivity|].
  rewrite (keq_congr_r _ _ k0 E), IH. reflexivity.
Qed.

Lemma get_is_sget (m : omap) key : uniq m -> get keq klt m key = sget keq m key.
Proof.
  intros Hu. unfold get, get_with. destruct (find_key keq klt m key) as [i [|]] eqn:E.
  - apply find_key_found in E. destruct E as (k & v & Hn & He). rewrite Hn.
    symmetry. eapply sget_of_in; eauto using nth_error_In.
  - symmetry. apply sget_none. eapply find_key_missing; eauto.
Qed.

Lemma keys_set_nth (m : omap) i v : keys (set_nth m i v) = keys m.
Proof.
  revert i; induction m as [|[k w] r IH]; intros [|j]; cbn; try reflexivity.
  f_equal. apply IH.
Qed.

Lemma uniq_set_nth (m : omap) i v : uniq m -> uniq (set_nth m i v).
Proof.
  revert i; induction m as [|[k w] r IH]; intros [|j] Hu; cbn in *; auto.
  destruct Hu as [Hh Hr]. split; [|auto]. intros k' Hk. rewrite keys_set_nth in Hk. auto.
Qed.

Lemma sget_set_nth (m : omap) i k w v key key' :
  uniq m -> nth_error m i = Some (k, w) -> keq k key = true ->
  sget keq (set_nth m i v) key' = if keq key key' then Some v else sget keq m key'.
Proof.
  revert i. induction m as [|[k0 v0] r IH]; intros i Hu Hn He; [destruct i; discriminate Hn|].
  destruct Hu as [Hh Hr]. destruct i as [|j]; cbn in *.
  - inversion Hn; subst. rewrite (keq_congr _ _ key' He). destruct (keq key key'); reflexivity.
  - rewrite (IH j Hr Hn He). destruct (keq key key') eqn:E; [|reflexivity].
    rewrite <- (keq_congr_r _ _ k0 E), <- (keq_congr_r _ _ k0 He), (Hh k (nth_error_in_keys _ _ _ _ Hn)). reflexivity.
Qed.

Lemma keys_ins_sorted (m : omap) key v k : In k (keys (ins_sorted klt m key v)) -> k = key \/ In k (keys m).
Proof.
  induction m as [|[k0 v0] r IH]; cbn; intros H.
  - destruct H as [<-|[]]; auto.
  - destruct (klt key k0); cbn in H.
    + destruct H as [<-|[<-|H]]; auto.
    + destruct H as [<-|H]; auto. apply IH in H. destruct H; auto.
Qed.

Lemma uniq_ins_sorted (m : omap) key v :
  uniq m -> (forall k, In k (keys m) -> keq k key = false) -> uniq (ins_sorted klt m key v).
Proof.
  induction m as [|[k0 v0] r IH]; intros Hu Hm; cbn.
  - split; [intros ? []|exact I].
  - destruct Hu as [Hh Hr]. destruct (klt key k0); cbn.
    + split; [|split; assumption]. intros k' [<-|Hk]; rewrite keq_sym; apply Hm; cbn; auto.
    + split.
      * intros k' Hk. apply keys_ins_sorted in Hk. destruct Hk as [->|Hk]; [apply Hm; cbn; auto|auto].
      * apply IH; [assumption|]. intros k Hk. apply Hm. cbn; auto.
Qed.

Lemma sget_ins_sorted (m : omap) key v key' :
  (forall k, In k (keys m) -> keq k key = false) ->
  sget keq (ins_sorted klt m key v) key' = if keq key key' then Some v else sget keq m key'.
Proof.
  induction m as [|[k0 v0] r IH]; intros Hm; cbn; [reflexivity|].
  destruct (klt key k0); cbn; [reflexivity|].
  rewrite IH by (intros k Hk; apply Hm; cbn; auto).
  destruct (keq key key') eqn:E; [|reflexivity].
  rewrite <- (keq_congr_r _ _ k0 E), (Hm k0) by (cbn; auto). reflexivity.
Qed.

Lemma keys_del_nth (m : omap) i k : In k (keys (del_nth m i)) -> In k (keys m).
Proof.
  revert i; induction m as [|[k0 v0] r IH]; intros [|j]; cbn; auto.
  intros [<-|H]; eauto.
Qed.

Lemma uniq_del_nth (m : omap) i : uniq m -> uniq (del_nth m i).
Proof.
  revert i; induction m as [|[k0 v0] r IH]; intros [|j] Hu; cbn in *; auto; destruct Hu as [Hh Hr]; auto.
  split; [|auto]. intros k' Hk. apply keys_del_nth in Hk. auto.
Qed.

Lemma sget_del_nth (m : omap) i k w key key' :
  uniq m -> nth_error m i = Some (k, w) -> keq k key = true ->
  sget keq (del_nth m i) key' = if keq key key' then None else sget keq m key'.
Proof.
  revert i. induction m as [|[k0 v0] r IH]; intros i Hu Hn He; [destruct i; discriminate Hn|].
  destruct Hu as [Hh Hr]. destruct i as [|j]; cbn in *.
  - inversion Hn; subst. rewrite (keq_congr _ _ key' He). destruct (keq key key') eqn:E; [|reflexivity].
    apply sget_none. intros k' Hk. rewrite keq_sym, <- (keq_congr _ _ k' E), <- (keq_congr _ _ k' He). auto.
  - rewrite (IH j Hr Hn He). destruct (keq key key') eqn:E; [|reflexivity].
    rewrite <- (keq_congr_r _ _ k0 E), <- (keq_congr_r _ _ k0 He), (Hh k (nth_error_in_keys _ _ _ _ Hn)). reflexivity.
Qed.

Lemma sget_sdel (l : omap) key key' :
  sget keq (sdel keq l key) key' = if keq key key' then None else sget keq l key'.
Proof.
  induction l as [|[k v] r IH]; cbn; [destruct (keq key key'); reflexivity|].
  destruct (keq k key) eqn:E; cbn; rewrite IH.
  - rewrite (keq_congr _ _ key' E). destruct (keq key key'); reflexivity.
  - destruct (keq key key') eqn:E2; [|reflexivity]. rewrite <- (keq_congr_r _ _ k E2), E. reflexivity.
Qed.

Lemma sget_sset (l : omap) key v key' :
  sget keq (sset keq l key v) key' = if keq key key' then Some v else sget keq l key'.
Proof. unfold sset; cbn. destruct (keq key key') eqn:E; [reflexivity|]. rewrite sget_sdel, E. reflexivity. Qed.

Definition R (m l : omap) : Prop := uniq m /\ forall k, sget keq m k = sget keq l k.

Lemma R_init : R [] [].
Proof. split; [exact I|reflexivity]. Qed.

Lemma step_refines m l o :
  R m l -> snd (step keq klt m o) = snd (sstep keq l o) /\ R (fst (step keq klt m o)) (fst (sstep keq l o)).
Proof.
  intros [Hu Hobs]. destruct o as [k v|k|k]; cbn.
  - split; [reflexivity|]. unfold set, set_with.
    destruct (find_key keq klt m k) as [i [|]] eqn:E.
    + apply find_key_found in E. destruct E as (k0 & w & Hn & He).
      split; [apply uniq_set_nth; assumption|].
      intros key'. rewrite (sget_set_nth m i k0 w v k key' Hu Hn He), sget_sset, Hobs. reflexivity.
    + pose proof (find_key_missing m k i E) as Hm.
      split; [apply uniq_ins_sorted; assumption|].
      intros key'. rewrite (sget_ins_sorted m k v key' Hm), sget_sset, Hobs. reflexivity.
  - split; [|split; assumption]. rewrite get_is_sget by assumption. rewrite Hobs. reflexivity.
  - split; [reflexivity|]. unfold delete, delete_with.
    destruct (find_key keq klt m k) as [i [|]] eqn:E.
    + apply find_key_found in E. destruct E as (k0 & w & Hn & He).
      split; [apply uniq_del_nth; assumption|].
      intros key'. rewrite (sget_del_nth m i k0 w k key' Hu Hn He), sget_sdel, Hobs. reflexivity.
    + pose proof (find_key_missing m k i E) as Hm. split; [assumption|].
      intros key'. rewrite sget_sdel, <- Hobs. destruct (keq k key') eqn:E2; [|reflexivity].
      apply sget_none. intros k' Hk. rewrite <- (keq_congr_r _ _ k' E2). auto.
Qed.

Theorem omap_refines_assoc_list : forall ops m l,
  R m l -> run (step keq klt) m ops = run (sstep keq) l ops.
Proof.
  induction ops as [|o ops IH]; intros m l HR; cbn; [reflexivity|].
  pose proof (step_refines m l o HR) as [Hout HR'].
  destruct (step keq klt m o) as [m' out]; destruct (sstep keq l o) as [l' out']; cbn in *.
  subst out'. f_equal. apply IH. exact HR'.
Qed.

Corollary omap_history : forall ops : list (op K V), run (step keq klt) [] ops = run (sstep keq) [] ops.
Proof. intros; apply omap_refines_assoc_list, R_init. Qed.

Lemma uniq_reachable : forall ops m l, R m l -> uniq (fold_left (fun s o => fst (step keq klt s o)) ops m).
Proof.
  induction ops as [|o ops IH]; intros m l HR; cbn; [apply HR|].
  eapply IH. apply step_refines; eauto.
Qed.

(* the map as the trie uses it: no statement below mentions the association list *)
Lemma get_cons k v (r : omap) key :
  uniq ((k, v) :: r) -> get keq klt ((k, v) :: r) key = if keq k key then Some v else get keq klt r key.
Proof. intros Hu. rewrite !get_is_sget by (exact Hu || apply Hu). reflexivity. Qed.

Lemma get_spec (m : omap) key v :
  uniq m -> get keq klt m key = Some v <-> exists k, In (k, v) m /\ keq k key = true.
Proof.
  intros Hu. rewrite get_is_sget by exact Hu. split; [apply sget_in|].
  intros (k & Hin & He). eapply sget_of_in; eauto.
Qed.

Lemma get_own (m : omap) k v : uniq m -> In (k, v) m -> get keq klt m k = Some v.
Proof. intros Hu Hin. apply (get_spec m k v Hu). exists k. split; [exact Hin|apply keq_refl]. Qed.

Lemma get_congr (m : omap) k k' : uniq m -> keq k k' = true -> get keq klt m k = get keq klt m k'.
Proof. intros Hu E. rewrite !get_is_sget by assumption. apply sget_congr; assumption. Qed.

Lemma uniq_set (m : omap) k v : uniq m -> uniq (set keq klt m k v).
Proof. intros Hu. apply (step_refines m m (OSet k v) (conj Hu (fun _ => eq_refl))). Qed.

Lemma get_set (m : omap) k v k' :
  uniq m -> get keq klt (set keq klt m k v) k' = if keq k k' then Some v else get keq klt m k'.
Proof.
  intros Hu. destruct (step_refines m m (OSet k v) (conj Hu (fun _ => eq_refl))) as [_ [Hu' Ho]].
  cbn [step sstep fst] in Hu', Ho. rewrite !get_is_sget by assumption. rewrite Ho. apply sget_sset.
Qed.

Lemma in_set_nth (m : omap) i v k0 c : In (k0, c) (set_nth m i v) -> c = v \/ In (k0, c) m.
Proof.
  revert i; induction m as [|[k w] r IH]; intros [|j]; cbn; auto.
  - intros [H|H]; [inversion H; auto|auto].
  - intros [H|H]; [auto|]. apply IH in H. destruct H; auto.
Qed.

Lemma in_ins_sorted (m : omap) k v k0 c : In (k0, c) (ins_sorted klt m k v) -> c = v \/ In (k0, c) m.
Proof.
  induction m as [|[k1 w] r IH]; cbn.
  - intros [H|[]]. inversion H; auto.
  - destruct (klt k k1); cbn.
    + intros [H|H]; [inversion H; auto|auto].
    + intros [H|H]; [auto|]. apply IH in H. destruct H; auto.
Qed.

Lemma in_set (m : omap) k v k0 c : In (k0, c) (set keq klt m k v) -> c = v \/ In (k0, c) m.
Proof.
  unfold set, set_with. destruct (find_key keq klt m k) as [i [|]].
  - apply in_set_nth.
  - apply in_ins_sorted.
Qed.

End Proofs.

Arguments keq_congr {K keq}.
Arguments keq_congr_r {K keq}.
Arguments sget_congr {K V keq}.
Arguments get_cons {K V keq klt}.
Arguments get_spec {K V keq klt}.
Arguments get_own {K V keq klt}.
Arguments get_congr {K V keq klt}.
Arguments uniq_set {K V keq klt}.
Arguments get_set {K V keq klt}.
Arguments in_set {K V keq klt}.
