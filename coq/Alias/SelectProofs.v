(* Alias selection (Select.v): the lemmas behind Props/C09.v. *)
From Coq Require Import List NArith Bool Arith Lia Permutation Sorted.
Import ListNotations.
From DDP Require Import Gen.Tokens Gen.AliasArgs Alias.OMapProofs Alias.Trie Alias.TrieProofs Alias.TokKey Alias.Select.
From DDP Require Det.SortingProofs.
Local Open Scope nat_scope.

Definition less_prop (a b : alias) : Prop :=
  alias_len b < alias_len a \/
  (alias_len a = alias_len b /\
   (gen_count a < gen_count b \/ (gen_count a = gen_count b /\ ref_count b < ref_count a))).

Lemma alias_less_iff a b : alias_less a b = true <-> less_prop a b.
Proof.
  unfold alias_less, less_prop.
  destruct (Nat.eqb_spec (alias_len a) (alias_len b)) as [El|El]; cbn [negb].
  - destruct (Nat.eqb_spec (gen_count a) (gen_count b)) as [Eg|Eg]; cbn [negb]; rewrite Nat.ltb_lt; lia.
  - rewrite Nat.ltb_lt; lia.
Qed.

Lemma alias_less_false_iff a b : alias_less a b = false <-> ~ less_prop a b.
Proof. rewrite <- alias_less_iff. symmetry. apply not_true_iff_false. Qed.

Lemma alias_less_irrefl a : alias_less a a = false.
Proof. apply alias_less_false_iff. unfold less_prop. lia. Qed.

Lemma alias_less_trans a b c : alias_less a b = true -> alias_less b c = true -> alias_less a c = true.
Proof. rewrite !alias_less_iff. unfold less_prop. lia. Qed.

Lemma alias_less_asym a b : alias_less a b = true -> alias_less b a = false.
Proof. rewrite alias_less_iff, alias_less_false_iff. unfold less_prop. lia. Qed.

(* negative transitivity: "not before" is transitive (what makes incomparability an equivalence) *)
Lemma alias_less_negtrans a b c : alias_less a b = false -> alias_less b c = false -> alias_less a c = false.
Proof. rewrite !alias_less_false_iff. unfold less_prop. lia. Qed.

Definition incomparable (a b : alias) : Prop := alias_less a b = false /\ alias_less b a = false.

(* what "no candidate sorts strictly before a" says in the words of the property *)
Lemma not_less_explicit c a :
  alias_less c a = false ->
  alias_len c <= alias_len a /\
  (alias_len c = alias_len a -> gen_count a <= gen_count c /\ (gen_count c = gen_count a -> ref_count c <= ref_count a)).
Proof. rewrite alias_less_false_iff. unfold less_prop. lia. Qed.

Definition not_after (x y : alias) : Prop := alias_less y x = false.   (* y does not sort strictly before x *)
Definition sorted (l : list alias) : Prop := StronglySorted not_after l.
(* what sort.Slice guarantees for a strict weak order, whatever its algorithm *)
Definition sorted_perm (cands l : list alias) : Prop := Permutation cands l /\ sorted l.

(* ins_alias is the insertion step of Go's insertion sort (Det/Sorting.v), the comparator read from right to left *)
Lemma ins_alias_ins a l : ins_alias a l = Sorting.ins (fun x y => alias_less y x) a l.
Proof. induction l as [|b r IH]; cbn; [reflexivity|]. rewrite IH. reflexivity. Qed.

Lemma ins_alias_perm a l : Permutation (a :: l) (ins_alias a l).
Proof. rewrite ins_alias_ins. apply SortingProofs.ins_perm. Qed.

Lemma isort_perm l : Permutation l (isort l).
Proof.
  induction l as [|a r IH]; cbn; [constructor|].
  rewrite <- ins_alias_perm. constructor. exact IH.
Qed.

Lemma ins_alias_sorted a l : sorted l -> sorted (ins_alias a l).
Proof.
  rewrite ins_alias_ins. apply (SortingProofs.ins_rsorted alias (fun x y => alias_less y x)).
  - intros x y H. apply alias_less_asym, H.
  - intros x y z H1 H2. exact (alias_less_negtrans z y x H2 H1).
Qed.

Lemma isort_sorted l : sorted (isort l).
Proof. induction l as [|a r IH]; cbn; [constructor|apply ins_alias_sorted; exact IH]. Qed.

Theorem isort_sorted_perm l : sorted_perm l (isort l).
Proof. split; [apply isort_perm|apply isort_sorted]. Qed.

Lemma sorted_app_tail l1 a l2 : sorted (l1 ++ a :: l2) -> Forall (not_after a) l2.
Proof.
  unfold sorted. induction l1 as [|x l1 IH]; cbn; intros H; inversion H; subst; [assumption|auto].
Qed.

Section Site.
Variable s : list tok.
Variable argty : bool -> nat -> option ty.
Variable text_index : nat -> bool.
Variable inst_ok : alias -> genv -> bool.
Variable ty_buchstabe : ty.

Notation check_alias := (check_alias s argty text_index inst_ok ty_buchstabe).
Notation check_ok := (check_ok s argty text_index inst_ok ty_buchstabe).
Notation first_ok := (first_ok s argty text_index inst_ok ty_buchstabe).
Notation select_from := (select_from s argty text_index inst_ok ty_buchstabe).
Notation check_go := (check_go s argty text_index ty_buchstabe).

Lemma check_ok_iff a start : check_ok a start = true <-> exists x, check_alias a start = Some x.
Proof. unfold Select.check_ok. destruct (check_alias a start); split; intros H; eauto; try discriminate H. destruct H as [x H]; discriminate H. Qed.

Lemma first_ok_split l start a x :
  first_ok l start = Some (a, x) ->
  exists l1 l2, l = l1 ++ a :: l2 /\ check_alias a start = Some x /\ Forall (fun b => check_alias b start = None) l1.
Proof.
  induction l as [|b r IH]; cbn; intros H; [discriminate H|].
  destruct (check_alias b start) as [y|] eqn:E.
  - inversion H; subst. exists [], r. auto.
  - destruct (IH H) as (l1 & l2 & -> & Hc & Hf). exists (b :: l1), l2. auto.
Qed.

Lemma first_ok_none l start : first_ok l start = None <-> Forall (fun b => check_alias b start = None) l.
Proof.
  induction l as [|b r IH]; cbn.
  - split; auto.
  - destruct (check_alias b start) eqn:E.
    + split; intros H; [discriminate H|]. inversion H; subst. congruence.
    + rewrite IH. split; intros H; [constructor; assumption|inversion H; assumption].
Qed.

(* for every permutation a correct sort may return *)
Theorem select_maximal cands l start a b e :
  sorted_perm cands l ->
  select_from l start = Selected a b e ->
  In a cands /\ check_alias a start = Some (b, e) /\
  forall c, In c cands -> check_ok c start = true -> alias_less c a = false.
Proof.
  intros [Hp Hs] Hsel. unfold Select.select_from in Hsel.
  destruct l as [|f r]; [discriminate Hsel|].
  destruct (first_ok (f :: r) start) as [[a0 [b0 e0]]|] eqn:Ef.
  2:{ destruct (a_generic f); discriminate Hsel. }
  inversion Hsel; subst a0 b0 e0.
  destruct (first_ok_split _ _ _ _ Ef) as (l1 & l2 & El & Hc & Hf).
  split; [|split; [exact Hc|]].
  - apply (Permutation_in _ (Permutation_sym Hp)). rewrite El. apply in_or_app. right. left. reflexivity.
  - intros c Hin Hok. apply (Permutation_in _ Hp) in Hin. rewrite El in Hin.
    apply in_app_or in Hin. destruct Hin as [Hin|[<-|Hin]].
    + rewrite Forall_forall in Hf. apply Hf in Hin. apply check_ok_iff in Hok. destruct Hok as [x Hx]. congruence.
    + apply alias_less_irrefl.
    + rewrite El in Hs. apply sorted_app_tail in Hs. rewrite Forall_forall in Hs. apply Hs. exact Hin.
Qed.

Theorem select_complete cands l start :
  sorted_perm cands l ->
  (exists c, In c cands /\ check_ok c start = true) ->
  exists a b e, select_from l start = Selected a b e.
Proof.
  intros [Hp Hs] (c & Hin & Hok). unfold Select.select_from.
  destruct l as [|f r].
  - apply (Permutation_in _ Hp) in Hin. destruct Hin.
  - destruct (first_ok (f :: r) start) as [[a [b e]]|] eqn:Ef; [eauto|].
    apply first_ok_none in Ef. rewrite Forall_forall in Ef.
    apply (Permutation_in _ Hp) in Hin. apply Ef in Hin.
    apply check_ok_iff in Hok. destruct Hok as [x Hx]. congruence.
Qed.

(* ... otherwise the first of the sorted candidates, a maximal one, is "called" without type
   checks so that the typechecker reports (unless it is generic: error, no call) *)
Theorem select_fallback cands l start :
  sorted_perm cands l -> cands <> [] ->
  (forall c, In c cands -> check_ok c start = false) ->
  exists f, In f cands /\ (forall c, In c cands -> alias_less c f = false) /\
            select_from l start =
            (if a_generic f then GenericError f else Fallback f (bind_go s f (a_toks f) start [])).
Proof.
  intros [Hp Hs] Hne Hall. unfold Select.select_from.
  destruct l as [|f r].
  - apply Permutation_sym, Permutation_nil in Hp. contradiction.
  - exists f. split; [apply (Permutation_in _ (Permutation_sym Hp)); left; reflexivity|]. split.
    + intros c Hin. apply (Permutation_in _ Hp) in Hin. destruct Hin as [<-|Hin]; [apply alias_less_irrefl|].
      inversion Hs as [|f0 r0 Hr Hf]; subst. rewrite Forall_forall in Hf. apply Hf. exact Hin.
    + destruct (first_ok (f :: r) start) as [[a [b e]]|] eqn:Ef; [|reflexivity].
      destruct (first_ok_split _ _ _ _ Ef) as (l1 & l2 & El & Hc & _).
      assert (Hin : In a cands).
      { apply (Permutation_in _ (Permutation_sym Hp)). rewrite El. apply in_or_app. right. left. reflexivity. }
      apply Hall in Hin. unfold Select.check_ok in Hin. rewrite Hc in Hin. discriminate Hin.
Qed.

Lemma select_none l start : select_from l start = NoAlias <-> l = [].
Proof.
  unfold Select.select_from. destruct l as [|f r]; [split; reflexivity|].
  split; [|intros H; discriminate H].
  destruct (first_ok (f :: r) start) as [[a [b e]]|]; [intros H; discriminate H|].
  destruct (a_generic f); intros H; discriminate H.
Qed.

(* the cursor at which the LAST placeholder called `name` of the remaining alias tokens is reached *)
Fixpoint place (toks : list tok) (c : nat) (name : list N) : option nat :=
  match toks with
  | [] => None
  | t :: r =>
    if N.eqb (tt t) tt_EOF then None
    else if is_placeholder t then
      match place r (unit_extent s c) name with
      | Some x => Some x
      | None => if lit_eqb (lit t) name then Some c else None
      end
    else place r (advance s c) name
  end.

Lemma bind_get_set b n sp m :
  bind_get (bind_set b n sp) m = if lit_eqb n m then Some sp else bind_get b m.
Proof.
  induction b as [|[n0 s0] r IH]; cbn.
  - destruct (lit_eqb n m); reflexivity.
  - destruct (lit_eqb n0 n) eqn:E0; cbn.
    + apply lit_eqb_eq in E0. subst n0. destruct (lit_eqb n m); reflexivity.
    + rewrite IH. destruct (lit_eqb n0 m) eqn:E1; [|reflexivity].
      apply lit_eqb_eq in E1. subst n0. rewrite lit_eqb_sym in E0. rewrite E0. reflexivity.
Qed.

Definition param_ref (a : alias) (name : list N) : bool :=
  match find_param (a_params a) name with Some p => p_ref p | None => false end.

(* the argument map of the untyped fallback call is keyed by placeholder name *)
Lemma bind_go_binds a toks : forall c b name,
  bind_get (bind_go s a toks c b) name =
  match place toks c name with
  | Some cn => Some (param_ref a name, cn, unit_extent s cn)
  | None => bind_get b name
  end.
Proof.
  induction toks as [|t r IH]; intros c b name; cbn [bind_go place]; [reflexivity|].
  destruct (N.eqb (tt t) tt_EOF); [reflexivity|].
  destruct (is_placeholder t); [|apply IH].
  rewrite IH. destruct (place r (unit_extent s c) name); [reflexivity|].
  rewrite bind_get_set. destruct (lit_eqb (lit t) name) eqn:En; [|reflexivity].
  apply lit_eqb_eq in En. subst name. reflexivity.
Qed.

Lemma check_go_bind a toks : forall c e b b' e',
  check_go a toks c e b = Some (b', e') -> b' = bind_go s a toks c b.
Proof.
  induction toks as [|t r IH]; intros c e b b' e' H; cbn [Select.check_go bind_go] in H |- *.
  - inversion H; reflexivity.
  - destruct (N.eqb (tt t) tt_EOF); [inversion H; reflexivity|].
    destruct (is_placeholder t); [|exact (IH _ _ _ _ _ H)].
    destruct (find_param (a_params a) (lit t)) as [p|]; [|discriminate H].
    destruct (p_ref p && negb (is_ref_start (peek_tt s c))); [discriminate H|].
    destruct (argty (p_ref p) c) as [typ|]; [|discriminate H].
    destruct (unify typ (p_ty p) e) as [[pt|] e1]; [|discriminate H].
    destruct (negb (ty_eqb typ pt)); [discriminate H|].
    destruct (p_ref p && ty_eqb pt ty_buchstabe && text_index c); [discriminate H|].
    exact (IH _ _ _ _ _ H).
Qed.

Theorem bind_by_name a start b e name :
  check_alias a start = Some (b, e) ->
  bind_get b name =
  match place (a_toks a) start name with
  | Some cn => Some (param_ref a name, cn, unit_extent s cn)
  | None => None
  end.
Proof.
  unfold Select.check_alias. intros H.
  destruct (check_go a (a_toks a) start [] []) as [[b0 e0]|] eqn:E; [|discriminate H].
  assert (b0 = b) as ->.
  { destruct (a_generic a); [destruct (inst_ok a e0)|]; congruence. }
  rewrite (check_go_bind _ _ _ _ _ _ _ E), bind_go_binds. reflexivity.
Qed.

End Site.

(* parameters are found by name: the order in which they were declared is irrelevant *)
Lemma find_param_in ps name p : find_param ps name = Some p -> In p ps /\ p_name p = name.
Proof.
  induction ps as [|q r IH]; cbn; intros H; [discriminate H|].
  destruct (lit_eqb (p_name q) name) eqn:E.
  - inversion H; subst. apply lit_eqb_eq in E. auto.
  - destruct (IH H). auto.
Qed.

Lemma find_param_unique ps name p :
  NoDup (map p_name ps) -> In p ps -> p_name p = name -> find_param ps name = Some p.
Proof.
  induction ps as [|q r IH]; cbn; intros Hnd Hin Hn; [destruct Hin|].
  inversion Hnd as [|x l Hnotin Hnd']; subst.
  destruct Hin as [->|Hin].
  - rewrite (proj2 (lit_eqb_eq _ _) eq_refl). reflexivity.
  - destruct (lit_eqb (p_name q) (p_name p)) eqn:E; [|apply IH; auto].
    apply lit_eqb_eq in E. exfalso. apply Hnotin. rewrite E. apply in_map. exact Hin.
Qed.

Theorem find_param_perm ps ps' name :
  Permutation ps ps' -> NoDup (map p_name ps) -> find_param ps name = find_param ps' name.
Proof.
  intros Hp Hnd.
  assert (Hnd' : NoDup (map p_name ps')) by (eapply Permutation_NoDup; [apply Permutation_map; exact Hp|exact Hnd]).
  destruct (find_param ps name) as [p|] eqn:E.
  - destruct (find_param_in _ _ _ E) as [Hin Hn]. symmetry. apply find_param_unique; auto.
    eapply Permutation_in; eauto.
  - destruct (find_param ps' name) as [p'|] eqn:E'; [|reflexivity].
    destruct (find_param_in _ _ _ E') as [Hin Hn].
    rewrite (find_param_unique ps name p') in E; [discriminate E|exact Hnd| |exact Hn].
    eapply Permutation_in; [apply Permutation_sym; exact Hp|exact Hin].
Qed.

Section SiteOrder.
Variable s : list tok.

(* the matcher and the checker walk the stream alike *)
Lemma arg_lists_agree : arg_single_match = arg_single_check /\ arg_neg_match = arg_neg_check.
Proof. split; reflexivity. Qed.

Lemma unit_end_extent c e : unit_end s c = UnitOk e -> unit_extent s c = e.
Proof.
  unfold unit_end, unit_extent, is_single_c, is_neg_operand_c.
  rewrite <- (proj1 arg_lists_agree), <- (proj2 arg_lists_agree).
  fold (is_single (peek_tt s c)). fold (is_neg_operand (peek_tt s (S c))).
  destruct (is_single (peek_tt s c)); [intros H; inversion H; reflexivity|].
  destruct (N.eqb (peek_tt s c) tt_NEGATE).
  - destruct (is_neg_operand (peek_tt s (S c))); intros H; inversion H; reflexivity.
  - destruct (N.eqb (peek_tt s c) tt_LPAREN); [|intros H; discriminate H].
    destruct (at_end s (scan_group (skipn (S c) s) 1 (S c))); intros H; inversion H; reflexivity.
Qed.
End SiteOrder.

Notation twf := (wf tok alias tok_eq).

Section Candidates.
Variable s : list tok.

Definition cur_step (c : nat) (ck : tok) : option nat := keygen s ck c.

Lemma search_cur_gsearch t : forall c, search_cur s t c = gsearch tok_eq tok_less cur_step t c.
Proof.
  induction t as [v ch IH] using (trie_ind' tok alias). intros c.
  change (search_cur s (Node v ch) c) with (children_loop tok_eq tok_less (search_cur s) cur_step ch c ch).
  apply children_loop_ext. intros k x Hin c'. apply (IH k x Hin).
Qed.

Lemma gmatch_cur pat : forall c, gmatch cur_step pat c = match_pat s pat c.
Proof.
  induction pat as [|k r IH]; intros c; cbn [gmatch match_pat]; [reflexivity|].
  unfold cur_step at 1. destruct (keygen s k c); [apply IH|reflexivity].
Qed.

(* the key generator looks at a child key only through what tok_eq compares *)
Lemma keygen_congr a b c : tok_eq a b = true -> keygen s a c = keygen s b c.
Proof.
  intros E. unfold keygen, is_placeholder, literal_step.
  rewrite (tok_eq_tt _ _ E), (keq_congr_r tok_eq_sym tok_eq_trans _ _ (peek s c) E). reflexivity.
Qed.

(* Trie.Search under the parser's key generator never dereferences nil on a well-formed
   trie and returns exactly the aliases that aliasExists can find (the declared ones) under a
   non-empty token sequence matching here *)
Theorem candidates_spec t c a : twf t ->
  (In a (candidates s t c) <->
   exists ks, ks <> [] /\ lookup tok_eq tok_less t ks = Some a /\ matches s ks c = true).
Proof.
  intros Hw.
  destruct (gsearch_spec tok alias tok_eq tok_less tok_eq_refl tok_eq_sym tok_eq_trans cur_step
              (fun c a b E => keygen_congr a b c E) t c Hw) as (r & Hr & Hin).
  unfold candidates. rewrite search_cur_gsearch, Hr, Hin. unfold matches.
  split; intros (ks & Hne & H1 & H2); exists ks; rewrite gmatch_cur in *.
  - destruct (match_pat s ks c); [auto|contradiction].
  - destruct (match_pat s ks c); [split; [exact Hne|split; [discriminate|exact H1]]|discriminate H2].
Qed.
End Candidates.

(* the parser's declaration protocol is a history of C20's Declare operations, whatever the key generator *)
Notation declared l := (map (fun a => Declare (a_toks a) a) l).
Notation history_state := (state_after tok alias tok_eq tok_less is_placeholder is_placeholder).

Lemma declare_all_state l : declare_all l = history_state (declared l).
Proof.
  unfold declare_all, state_after. generalize (@empty tok alias).
  induction l as [|a r IH]; intros t; cbn [map fold_left]; [reflexivity|]. rewrite <- IH. f_equal.
  unfold declare, tstep; cbn [tstep_rec]. destruct (lookup tok_eq tok_less t (a_toks a)); reflexivity.
Qed.

Lemma declared_no_put (l : list alias) : forallb (fun o => negb (is_put o)) (declared l) = true.
Proof. induction l; [reflexivity|assumption]. Qed.

(* every trie the parser can build (any sequence of declarations) is well-formed *)
Lemma declare_all_wf l : twf (declare_all l).
Proof. rewrite declare_all_state. apply (TR_after tok alias tok_eq tok_less _ _ tok_eq_sym tok_eq_trans). Qed.

(* a successfully declared alias stays a candidate wherever its own pattern matches: C20's "stays callable" *)
Theorem declared_is_candidate s l1 a l2 c :
  a_toks a <> [] ->
  lookup tok_eq tok_less (declare_all l1) (a_toks a) = None ->     (* the declaration of a is accepted *)
  matches s (a_toks a) c = true ->
  In a (candidates s (declare_all (l1 ++ a :: l2)) c).
Proof.
  intros Hne Hfree Hm.
  apply candidates_spec; [apply declare_all_wf|].
  exists (a_toks a). split; [exact Hne|]. split; [|exact Hm].
  rewrite declare_all_state, map_app. cbn [map].
  apply (stays_callable tok alias tok_eq tok_less _ _ tok_eq_sym tok_eq_trans).
  - apply declared_no_put.
  - rewrite <- declare_all_state. exact Hfree.
  - apply (eql_refl tok tok_eq tok_eq_refl).
Qed.

Lemma generic_counted a : a_generic a = true <-> 0 < gen_count a.
Proof. unfold a_generic. apply Nat.ltb_lt. Qed.

Lemma maximal_in_property_terms c a :
  alias_less c a = false ->
  alias_len c <= alias_len a /\
  (alias_len c = alias_len a ->
     (a_generic a = true -> a_generic c = true) /\                          (* non-generic before generic *)
     (a_generic a = false -> a_generic c = false -> ref_count c <= ref_count a)).   (* then more Referenz *)
Proof.
  intros Hl. destruct (not_less_explicit _ _ Hl) as [H1 H2]. split; [exact H1|].
  intros El. destruct (H2 El) as [Hg Hr]. split.
  - intros Ga. apply generic_counted. apply generic_counted in Ga. lia.
  - intros Ga Gc. apply Hr.
    assert (~ 0 < gen_count a) by (intros X; apply generic_counted in X; congruence).
    assert (~ 0 < gen_count c) by (intros X; apply generic_counted in X; congruence). lia.
Qed.

(* the defect repaired by /repo 3e80d99, on an instance: "foo <a>" declared for a Zahlen Liste and,
   generically, for a T Liste. Counting only parameters whose type IS a type parameter (gen_count_direct,
   the count of the pinned tree) gives both the same count; counting nested type parameters (gen_count)
   sorts the non-generic one first, and it is selected whatever the declaration order. *)
Definition w_foo : tok := {| tt := tt_IDENTIFIER; lit := [102; 111; 111]%N; ainfo := None |}.
Definition w_var : tok := {| tt := tt_IDENTIFIER; lit := [118; 122; 108]%N; ainfo := None |}.
Definition w_ph (rank id : N) : tok :=
  {| tt := tt_ALIAS_PARAMETER; lit := [97%N]; ainfo := Some {| t_ref := false; t_list := true; t_name := rank; t_id := id |} |}.
Definition w_zl : ty := TList (TBase 1).
Definition w_conc : alias := mkAlias 1 1 [w_foo; w_ph 2 2] [mkParam [97%N] w_zl false] false.
Definition w_gen : alias := mkAlias 2 2 [w_foo; w_ph 1 1] [mkParam [97%N] (TList (TGen 1)) false] false.
Definition w_stream : list tok := [w_foo; w_var].
Definition w_argty (isref : bool) (c : nat) : option ty := if Nat.eqb c 1 then Some w_zl else None.
Definition w_select (order : list alias) : outcome :=
  select w_stream w_argty (fun _ => false) (fun _ _ => true) (TBase 5) (declare_all order) 0.

Section Neg.
Variable callv : N -> list binding -> bool.     (* what the called function returns *)
Fixpoint eval (e : cexpr) : bool :=
  match e with
  | ECall f b => callv f b
  | ENot e' => negb (eval e')
  end.

Theorem negated_is_not a b :
  eval (call_of a b) = if a_neg a then negb (callv (a_fn a) b) else callv (a_fn a) b.
Proof. unfold call_of. destruct (a_neg a); reflexivity. Qed.

(* the two aliases a marker produces call the same function: the negated one yields the negation *)
Corollary negated_pair a n b :
  a_fn a = a_fn n -> a_neg a = false -> a_neg n = true ->
  eval (call_of n b) = negb (eval (call_of a b)).
Proof. intros Ef Ha Hn. rewrite !negated_is_not, Ha, Hn, Ef. reflexivity. Qed.
End Neg.

(* the marker "<!x>" in an alias literal declares "..x.." (Negated) and ".." (plain), in this order *)
Definition no_marker_in (pre : list N) : Prop :=
  forall i, nth_error pre i = Some c_lt -> nth_error pre (S i) <> Some c_bang.

Lemma index_of2_step a b r i :
  index_of2 c_lt c_bang (a :: b :: r) i =
  if N.eqb a c_lt && N.eqb b c_bang then Some i else index_of2 c_lt c_bang (b :: r) (S i).
Proof. reflexivity. Qed.

Lemma index_of2_marker pre rest : no_marker_in pre -> forall i,
  index_of2 c_lt c_bang (pre ++ c_lt :: c_bang :: rest) i = Some (i + length pre).
Proof.
  induction pre as [|p pre IH]; intros Hn i.
  - cbn [app length]. rewrite index_of2_step, !N.eqb_refl. cbn. f_equal. lia.
  - assert (Hn' : no_marker_in pre) by (intros j Hj; apply (Hn (S j)); exact Hj).
    specialize (IH Hn' (S i)).
    destruct pre as [|q pre'].
    + cbn [app length] in *. rewrite index_of2_step.
      replace (N.eqb p c_lt && N.eqb c_lt c_bang) with false by (rewrite andb_comm; reflexivity).
      rewrite IH. f_equal. lia.
    + cbn [app length] in *. rewrite index_of2_step.
      destruct (N.eqb p c_lt && N.eqb q c_bang) eqn:E.
      * apply andb_true_iff in E. destruct E as [E1 E2]. apply N.eqb_eq in E1, E2. subst.
        exfalso. apply (Hn 0); reflexivity.
      * rewrite IH. f_equal. lia.
Qed.

Lemma index_of1_first x post : ~ In c_gt x -> forall i, index_of1 c_gt (x ++ c_gt :: post) i = Some (i + length x).
Proof.
  induction x as [|a x IH]; intros Hn i; cbn.
  - f_equal. lia.
  - destruct (N.eqb_spec a c_gt) as [->|Hne]; [exfalso; apply Hn; left; reflexivity|].
    rewrite IH by (intros H; apply Hn; right; exact H). f_equal. lia.
Qed.

Theorem expand_marker_forms pre x post :
  no_marker_in pre -> ~ In c_gt x ->
  expand_marker (pre ++ c_lt :: c_bang :: x ++ c_gt :: post) =
  Some [(pre ++ x ++ post, true); (pre ++ post, false)].
Proof.
  intros Hp Hx. unfold expand_marker.
  rewrite (index_of2_marker pre (x ++ c_gt :: post) Hp 0). cbn [Nat.add].
  set (lit := pre ++ c_lt :: c_bang :: x ++ c_gt :: post).
  assert (Hskip : skipn (length pre + 2) lit = x ++ c_gt :: post).
  { unfold lit. rewrite skipn_app. rewrite (skipn_all2 pre) by lia.
    replace (length pre + 2 - length pre) with 2 by lia. reflexivity. }
  rewrite Hskip, (index_of1_first x post Hx 0). cbn [Nat.add].
  assert (Hfirst : firstn (length pre) lit = pre).
  { unfold lit. rewrite firstn_app, Nat.sub_diag, firstn_all. cbn. apply app_nil_r. }
  assert (Hslice : slice lit (length pre + 2) (length pre + 2 + length x + 1 - 1) = x).
  { unfold slice. rewrite Hskip.
    replace (length pre + 2 + length x + 1 - 1 - (length pre + 2)) with (length x) by lia.
    rewrite firstn_app, Nat.sub_diag, firstn_all. cbn. apply app_nil_r. }
  assert (Hrest : skipn (length pre + 2 + length x + 1) lit = post).
  { assert (El : lit = (pre ++ [c_lt; c_bang] ++ x ++ [c_gt]) ++ post).
    { unfold lit. repeat (rewrite <- app_assoc; cbn [app]). reflexivity. }
    assert (Len : length (pre ++ [c_lt; c_bang] ++ x ++ [c_gt]) = length pre + 2 + length x + 1).
    { rewrite !app_length. cbn. lia. }
    rewrite El, <- Len, skipn_app, skipn_all, Nat.sub_diag. reflexivity. }
  rewrite Hfirst, Hslice, Hrest. reflexivity.
Qed.

Lemma expand_marker_plain lit : index_of2 c_lt c_bang lit 0 = None -> expand_marker lit = Some [(lit, false)].
Proof. intros H. unfold expand_marker. rewrite H. reflexivity. Qed.
