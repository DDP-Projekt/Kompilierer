(* The alias trie refines an association list keyed by token sequences (compared pointwise by
   keq): duplicates are rejected, declared aliases stay callable. Only hypothesis: keq is an
   equivalence. *)
From Coq Require Import List Bool.
Import ListNotations.
From DDP Require Import Alias.OMap Alias.OMapProofs Alias.Trie.

Section Proofs.
Variables K V : Type.
Variable keq klt : K -> K -> bool.
Variable isph isarg : K -> bool.
Hypothesis keq_refl : forall a, keq a a = true.
Hypothesis keq_sym : forall a b, keq a b = keq b a.
Hypothesis keq_trans : forall a b c, keq a b = true -> keq b c = true -> keq a c = true.

Notation trie := (trie K V).
Notation uniq := (uniq K (Trie.trie K V) keq).

Inductive wf : trie -> Prop :=
| wf_node v ch : uniq ch -> (forall k c, In (k, c) ch -> wf c) -> wf (Node v ch).

Lemma wf_empty : wf empty.
Proof. constructor; [exact I|intros ? ? []]. Qed.

Lemma lookup_nil (v : option V) (ch : list (K * trie)) : lookup keq klt (Node v ch) [] = v.
Proof. unfold lookup; cbn. destruct v; reflexivity. Qed.

Lemma lookup_cons (v : option V) (ch : list (K * trie)) k ks :
  lookup keq klt (Node v ch) (k :: ks) =
  match get keq klt ch k with Some c => lookup keq klt c ks | None => None end.
Proof. unfold lookup; cbn. destruct (get keq klt ch k); reflexivity. Qed.

Lemma lookup_empty ks : lookup keq klt (@empty K V) ks = None.
Proof. destruct ks; reflexivity. Qed.

Lemma eql_refl a : eql keq a a = true.
Proof. induction a; cbn; [reflexivity|]. rewrite keq_refl; assumption. Qed.
Lemma eql_sym a b : eql keq a b = eql keq b a.
Proof. revert b; induction a as [|x a IH]; intros [|y b]; cbn; try reflexivity. rewrite keq_sym, IH; reflexivity. Qed.
Lemma eql_trans a b c : eql keq a b = true -> eql keq b c = true -> eql keq a c = true.
Proof.
  revert b c; induction a as [|x a IH]; intros [|y b] [|z c]; cbn; try congruence.
  intros H1 H2. apply andb_true_iff in H1. apply andb_true_iff in H2. destruct H1, H2.
  apply andb_true_iff; split; [eapply keq_trans; eauto|eapply IH; eauto].
Qed.
Lemma eql_false_trans a b c : eql keq a b = true -> eql keq a c = false -> eql keq b c = false.
Proof.
  intros H1 H2. destruct (eql keq b c) eqn:E; [|reflexivity].
  rewrite (eql_trans a b c H1 E) in H2. congruence.
Qed.
Lemma eql_nil_l ks : eql keq [] ks = true -> ks = [].
Proof. destruct ks; [reflexivity|discriminate]. Qed.

Lemma wf_child (v : option V) (ch : list (K * trie)) k c : wf (Node v ch) -> get keq klt ch k = Some c -> wf c.
Proof.
  intros Hw Hg. inversion Hw as [v0 ch0 Hu Hc]; subst.
  apply (get_spec keq_sym keq_trans _ _ _ Hu) in Hg. destruct Hg as (k0 & Hin & _). eauto.
Qed.

Definition subtrie (ch : list (K * trie)) (k : K) : trie :=
  match get keq klt ch k with Some c => c | None => empty end.

Lemma insert_cons k ks (v : V) val ch :
  insert keq klt (k :: ks) v (Node val ch) = Node val (set keq klt ch k (insert keq klt ks v (subtrie ch k))).
Proof. unfold subtrie. cbn [insert]. destruct (get keq klt ch k); reflexivity. Qed.

Lemma wf_subtrie (v : option V) ch k : wf (Node v ch) -> wf (subtrie ch k).
Proof.
  intros Hw. unfold subtrie. destruct (get keq klt ch k) eqn:E; [eapply wf_child; eauto|apply wf_empty].
Qed.

Lemma lookup_subtrie ch k ks :
  lookup keq klt (subtrie ch k) ks = match get keq klt ch k with Some c => lookup keq klt c ks | None => None end.
Proof. unfold subtrie. destruct (get keq klt ch k); [reflexivity|apply lookup_empty]. Qed.

Lemma wf_insert ks (v : V) (t : trie) : wf t -> wf (insert keq klt ks v t).
Proof.
  revert t. induction ks as [|k ks IH]; intros [val ch] Hw.
  - inversion Hw; subst. constructor; assumption.
  - rewrite insert_cons. inversion Hw as [v0 ch0 Hu Hc]; subst. constructor.
    + apply (uniq_set keq_sym keq_trans), Hu.
    + intros k0 c Hin. apply in_set in Hin.
      destruct Hin as [->|Hin]; [apply IH; eapply wf_subtrie; exact Hw|eauto].
Qed.

(* the law that makes the trie a map from token sequences *)
Lemma lookup_insert ks (v : V) (t : trie) ks' :
  wf t ->
  lookup keq klt (insert keq klt ks v t) ks' = if eql keq ks ks' then Some v else lookup keq klt t ks'.
Proof.
  revert t ks'. induction ks as [|k ks IH]; intros [val ch] [|k' ks'] Hw.
  - cbn [insert]. rewrite lookup_nil. reflexivity.
  - cbn [insert]. rewrite !lookup_cons. reflexivity.
  - rewrite insert_cons, !lookup_nil. reflexivity.
  - rewrite insert_cons, !lookup_cons. inversion Hw as [v0 ch0 Hu Hc]; subst.
    rewrite (get_set keq_sym keq_trans) by exact Hu. cbn [eql].
    destruct (keq k k') eqn:E; [|reflexivity]. cbn [andb].
    rewrite IH by (eapply wf_subtrie; exact Hw).
    rewrite lookup_subtrie, (get_congr keq_sym keq_trans ch k k' Hu E). reflexivity.
Qed.


Lemma trie_ind' (P : trie -> Prop) :
  (forall v ch, (forall k c, In (k, c) ch -> P c) -> P (Node v ch)) -> forall t, P t.
Proof.
  intros H. fix IH 1. intros [v ch]. apply H.
  revert ch. fix IHl 1. intros [|[k0 c0] r] k c Hin.
  - destruct Hin.
  - destruct Hin as [E|Hin].
    + replace c with c0 by congruence. apply IH.
    + eapply IHl. exact Hin.
Qed.

(* the loop of copyNode: Set every (key, copy of child) into the new map, in iteration order *)
Fixpoint copy_children (l acc : list (K * trie)) : list (K * trie) :=
  match l with
  | [] => acc
  | (k, c) :: r => copy_children r (set keq klt acc k (copy keq klt c))
  end.

Lemma copy_node v ch : copy keq klt (Node v ch) = Node v (copy_children ch []).
Proof.
reflexivity. Qed.

Lemma uniq_copy_children l acc : uniq acc -> uniq (copy_children l acc).
Proof.
  revert acc. induction l as [|[k c] r IH]; intros acc Hu; cbn [copy_children]; [exact Hu|].
  apply IH. eapply uniq_set; eauto.
Qed.

Lemma in_copy_children l acc k0 c0 :
  In (k0, c0) (copy_children l acc) -> In (k0, c0) acc \/ exists k c, In (k, c) l /\ c0 = copy keq klt c.
Proof.
  revert acc. induction l as [|[k c] r IH]; intros acc Hin; cbn [copy_children] in Hin; [left; exact Hin|].
  apply IH in Hin. destruct Hin as [Hin|(k1 & c1 & Hin & ->)].
  - apply in_set in Hin. destruct Hin as [->|Hin]; [right; exists k, c; split; [left; reflexivity|reflexivity]|left; exact Hin].
  - right. exists k1, c1. split; [right; exact Hin|reflexivity].
Qed.

Lemma get_copy_children l acc key :
  uniq l -> uniq acc ->
  get keq klt (copy_children l acc) key =
  match get keq klt l key with Some c => Some (copy keq klt c) | None => get keq klt acc key end.
Proof.
  revert acc. induction l as [|[k c] r IH]; intros acc Hl Hu; cbn [copy_children]; [reflexivity|].
  rewrite IH by (apply Hl || apply (uniq_set keq_sym keq_trans), Hu).
  rewrite (get_set keq_sym keq_trans) by exact Hu. rewrite (get_cons keq_sym keq_trans) by exact Hl.
  destruct (keq k key) eqn:E; [|reflexivity].
  destruct (get keq klt r key) as [c'|] eqn:G; [|reflexivity].
  apply (get_spec keq_sym keq_trans) in G; [|apply Hl]. destruct G as (k0 & Hin & E0).
  pose proof (proj1 Hl k0 (in_map fst _ _ Hin)) as F.
  rewrite (keq_congr_r keq_sym keq_trans _ _ k E0), E in F. discriminate F.
Qed.

Lemma copy_correct t : wf t -> wf (copy keq klt t) /\ forall ks, lookup keq klt (copy keq klt t) ks = lookup keq klt t ks.
Proof.
  induction t as [v ch IH] using trie_ind'. intros Hw.
  inversion Hw as [v0 ch0 Hu Hc]; subst. rewrite copy_node. split.
  - constructor; [apply uniq_copy_children; exact I|].
    intros k0 c0 Hin. apply in_copy_children in Hin. destruct Hin as [[]|(k & c & Hin & ->)].
    apply (IH k c Hin). eauto.
  - intros [|k ks]; [rewrite !lookup_nil; reflexivity|].
    rewrite !lookup_cons, get_copy_children by (exact Hu || exact I).
    destruct (get keq klt ch k) as [c|] eqn:Es; [|reflexivity].
    apply (get_spec keq_sym keq_trans _ _ _ Hu) in Es. destruct Es as (k0 & Hin & _). apply (IH k0 c Hin). eauto.
Qed.

(* every (path, value) of a trie, in the order Search returns them *)
Fixpoint paths (t : trie) : list (list K * V) :=
  match t with
  | Node val ch =>
    map (pair []) (opt_list V val) ++
    flat_map (fun kc => map (fun e => (fst kc :: fst e, snd e)) (paths (snd kc))) ch
  end.

(* the paths below the root: what Search can return *)
Definition below (t : trie) : list (list K * V) :=
  flat_map (fun kc => map (fun e => (fst kc :: fst e, snd e)) (paths (snd kc))) (node_children t).

Lemma paths_node val ch : paths (Node val ch) = map (pair []) (opt_list V val) ++ below (Node val ch).
Proof. reflexivity. Qed.

Lemma in_below t ks v :
  In (ks, v) (below t) <-> exists k c ks0, In (k, c) (node_children t) /\ ks = k :: ks0 /\ In (ks0, v) (paths c).
Proof.
  unfold below. rewrite in_flat_map. split.
  - intros ([k c] & Hin & H). apply in_map_iff in H. destruct H as ([ks0 w] & E & H). inversion E; subst. eauto 6.
  - intros (k & c & ks0 & Hin & -> & H). exists (k, c). split; [exact Hin|]. apply in_map_iff. exists (ks0, v). auto.
Qed.

Lemma in_paths val ch ks v :
  In (ks, v) (paths (Node val ch)) <-> (ks = [] /\ val = Some v) \/ In (ks, v) (below (Node val ch)).
Proof.
  rewrite paths_node, in_app_iff. apply or_iff_compat_r. destruct val as [w|]; cbn.
  - split; [intros [E|[]]; inversion E; auto|intros [-> E]; inversion E; auto].
  - split; [intros []|intros [_ E]; discriminate E].
Qed.

Lemma lookup_paths ks : forall t v, wf t ->
  lookup keq klt t ks = Some v <-> exists ks', eql keq ks' ks = true /\ In (ks', v) (paths t).
Proof.
  induction ks as [|k ks IH]; intros [val ch] v Hw.
  - rewrite lookup_nil. split.
    + intros ->. exists []. split; [reflexivity|]. apply in_paths. auto.
    + intros (ks' & E & H). destruct ks'; [|discriminate E].
      apply in_paths in H. destruct H as [[_ H]|H]; [exact H|].
      apply in_below in H. destruct H as (? & ? & ? & _ & H & _). discriminate H.
  - inversion Hw as [v0 ch0 Hu Hc]; subst. rewrite lookup_cons. split.
    + destruct (get keq klt ch k) as [c|] eqn:G; [|discriminate].
      apply (get_spec keq_sym keq_trans _ _ _ Hu) in G. destruct G as (ck & Hin & Ek). intros H.
      apply (IH c v (Hc _ _ Hin)) in H. destruct H as (ks' & E & H).
      exists (ck :: ks'). split; [cbn [eql]; rewrite Ek; exact E|].
      apply in_paths. right. apply in_below. eauto 6.
    + intros (ks' & E & H). apply in_paths in H. destruct H as [[-> _]|H]; [discriminate E|].
      apply in_below in H. destruct H as (ck & c & ks0 & Hin & -> & H). cbn [node_children] in Hin.
      cbn [eql] in E. apply andb_true_iff in E. destruct E as [Ek E].
      rewrite (proj2 (get_spec keq_sym keq_trans ch k c Hu)) by eauto.
      apply (IH c v (Hc _ _ Hin)). eauto.
Qed.

(* Trie.Search for any key generator: `step c ck` = the cursor after entering the child under key ck from cursor c.
   search_seq (cursor = rest of the call) and the parser's search_cur (cursor = token index) are instances.
   children_loop walks the part l of a node's children while Get consults the whole map ch. *)
Section Loop.
Context {C : Type} (sub : trie -> C -> option (list V)) (step : C -> K -> option C).
Variables (ch : list (K * trie)) (c : C).

Fixpoint children_loop (l : list (K * trie)) : option (list V) :=
  match l with
  | [] => Some []
  | (ck, child) :: r =>
    match step c ck with
    | None => children_loop r
    | Some c' =>
      match get keq klt ch ck with
      | None => None
      | Some _ =>
        match sub child c', children_loop r with
        | Some x, Some y => Some (opt_list V (node_val child) ++ x ++ y)
        | _, _ => None
        end
      end
    end
  end.
End Loop.

Fixpoint gsearch {C : Type} (step : C -> K -> option C) (t : trie) (c : C) : option (list V) :=
  match t with Node _ ch => children_loop (gsearch step) step ch c ch end.

Lemma children_loop_ext {C : Type} (sub sub' : trie -> C -> option (list V)) step ch c l :
  (forall k x, In (k, x) l -> forall c', sub x c' = sub' x c') ->
  children_loop sub step ch c l = children_loop sub' step ch c l.
Proof.
  induction l as [|[ck child] r IH]; intros H; [reflexivity|]. cbn [children_loop].
  rewrite IH by (intros k x Hin; exact (H k x (or_intror Hin))).
  destruct (step c ck) as [c'|]; [|reflexivity]. rewrite (H ck child (or_introl eq_refl)). reflexivity.
Qed.

Fixpoint gmatch {C : Type} (step : C -> K -> option C) (ks : list K) (c : C) : option C :=
  match ks with
  | [] => Some c
  | k :: r => match step c k with Some c' => gmatch step r c' | None => None end
  end.

Definition gmatches {C : Type} (step : C -> K -> option C) (c : C) (e : list K * V) : bool :=
  match gmatch step (fst e) c with Some _ => true | None => false end.

Lemma gmatches_cons {C : Type} (step : C -> K -> option C) c k ks (v : V) :
  gmatches step c (k :: ks, v) = match step c k with Some c' => gmatches step c' (ks, v) | None => false end.
Proof. unfold gmatches. cbn [fst gmatch]. destruct (step c k); reflexivity. Qed.

Lemma filter_under {C : Type} (step : C -> K -> option C) c k (l : list (list K * V)) :
  map snd (filter (gmatches step c) (map (fun e => (k :: fst e, snd e)) l)) =
  match step c k with Some c' => map snd (filter (gmatches step c') l) | None => [] end.
Proof.
  induction l as [|[ks v] r IH]; cbn [map filter fst snd]; [destruct (step c k); reflexivity|].
  rewrite gmatches_cons. destruct (step c k) as [c'|]; [|exact IH].
  destruct (gmatches step c' (ks, v)); cbn [map]; rewrite IH; reflexivity.
Qed.

Lemma children_loop_none {C : Type} (sub : trie -> C -> option (list V)) step ch c l :
  (forall ck, step c ck = None) -> children_loop sub step ch c l = Some [].
Proof. intros H. induction l as [|[ck x] r IH]; cbn [children_loop]; [reflexivity|]. rewrite H. exact IH. Qed.

(* on a well-formed trie Search never dereferences nil and returns the values of the matching paths, in path order *)
Lemma children_loop_below {C : Type} (sub : trie -> C -> option (list V)) step ch c l :
  uniq ch -> (forall k x, In (k, x) l -> In (k, x) ch) ->
  (forall k x, In (k, x) l -> forall c', sub x c' = Some (map snd (filter (gmatches step c') (below x)))) ->
  children_loop sub step ch c l =
  Some (map snd (filter (gmatches step c) (flat_map (fun kc => map (fun e => (fst kc :: fst e, snd e)) (paths (snd kc))) l))).
Proof.
  intros Hu. induction l as [|[ck child] r IHl]; intros Hsub Hrec; [reflexivity|].
  cbn [children_loop flat_map fst snd]. rewrite filter_app, map_app, filter_under.
  rewrite IHl; [|intros k x Hin; exact (Hsub k x (or_intror Hin))|intros k x Hin; exact (Hrec k x (or_intror Hin))].
  destruct (step c ck) as [c'|]; [|reflexivity].
  rewrite (get_own keq_refl keq_sym keq_trans ch ck child Hu (Hsub _ _ (or_introl eq_refl))).
  rewrite (Hrec ck child (or_introl eq_refl) c').
  destruct child as [cv cch]. rewrite paths_node, filter_app, map_app, <- app_assoc. do 2 f_equal.
  destruct cv; reflexivity.
Qed.

Theorem gsearch_below {C : Type} (step : C -> K -> option C) t : wf t ->
  forall c, gsearch step t c = Some (map snd (filter (gmatches step c) (below t))).
Proof.
  induction 1 as [val ch Hu Hc IH]. intros c. cbn [gsearch]. apply children_loop_below; auto.
Qed.

Lemma gmatch_congr {C : Type} (step : C -> K -> option C) :
  (forall c a b, keq a b = true -> step c a = step c b) ->
  forall a b c, eql keq a b = true -> gmatch step a c = gmatch step b c.
Proof.
  intros Hs a. induction a as [|x a IH]; intros [|y b] c E; cbn in E; try discriminate E; [reflexivity|].
  apply andb_true_iff in E. destruct E as [E1 E2]. cbn [gmatch]. rewrite (Hs c x y E1).
  destruct (step c y); [apply IH; exact E2|reflexivity].
Qed.

Theorem gsearch_spec {C : Type} (step : C -> K -> option C) :
  (forall c a b, keq a b = true -> step c a = step c b) ->
  forall t c, wf t ->
  exists r, gsearch step t c = Some r /\
    forall v, In v r <-> exists ks, ks <> [] /\ gmatch step ks c <> None /\ lookup keq klt t ks = Some v.
Proof.
  intros Hs [val ch] c Hw. eexists. split; [apply gsearch_below; exact Hw|].
  intros v. rewrite in_map_iff. split.
  - intros ([ks w] & E & H). cbn in E. subst w. apply filter_In in H. destruct H as [Hin Hm].
    exists ks. split; [|split].
    + apply in_below in Hin. destruct Hin as (? & ? & ? & _ & -> & _). discriminate.
    + unfold gmatches in Hm. cbn [fst] in Hm. destruct (gmatch step ks c); [discriminate|discriminate Hm].
    + apply (lookup_paths ks _ v Hw). exists ks. split; [apply eql_refl|]. apply in_paths. auto.
  - intros (ks & Hne & Hm & Hl). apply (lookup_paths ks _ v Hw) in Hl. destruct Hl as (ks' & E & Hin).
    exists (ks', v). split; [reflexivity|]. apply filter_In. split.
    + apply in_paths in Hin. destruct Hin as [[-> _]|Hin]; [|exact Hin].
      apply eql_nil_l in E. contradiction.
    + unfold gmatches. cbn [fst]. rewrite (gmatch_congr step Hs ks' ks c E). destruct (gmatch step ks c); [reflexivity|contradiction].
Qed.

(* for Trie.kmatch, the one-token abstraction of the parser's key generator: keq tells placeholder keys from the others *)
Hypothesis isph_congr : forall a b, keq a b = true -> isph a = isph b.

(* matching respects the key equality on the pattern side *)
Lemma kmatch_congr k a b : keq a b = true -> kmatch keq isph isarg k a = kmatch keq isph isarg k b.
Proof.
  intros E. unfold kmatch, gen_key. rewrite (isph_congr a b E).
  destruct (isph b && isarg k); [rewrite !keq_refl; reflexivity|apply (keq_congr_r keq_sym keq_trans), E].
Qed.

Lemma inst_prefix_congr a b q : eql keq a b = true -> inst_prefix keq isph isarg a q = inst_prefix keq isph isarg b q.
Proof.
  revert b q. induction a as [|x a IH]; intros [|y b] q E; cbn in E; try congruence.
  apply andb_true_iff in E. destruct E as [E1 E2]. destruct q as [|k q]; cbn; [reflexivity|].
  rewrite (kmatch_congr k x y E1), (IH b q E2). reflexivity.
Qed.

(* search_seq is gsearch with the rest of the call as cursor *)
Definition seq_step (q : list K) (ck : K) : option (list K) :=
  match q with
  | [] => None
  | k :: q' => if kmatch keq isph isarg k ck then Some q' else None
  end.

Lemma search_seq_gsearch t : forall q, search_seq keq klt isph isarg q t = gsearch seq_step t q.
Proof.
  induction t as [v ch IH] using trie_ind'. intros [|k q']; cbn [search_seq gsearch].
  - (* call used up *)
    symmetry. apply children_loop_none. reflexivity.
  - (* name the loop of search_seq, which walks l while Get consults ch *)
    match goal with |- ?loop ch = _ =>
      enough (H : forall l, (forall ck c, In (ck, c) l -> In (ck, c) ch) ->
                loop l = children_loop (gsearch seq_step) seq_step ch (k :: q') l) by (apply H; auto)
    end.
    induction l as [|[ck c] r IHr]; intros Hsub; [reflexivity|]. cbn [children_loop seq_step].
    rewrite (IHr (fun k x H => Hsub k x (or_intror H))), (IH ck c (Hsub _ _ (or_introl eq_refl))).
    destruct (kmatch keq isph isarg k ck); reflexivity.
Qed.

Lemma gmatch_seq ks q : gmatch seq_step ks q <> None <-> inst_prefix keq isph isarg ks q = true.
Proof.
  revert q. induction ks as [|ck ks IH]; intros q; cbn [gmatch inst_prefix]; [split; [reflexivity|discriminate]|].
  destruct q as [|k q]; cbn [seq_step]; [split; [congruence|discriminate]|].
  destruct (kmatch keq isph isarg k ck); cbn [andb]; [apply IH|split; [congruence|discriminate]].
Qed.

(* Search never dereferences nil on a well-formed trie and returns exactly the values bound to the
   non-empty patterns that a prefix of the call instantiates *)
Theorem search_spec : forall q t, wf t ->
  exists r, search_seq keq klt isph isarg q t = Some r /\
    forall v, In v r <-> exists ks, ks <> [] /\ inst_prefix keq isph isarg ks q = true /\ lookup keq klt t ks = Some v.
Proof.
  intros q t Hw. rewrite search_seq_gsearch.
  destruct (gsearch_spec seq_step) with (t := t) (c := q) as (r & Hr & Hin); [|exact Hw|].
  - intros [|k c] a b E; cbn [seq_step]; [reflexivity|]. rewrite (kmatch_congr k a b E). reflexivity.
  - setoid_rewrite gmatch_seq in Hin. eauto.
Qed.

(* The specification: an association list keyed by token sequences. It does not say what Search answers
   (its step emits None, and obs maps every Matches output to None): that is search_refines below. *)
Fixpoint slookup (l : list (list K * V)) (ks : list K) : option V :=
  match l with
  | [] => None
  | (ks0, v) :: r => if eql keq ks0 ks then Some v else slookup r ks
  end.

(* Put on the association list: replace the value of the entry with an equal key, else add *)
Fixpoint sput (l : list (list K * V)) (ks : list K) (v : V) : list (list K * V) :=
  match l with
  | [] => [(ks, v)]
  | (ks0, w) :: r => if eql keq ks0 ks then (ks0, v) :: r else (ks0, w) :: sput r ks v
  end.

(* the specification of a fork: its inner history runs on the SAME association list (Copy is the
   identity on what a trie represents) and leaves no trace *)
Fixpoint sstep_rec (o : top K V) (l : list (list K * V)) {struct o} : list (list K * V) * list (option (tout V)) :=
  match o with
  | Declare ks v => match slookup l ks with
                    | Some w => (l, [Some (Rejected w)])
                    | None => ((ks, v) :: l, [Some Declared])
                    end
  | Lookup ks => (l, [Some (Found (slookup l ks))])
  | Search _ => (l, [None])
  | Put ks v => (sput l ks v, [Some PutDone])
  | Fork inner =>
    (l, Some ForkBegin ::
        (fix go (ops : list (top K V)) (c : list (list K * V)) : list (option (tout V)) :=
           match ops with
           | [] => []
           | o' :: r => let '(c', out) := sstep_rec o' c in out ++ go r c'
           end) inner l ++ [Some ForkEnd])
  end.

Definition sstep (l : list (list K * V)) (o : top K V) := sstep_rec o l.

Fixpoint srun (l : list (list K * V)) (ops : list (top K V)) : list (option (tout V)) :=
  match ops with
  | [] => []
  | o :: r => let '(l', out) := sstep l o in out ++ srun l' r
  end.

Lemma tstep_fork t inner :
  tstep keq klt isph isarg t (Fork inner) = (t, @ForkBegin V :: trun keq klt isph isarg (copy keq klt t) inner ++ [ForkEnd]).
Proof.
  unfold tstep; cbn [tstep_rec]. do 3 f_equal. generalize (copy keq klt t).
  induction inner as [|o r IH]; intros c; cbn [trun]; [reflexivity|].
  unfold tstep at 1. destruct (tstep_rec keq klt isph isarg o c) as [c' out]. rewrite IH. reflexivity.
Qed.

Lemma sstep_fork l inner :
  sstep l (Fork inner) = (l, Some ForkBegin :: srun l inner ++ [Some ForkEnd]).
Proof.
  unfold sstep; cbn [sstep_rec]. do 3 f_equal. generalize l.
  induction inner as [|o r IH]; intros c; cbn [srun]; [reflexivity|].
  unfold sstep at 1. destruct (sstep_rec o c) as [c' out]. rewrite IH. reflexivity.
Qed.

Lemma top_ind' (P : top K V -> Prop) :
  (forall ks v, P (Declare ks v)) -> (forall ks, P (Lookup ks)) -> (forall q, P (Search q)) ->
  (forall ks v, P (Put ks v)) -> (forall inner, Forall P inner -> P (Fork inner)) -> forall o, P o.
Proof.
  intros HD HL HS HP HF. fix IH 1. intros [ks v|ks|q|ks v|inner]; [apply HD|apply HL|apply HS|apply HP|].
  apply HF. revert inner. fix IHl 1. intros [|o r]; constructor; [apply IH|apply IHl].
Qed.

Definition obs (o : tout V) : option (tout V) := match o with Matches _ => None | x => Some x end.

Definition TR (t : trie) (l : list (list K * V)) : Prop :=
  wf t /\ forall ks, lookup keq klt t ks = slookup l ks.

Lemma TR_copy t l : TR t l -> TR (copy keq klt t) l.
Proof.
  intros [Hw Ho]. destruct (copy_correct t Hw) as [Hw' Ho']. split; [exact Hw'|].
  intros ks. rewrite Ho'. apply Ho.
Qed.

(* the specification is the association list of OMap.v over whole token sequences *)
Lemma slookup_sget l ks : slookup l ks = sget (eql keq) l ks.
Proof. induction l as [|[ks0 v] r IH]; cbn; [reflexivity|]. rewrite IH. reflexivity. Qed.

Lemma slookup_congr l a b : eql keq a b = true -> slookup l a = slookup l b.
Proof. rewrite !slookup_sget. apply (sget_congr eql_sym eql_trans). Qed.

(* the law of Put on the specification side *)
Lemma slookup_sput l ks v ks' :
  slookup (sput l ks v) ks' = if eql keq ks ks' then Some v else slookup l ks'.
Proof.
  induction l as [|[k0 w] r IH]; cbn [sput slookup]; [destruct (eql keq ks ks'); reflexivity|].
  destruct (eql keq k0 ks) eqn:E0; cbn [slookup].
  - rewrite (keq_congr eql_sym eql_trans _ _ ks' E0). destruct (eql keq ks ks'); reflexivity.
  - rewrite IH. destruct (eql keq ks ks') eqn:E1; [|reflexivity].
    rewrite <- (keq_congr_r eql_sym eql_trans _ _ k0 E1), E0. reflexivity.
Qed.

Definition step_refines_at (o : top K V) : Prop :=
  forall t l, TR t l ->
    map obs (snd (tstep keq klt isph isarg t o)) = snd (sstep l o) /\ TR (fst (tstep keq klt isph isarg t o)) (fst (sstep l o)).

Lemma run_refines_of ops :
  Forall step_refines_at ops -> forall t l, TR t l -> map obs (trun keq klt isph isarg t ops) = srun l ops.
Proof.
  induction 1 as [|o r Ho Hr IH]; intros t l HR; cbn [trun srun]; [reflexivity|].
  destruct (Ho t l HR) as [Hout HR'].
  destruct (tstep keq klt isph isarg t o) as [t' out]; destruct (sstep l o) as [l' out']; cbn [fst snd] in *.
  rewrite map_app, Hout. f_equal. apply IH. exact HR'.
Qed.

Lemma tstep_refines o : step_refines_at o.
Proof.
  induction o as [ks v|ks|q|ks v|inner IHi] using top_ind'; intros t l HR.
  - destruct HR as [Hw Ho]. unfold tstep, sstep; cbn [tstep_rec sstep_rec]. rewrite Ho.
    destruct (slookup l ks) as [w|] eqn:E; cbn; [split; [reflexivity|split; assumption]|].
    split; [reflexivity|]. split; [apply wf_insert; assumption|].
    intros ks'. rewrite lookup_insert by assumption. rewrite Ho. reflexivity.
  - destruct HR as [Hw Ho]. unfold tstep, sstep; cbn. rewrite Ho. split; [reflexivity|split; assumption].
  - unfold tstep, sstep; cbn. split; [reflexivity|exact HR].
  - destruct HR as [Hw Ho]. unfold tstep, sstep; cbn [tstep_rec sstep_rec fst snd map obs].
    split; [reflexivity|]. split; [apply wf_insert; assumption|].
    intros ks'. rewrite lookup_insert by assumption. rewrite slookup_sput, Ho. reflexivity.
  - rewrite tstep_fork, sstep_fork. cbn [fst snd]. split; [|exact HR].
    cbn [map obs]. rewrite map_app. cbn [map obs]. do 2 f_equal.
    apply run_refines_of; [exact IHi|apply TR_copy; exact HR].
Qed.

Theorem trie_refines_assoc_list : forall ops t l,
  TR t l -> map obs (trun keq klt isph isarg t ops) = srun l ops.
Proof. intros ops. apply run_refines_of. apply Forall_forall. intros o _. apply tstep_refines. Qed.

Lemma TR_init : TR empty [].
Proof. split; [apply wf_empty|intros ks; apply lookup_empty]. Qed.

Definition state_after (ops : list (top K V)) : trie :=
  fold_left (fun t o => fst (tstep keq klt isph isarg t o)) ops empty.
Definition spec_after (ops : list (top K V)) : list (list K * V) :=
  fold_left (fun l o => fst (sstep l o)) ops [].

Lemma TR_reachable ops t l : TR t l ->
  TR (fold_left (fun t o => fst (tstep keq klt isph isarg t o)) ops t) (fold_left (fun l o => fst (sstep l o)) ops l).
Proof. revert t l; induction ops as [|o ops IH]; intros t l H; cbn; [exact H|]. apply IH. apply tstep_refines; exact H. Qed.

Lemma TR_after ops : TR (state_after ops) (spec_after ops).
Proof. apply TR_reachable, TR_init. Qed.

Lemma state_after_app ops1 ops2 :
  state_after (ops1 ++ ops2) = fold_left (fun t o => fst (tstep keq klt isph isarg t o)) ops2 (state_after ops1).
Proof. apply fold_left_app. Qed.

Lemma spec_after_app ops1 ops2 :
  spec_after (ops1 ++ ops2) = fold_left (fun l o => fst (sstep l o)) ops2 (spec_after ops1).
Proof. apply fold_left_app. Qed.

Lemma trun_app (t : trie) (ops1 ops2 : list (top K V)) :
  trun keq klt isph isarg t (ops1 ++ ops2) =
  trun keq klt isph isarg t ops1 ++ trun keq klt isph isarg (fold_left (fun t o => fst (tstep keq klt isph isarg t o)) ops1 t) ops2.
Proof.
  revert t. induction ops1 as [|o r IH]; intros t; cbn [app trun fold_left]; [reflexivity|].
  destruct (tstep keq klt isph isarg t o) as [t' out]; cbn [fst]. rewrite IH, app_assoc. reflexivity.
Qed.

Lemma fork_keeps_state (t : trie) (inner : list (top K V)) : fst (tstep keq klt isph isarg t (Fork inner)) = t.
Proof. rewrite tstep_fork. reflexivity. Qed.

(* one fork: whatever the inner history does to the copy (Puts over keys of the original, new
   declarations, further forks), the continuation answers exactly as if the fork had not happened;
   the fork itself answers as the association list of the original at that moment *)
Theorem fork_isolation : forall h inner cont,
  trun keq klt isph isarg empty (h ++ Fork inner :: cont) =
    trun keq klt isph isarg empty h ++ (@ForkBegin V :: trun keq klt isph isarg (copy keq klt (state_after h)) inner ++ [ForkEnd])
    ++ trun keq klt isph isarg (state_after h) cont
  /\ trun keq klt isph isarg empty (h ++ cont) = trun keq klt isph isarg empty h ++ trun keq klt isph isarg (state_after h) cont
  /\ map obs (trun keq klt isph isarg (copy keq klt (state_after h)) inner) = srun (spec_after h) inner.
Proof.
  intros h inner cont. rewrite !trun_app. fold (state_after h). split; [|split; [reflexivity|]].
  - cbn [trun]. rewrite tstep_fork. reflexivity.
  - apply trie_refines_assoc_list, TR_copy, TR_after.
Qed.

Lemma state_erase_forks (ops : list (top K V)) (t : trie) :
  fold_left (fun t o => fst (tstep keq klt isph isarg t o)) (erase_forks ops) t = fold_left (fun t o => fst (tstep keq klt isph isarg t o)) ops t.
Proof.
  revert t. induction ops as [|o r IH]; intros t; [reflexivity|].
  unfold erase_forks in *. cbn [filter fold_left].
  destruct o as [ks v|ks|q|ks v|inner]; cbn [is_fork negb fold_left]; apply IH.
Qed.

Definition balanced_at (o : top K V) : Prop :=
  forall t d rest, strip_forks (S d) (snd (tstep keq klt isph isarg t o) ++ rest) = strip_forks (S d) rest.

Lemma balanced_run ops : Forall balanced_at ops ->
  forall t d rest, strip_forks (S d) (trun keq klt isph isarg t ops ++ rest) = strip_forks (S d) rest.
Proof.
  induction 1 as [|o r Ho Hr IH]; intros t d rest; cbn [trun app]; [reflexivity|].
  specialize (Ho t d). destruct (tstep keq klt isph isarg t o) as [t' out]; cbn [snd] in Ho.
  rewrite <- app_assoc, Ho. apply IH.
Qed.

Lemma balanced_all o : balanced_at o.
Proof.
  induction o as [ks v|ks|q|ks v|inner IHi] using top_ind'; intros t d rest.
  - unfold tstep; cbn [tstep_rec]. destruct (lookup keq klt t ks); reflexivity.
  - reflexivity.
  - reflexivity.
  - reflexivity.
  - rewrite tstep_fork. cbn [snd app strip_forks]. rewrite <- app_assoc.
    rewrite (balanced_run inner IHi). reflexivity.
Qed.

(* any number of forks, nested to any depth, anywhere in the history: the outputs outside the forks
   are exactly the outputs of the history with the forks erased *)
Theorem forks_invisible : forall (ops : list (top K V)) (t : trie),
  strip_forks 0 (trun keq klt isph isarg t ops) = trun keq klt isph isarg t (erase_forks ops).
Proof.
  induction ops as [|o r IH]; intros t; [reflexivity|].
  unfold erase_forks in *. cbn [trun filter].
  destruct o as [ks v|ks|q|ks v|inner]; cbn [is_fork negb trun].
  - unfold tstep; cbn [tstep_rec]. destruct (lookup keq klt t ks); cbn [app strip_forks]; rewrite IH; reflexivity.
  - unfold tstep; cbn [tstep_rec app strip_forks]. rewrite IH. reflexivity.
  - unfold tstep; cbn [tstep_rec app strip_forks]. rewrite IH. reflexivity.
  - unfold tstep; cbn [tstep_rec app strip_forks]. rewrite IH. reflexivity.
  - rewrite tstep_fork. cbn [app strip_forks]. rewrite <- app_assoc.
    rewrite (balanced_run inner); [|apply Forall_forall; intros o _; apply balanced_all].
    cbn [app strip_forks pred]. apply IH.
Qed.

(* once a sequence is bound in the specification it stays bound to the same value, as long as no
   Put is issued on the trie itself (Puts inside forks do not count: they hit the copy) *)
Lemma slookup_stable ops l ks v :
  forallb (fun o => negb (is_put o)) ops = true ->
  slookup l ks = Some v -> slookup (fold_left (fun l o => fst (sstep l o)) ops l) ks = Some v.
Proof.
  revert l. induction ops as [|o ops IH]; intros l Hnp H; cbn [fold_left]; [exact H|].
  cbn [forallb] in Hnp. apply andb_true_iff in Hnp. destruct Hnp as [Ho Hnp]. apply IH; [exact Hnp|].
  destruct o as [ks2 v2|ks2|q|ks2 v2|inner]; try exact H.
  - unfold sstep; cbn [sstep_rec]. destruct (slookup l ks2) as [w|] eqn:E; cbn [fst slookup]; [exact H|].
    destruct (eql keq ks2 ks) eqn:E2; [|exact H].
    rewrite (slookup_congr l ks2 ks E2) in E. congruence.
  - discriminate Ho.
Qed.

(* C20, second half: a successfully declared alias is found, with its own value, after any
   further declarations, lookups and forks (whose inner histories may Put the same key). *)
Theorem stays_callable : forall ops1 ks v ops2 ks',
  forallb (fun o => negb (is_put o)) ops2 = true ->
  lookup keq klt (state_after ops1) ks = None ->
  eql keq ks ks' = true ->
  lookup keq klt (state_after (ops1 ++ Declare ks v :: ops2)) ks' = Some v.
Proof.
  intros ops1 ks v ops2 ks' Hnp Hnone E.
  rewrite (proj2 (TR_after _)), spec_after_app. cbn [fold_left].
  apply slookup_stable; [exact Hnp|]. unfold sstep; cbn [sstep_rec].
  rewrite <- (proj2 (TR_after ops1)), Hnone. cbn [fst slookup]. rewrite E. reflexivity.
Qed.

(* C20, first half: a declaration whose pattern coincides (token-wise, by keq) with one that was
   successfully declared earlier is rejected, whatever happened in between - including any number
   of forks whose inner histories Put the same key. *)
Theorem dup_rejected : forall ops1 ks v ops2 ks' v',
  forallb (fun o => negb (is_put o)) ops2 = true ->
  lookup keq klt (state_after ops1) ks = None ->
  eql keq ks ks' = true ->
  snd (tstep keq klt isph isarg (state_after (ops1 ++ Declare ks v :: ops2)) (Declare ks' v')) = [Rejected v].
Proof.
  intros ops1 ks v ops2 ks' v' Hnp Hnone E. unfold tstep; cbn [tstep_rec].
  rewrite (stays_callable ops1 ks v ops2 ks' Hnp Hnone E). reflexivity.
Qed.

(* the reason a top-level Put is excluded above: it is the one operation that rebinds a key *)
Theorem put_overwrites : forall ops ks v ks',
  eql keq ks ks' = true -> lookup keq klt (state_after (ops ++ [Put ks v])) ks' = Some v.
Proof.
  intros ops ks v ks' E. rewrite state_after_app. cbn [fold_left]. unfold tstep; cbn [tstep_rec fst].
  rewrite lookup_insert by apply TR_after. rewrite E. reflexivity.
Qed.

(* Search refines the association list: for every state a history can reach (TR), the values it
   returns are exactly those bound to the non-empty declared patterns that a prefix of the call
   instantiates *)
Theorem search_refines : forall t l q, TR t l ->
  exists r, search_seq keq klt isph isarg q t = Some r /\
    forall v, In v r <-> exists ks, ks <> [] /\ inst_prefix keq isph isarg ks q = true /\ slookup l ks = Some v.
Proof.
  intros t l q [Hw Ho]. destruct (search_spec q t Hw) as (r & Hr & Hin).
  setoid_rewrite Ho in Hin. eauto.
Qed.

Theorem search_refines_history : forall ops q,
  exists r, search_seq keq klt isph isarg q (state_after ops) = Some r /\
    forall v, In v r <-> exists ks, ks <> [] /\ inst_prefix keq isph isarg ks q = true /\ slookup (spec_after ops) ks = Some v.
Proof. intros ops q. apply search_refines, TR_after. Qed.

Lemma inst_prefix_app ks c rest : instantiates keq isph isarg ks c = true -> inst_prefix keq isph isarg ks (c ++ rest) = true.
Proof.
  revert c. induction ks as [|ck ks IH]; intros [|k c] H; cbn in *; try congruence.
  apply andb_true_iff in H. destruct H as [H1 H2]. rewrite H1, (IH c H2). reflexivity.
Qed.

(* C20, "stays callable" at the level the parser uses the trie: every successfully declared alias
   is among the aliases Search returns for EVERY call that instantiates its pattern (each
   placeholder replaced by an argument, every other token equal; whatever follows the call),
   whatever other aliases are declared before or afterwards - siblings that match the same call
   tokens (a literal word where this alias has a placeholder, or vice versa) do not hide it - and
   across any number of forks. *)
Theorem callable_by_search : forall ops1 ks v ops2 c rest,
  forallb (fun o => negb (is_put o)) ops2 = true ->
  lookup keq klt (state_after ops1) ks = None ->
  ks <> [] ->
  instantiates keq isph isarg ks c = true ->
  exists r, search_seq keq klt isph isarg (c ++ rest) (state_after (ops1 ++ Declare ks v :: ops2)) = Some r /\ In v r.
Proof.
  intros ops1 ks v ops2 c rest Hnp Hnone Hne Hi.
  destruct (search_spec (c ++ rest) _ (proj1 (TR_after (ops1 ++ Declare ks v :: ops2)))) as (r & Hr & Hin).
  exists r. split; [exact Hr|]. apply Hin. exists ks. split; [exact Hne|]. split; [apply inst_prefix_app; exact Hi|].
  apply stays_callable; [exact Hnp|exact Hnone|apply eql_refl].
Qed.

End Proofs.

Arguments children_loop {K V} keq klt {C}.
Arguments gsearch {K V} keq klt {C}.
Arguments gmatch {K C}.
