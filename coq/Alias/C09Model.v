(* Non-vacuity examples for the theorems of Props/C09.v: concrete populations on which their
   hypotheses hold and their conclusions say something. *)
From Coq Require Import List ZArith Lia.
Import ListNotations.
From DDP Require Import Gen.Tokens Alias.TokKey Alias.Select Alias.SelectProofs Alias.Overload Alias.OverloadProofs.
Local Open Scope nat_scope.

Definition idt (l : list N) : tok := {| tt := tt_IDENTIFIER; lit := l; ainfo := None |}.
Definition intlit (l : list N) : tok := {| tt := tt_INT; lit := l; ainfo := None |}.
Definition strlit (l : list N) : tok := {| tt := tt_STRING; lit := l; ainfo := None |}.
Definition phd (name : list N) (isref : bool) (rank id : N) : tok :=
  {| tt := tt_ALIAS_PARAMETER; lit := name; ainfo := Some {| t_ref := isref; t_list := false; t_name := rank; t_id := id |} |}.

Definition tZ := TBase 1.
Definition tT := TBase 2.
Definition foo := idt [102; 111; 111]%N.
Definition bar := idt [98; 97; 114]%N.
Definition na := [97%N].
Definition nb := [98%N].

(* "foo <a>" (Zahl) | "foo <a>" (Zahlen Referenz) | "foo <a> bar <b>" (a Zahl, b Text) |
   "foo <b> bar <a>" of a second function whose parameters are declared in the other order *)
Definition e1 := mkAlias 1 1 [foo; phd na false 2 1] [mkParam na tZ false] false.
Definition e2 := mkAlias 2 2 [foo; phd na true 2 1] [mkParam na tZ true] false.
Definition e3 := mkAlias 3 3 [foo; phd na false 2 1; bar; phd nb false 1 2] [mkParam na tZ false; mkParam nb tT false] false.
Definition e4 := mkAlias 4 4 [foo; phd nb false 1 2; bar; phd na false 2 1] [mkParam nb tT false; mkParam na tZ false] true.
Definition epop := [e1; e2; e3; e4].

(* stream: foo vz bar "s" .   with vz a Zahl variable *)
Definition vz := idt [118; 122]%N.
Definition dot : tok := {| tt := tt_DOT; lit := []; ainfo := None |}.
Definition es1 := [foo; vz; bar; strlit [34; 115; 34]%N; dot].
Definition eargty (isref : bool) (c : nat) : option ty :=
  if Nat.eqb c 1 then Some tZ else if Nat.eqb c 3 then (if isref then None else Some tT) else None.
Definition esel (s : list tok) := select s eargty (fun _ => false) (fun _ _ => true) (TBase 5) (declare_all epop) 0.

(* the longest type-matching alias wins and its arguments are bound by name *)
Example ex_longest :
  esel es1 = Selected e3 [(na, (false, 1, 2)); (nb, (false, 3, 4))] [].
Proof. vm_compute. reflexivity. Qed.

(* foo vz .  -> both one-placeholder aliases type-match: the Referenz one is preferred *)
Example ex_ref_preferred :
  esel [foo; vz; dot] = Selected e2 [(na, (true, 1, 2))] [].
Proof. vm_compute. reflexivity. Qed.

(* foo "s" bar vz .  -> only the alias with the swapped placeholders type-matches; it is negated;
   parameter a still receives vz and b the string, by name *)
Definition es3 := [foo; strlit [34; 115; 34]%N; bar; vz; dot].
Definition eargty3 (isref : bool) (c : nat) : option ty :=
  if Nat.eqb c 3 then Some tZ else if Nat.eqb c 1 then (if isref then None else Some tT) else None.
Example ex_swapped_negated :
  select es3 eargty3 (fun _ => false) (fun _ _ => true) (TBase 5) (declare_all epop) 0
  = Selected e4 [(nb, (false, 1, 2)); (na, (false, 3, 4))] [] /\
  call_of e4 [(nb, (false, 1, 2)); (na, (false, 3, 4))] = ENot (ECall 4 [(nb, (false, 1, 2)); (na, (false, 3, 4))]).
Proof. vm_compute. split; reflexivity. Qed.

(* the hypotheses of the maximality theorems are met on this population *)
Example ex_sorted_perm : sorted_perm (candidates es1 (declare_all epop) 0) (isort (candidates es1 (declare_all epop) 0)).
Proof. apply isort_sorted_perm. Qed.
Example ex_candidates : map a_id (candidates es1 (declare_all epop) 0) = [4; 1; 3; 2]%N.
Proof. vm_compute. reflexivity. Qed.
(* generic beside concrete: "foo <a>" for a Zahlen Liste and for a T Liste, call with a Zahlen Liste *)
Example ex_nongeneric_preferred : exists b e, w_select [w_gen; w_conc] = Selected w_conc b e.
Proof. vm_compute. eauto. Qed.

(* nothing type-matches: foo "s" .  -> the first of the sorted candidates is called untyped *)
Example ex_fallback :
  exists b, select [foo; strlit [34; 115; 34]%N; dot] (fun r c => if Nat.eqb c 1 then (if r then None else Some tT) else None)
              (fun _ => false) (fun _ _ => true) (TBase 5) (declare_all epop) 0 = Fallback e2 b.
Proof. vm_compute. eauto. Qed.

(* negation marker: "x <!nicht> y" *)
Example ex_marker :
  expand_marker [120; 32; 60; 33; 110; 105; 99; 104; 116; 62; 32; 121]%N
  = Some [([120; 32; 110; 105; 99; 104; 116; 32; 121]%N, true); ([120; 32; 32; 121]%N, false)].
Proof. vm_compute. reflexivity. Qed.

(* overloads: plus for (Text, Zahl), for (Text Referenz, Zahl) and generically (T, T) *)
Definition o1 := mkODecl 1 [mkParam na tT false; mkParam nb tZ false] false tT.
Definition o2 := mkODecl 2 [mkParam na tT true; mkParam nb tZ false] false tT.
Definition o3 := mkODecl 3 [mkParam na (TGen 1) false; mkParam nb (TGen 1) false] true (TGen 1).
Definition otab := insert_all false [o3; o1; o2].
Example ex_table_order : map od_id otab = [2; 1; 3]%N.
Proof. vm_compute. reflexivity. Qed.
Definition is_str (t : ty) := match t with TBase 9 => true | _ => false end.
Example ex_overload_ref :       (* assignable Text operand: the Referenz overload *)
  find_overload is_str (fun _ _ => true) otab [(tT, true); (tZ, false)] None = Overloaded o2 [] [(na, 0); (nb, 1)].
Proof. vm_compute. reflexivity. Qed.
Example ex_overload_value :     (* Text literal: not assignable -> the value overload *)
  find_overload is_str (fun _ _ => true) otab [(tT, false); (tZ, false)] None = Overloaded o1 [] [(na, 0); (nb, 1)].
Proof. vm_compute. reflexivity. Qed.
Example ex_overload_builtin :   (* Zahl plus Zahl: no exact overload; the generic one needs a user-defined type *)
  find_overload is_str (fun _ _ => true) otab [(tZ, false); (tZ, false)] None = Builtin.
Proof. vm_compute. reflexivity. Qed.
Example ex_overload_generic :   (* two operands of the Kombination 9 *)
  exists e, find_overload is_str (fun _ _ => true) otab [(TBase 9, false); (TBase 9, false)] None = Overloaded o3 e [(na, 0); (nb, 1)].
Proof. vm_compute. eauto. Qed.
Example ex_otab_wf : Forall odecl_wf otab /\ osorted otab.
Proof. split; [|apply insert_all_sorted]. vm_compute. repeat constructor; intros X; (discriminate X || lia || auto). Qed.
