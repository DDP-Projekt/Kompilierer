(* Operator overload resolution (Overload.v): the lemmas behind the overload theorems of Props/C09.v. *)
From Coq Require Import List ZArith Bool Lia Permutation Sorted.
Import ListNotations.
From DDP Require Import Alias.Select Alias.Overload.
Local Open Scope nat_scope.


(* a sorts strictly before t *)
Definition obefore (a t : odecl) : Prop :=
  ogen_count a < ogen_count t \/ (ogen_count a = ogen_count t /\ oref_count t < oref_count a).

Lemma ocmp_neg a t : Z.ltb (ocmp a t) 0 = true <-> obefore a t.
Proof.
  unfold ocmp, obefore. destruct (Nat.eqb_spec (ogen_count a) (ogen_count t)) as [E|E]; cbn [negb]; rewrite Z.ltb_lt; lia.
Qed.

Lemma ocmp_nonneg a t : Z.ltb (ocmp a t) 0 = false <-> ~ obefore a t.
Proof. rewrite <- ocmp_neg. symmetry. apply not_true_iff_false. Qed.

Definition osorted (l : list odecl) : Prop := StronglySorted (fun a b => ~ obefore b a) l.

Lemma osorted_nth l : osorted l -> forall i j x y, i <= j -> nth_error l i = Some x -> nth_error l j = Some y -> ~ obefore y x \/ i = j.
Proof.
  unfold osorted. induction 1 as [|a r Hs IH Hf]; intros i j x y Hij Hx Hy.
  - destruct i; discriminate Hx.
  - destruct i as [|i], j as [|j]; cbn in Hx, Hy.
    + right; reflexivity.
    + inversion Hx; subst. left. rewrite Forall_forall in Hf. apply Hf. eapply nth_error_In; eauto.
    + lia.
    + destruct (IH i j x y) as [H|H]; try lia; auto.
Qed.

(* the binary search of slices.BinarySearchFunc on a sorted table *)
Lemma bs_go_spec l t : osorted l -> forall fuel i j,
  i <= j <= length l -> j - i < fuel ->
  (forall k x, k < i -> nth_error l k = Some x -> obefore x t) ->
  (forall k x, j <= k -> nth_error l k = Some x -> ~ obefore x t) ->
  let r := bs_go fuel l t i j in
  (forall k x, k < r -> nth_error l k = Some x -> obefore x t) /\
  (forall k x, r <= k -> nth_error l k = Some x -> ~ obefore x t).
Proof.
  intros Hs. induction fuel as [|f IH]; intros i j Hij Hf Hlo Hhi; [lia|].
  cbn [bs_go]. destruct (Nat.ltb_spec i j) as [Hlt|Hge].
  - assert (Hh : i <= Nat.div2 (i + j) < j).
    { pose proof (Nat.div2_odd (i + j)) as Ho. destruct (Nat.odd (i + j)); cbn in Ho; lia. }
    set (h := Nat.div2 (i + j)) in *.
    destruct (nth_error l h) as [x|] eqn:Ex.
    2:{ apply nth_error_None in Ex. lia. }
    destruct (Z.ltb (ocmp x t) 0) eqn:Ec.
    + apply ocmp_neg in Ec. apply IH; try lia; [|exact Hhi].
      intros k y Hk Hy. destruct (Nat.lt_ge_cases k i) as [Hki|Hki]; [eapply Hlo; eauto|].
      destruct (osorted_nth l Hs k h y x) as [Hn| ->]; try lia; auto; [|congruence].
      unfold obefore in *. lia.
    + apply ocmp_nonneg in Ec. apply IH; try lia; [exact Hlo|].
      intros k y Hk Hy. destruct (Nat.lt_ge_cases k j) as [Hkj|Hkj]; [|eapply Hhi; eauto].
      destruct (osorted_nth l Hs h k x y) as [Hn| <-]; try lia; auto; [|congruence].
      unfold obefore in *. lia.
  - assert (i = j) by lia. subst. split; assumption.
Qed.

Lemma bs_pos_spec l t : osorted l ->
  (forall k x, k < bs_pos l t -> nth_error l k = Some x -> obefore x t) /\
  (forall k x, bs_pos l t <= k -> nth_error l k = Some x -> ~ obefore x t).
Proof.
  intros Hs. apply (bs_go_spec l t Hs (S (length l)) 0 (length l)); try lia.
  intros k x Hk Hx. apply nth_error_None in Hk. congruence.
Qed.

Lemma osorted_insert l t i :
  osorted l ->
  (forall k x, k < i -> nth_error l k = Some x -> obefore x t) ->
  (forall k x, i <= k -> nth_error l k = Some x -> ~ obefore x t) ->
  osorted (firstn i l ++ t :: skipn i l).
Proof.
  unfold osorted. revert i. induction l as [|a r IH]; intros i Hs Hb Ha.
  - destruct i; cbn; repeat constructor.
  - inversion Hs as [|a0 r0 Hr Hf]; subst. destruct i as [|i]; cbn [firstn skipn app].
    + constructor; [exact Hs|]. rewrite Forall_forall. intros x Hx.
      apply In_nth_error in Hx. destruct Hx as [k Hk]. apply (Ha k x); [lia|exact Hk].
    + constructor.
      * apply IH; [exact Hr| |].
        -- intros k x Hk Hx. apply (Hb (S k) x); [lia|exact Hx].
        -- intros k x Hk Hx. apply (Ha (S k) x); [lia|exact Hx].
      * rewrite <- (firstn_skipn i r) in Hf. apply Forall_app in Hf. destruct Hf as [Hf1 Hf2].
        apply Forall_app. split; [exact Hf1|]. constructor; [|exact Hf2].
        assert (Hba : obefore a t) by (apply (Hb 0 a); [lia|reflexivity]). unfold obefore in *. lia.
Qed.

(* insertOperatorOverload keeps the table sorted and loses / invents nothing *)
Theorem insert_overload_sorted c table d : osorted table -> osorted (fst (insert_overload c table d)).
Proof.
  intros Hs. unfold insert_overload.
  destruct (existsb _ table); cbn [fst]; [exact Hs|].
  destruct (bs_pos_spec table d Hs) as (Hb & Ha). apply osorted_insert; assumption.
Qed.

Theorem insert_overload_perm c table d :
  snd (insert_overload c table d) = true -> Permutation (d :: table) (fst (insert_overload c table d)).
Proof.
  unfold insert_overload. destruct (existsb _ table); cbn [fst snd]; [intros H; discriminate H|]. intros _.
  rewrite <- (firstn_skipn (bs_pos table d) table) at 1. apply Permutation_middle.
Qed.

Lemma insert_overload_rejected c table d :
  snd (insert_overload c table d) = false -> fst (insert_overload c table d) = table.
Proof. unfold insert_overload. destruct (existsb _ table); cbn; [reflexivity|intros H; discriminate H]. Qed.

Theorem insert_all_sorted c ds : osorted (insert_all c ds).
Proof.
  unfold insert_all.
  assert (H : forall t, osorted t -> osorted (fold_left (fun t d => fst (insert_overload c t d)) ds t)).
  { induction ds as [|d r IH]; intros t Hs; cbn; [exact Hs|]. apply IH. apply insert_overload_sorted. exact Hs. }
  apply H. constructor.
Qed.

(* in a sorted table every entry in front of a non-generic one is non-generic *)
Lemma osorted_nongeneric_prefix l1 d l2 :
  osorted (l1 ++ d :: l2) -> ogen_count d = 0 -> Forall (fun x => ogen_count x = 0) l1.
Proof.
  unfold osorted. induction l1 as [|a l1 IH]; cbn; intros Hs Hd; [constructor|].
  inversion Hs as [|a0 r0 Hr Hf]; subst. constructor; [|apply IH; assumption].
  rewrite Forall_forall in Hf. assert (Hn : ~ obefore d a) by (apply Hf; apply in_or_app; right; left; reflexivity).
  unfold obefore in Hn. lia.
Qed.

Section Find.
Variable is_struct : ty -> bool.
Variable oinst_ok : odecl -> genv -> bool.
Notation find_overload := (find_overload is_struct oinst_ok).

(* the exact-type rule of one non-generic overload, spelled out *)
Definition exact (p : param) (o : operand) : Prop :=
  ty_eqb (p_ty p) (fst o) = true /\ (p_ref p = true -> snd o = true).

Lemma match_operands_exact ps : forall ops i e args e' args',
  match_operands false ps ops i e args = MOk e' args' ->
  e' = e /\ Forall2 exact (firstn (length ops) ps) ops /\ length ops <= length ps /\
  args' = args ++ combine (map p_name (firstn (length ops) ps)) (seq i (length ops)).
Proof.
  induction ps as [|p ps IH]; intros [|[oty asg] ops] i e args e' args' H; cbn in H.
  - inversion H; subst. cbn. rewrite app_nil_r. split; [reflexivity|]. split; [constructor|]. split; [lia|reflexivity].
  - discriminate H.
  - inversion H; subst. cbn. rewrite app_nil_r. split; [reflexivity|]. split; [constructor|]. split; [lia|reflexivity].
  - destruct (negb (ty_eqb (p_ty p) oty)) eqn:Et; [discriminate H|].
    destruct (p_ref p && negb asg) eqn:Er; [discriminate H|].
    destruct (IH _ _ _ _ _ _ H) as (-> & Hf & Hl & ->).
    apply negb_false_iff in Et.
    split; [reflexivity|]. split; [|split; [cbn; lia|]].
    + cbn. constructor; [|exact Hf]. split; [exact Et|]. cbn. intros Hr. rewrite Hr in Er. cbn in Er.
      apply negb_false_iff in Er. exact Er.
    + cbn. rewrite <- app_assoc. reflexivity.
Qed.

(* converse: an entry that fits is not skipped *)
Lemma match_operands_complete ps : forall ops i e args,
  length ops <= length ps -> Forall2 exact (firstn (length ops) ps) ops ->
  exists args', match_operands false ps ops i e args = MOk e args'.
Proof.
  induction ps as [|p ps IH]; intros [|[oty asg] ops] i e args Hl Hf; cbn in *; eauto; try lia.
  inversion Hf as [|p0 o0 l1 l2 [Ht Hr] Hf']; subst. cbn in Ht, Hr.
  rewrite Ht. cbn [negb].
  assert (p_ref p && negb asg = false) as ->.
  { destruct (p_ref p); [rewrite (Hr eq_refl)|]; reflexivity. }
  apply IH; [lia|exact Hf'].
Qed.

(* What findOverload returns is an entry of the table that fits - parameter
   types equal the operand types (after unification for a generic entry), Referenz parameters
   only on assignable operands, the als-target if any -, generic only if an operand has a
   user-defined type and the instantiation succeeded; every entry in front of it does not fit *)
Definition fits (d : odecl) (ops : list operand) (target : option ty) (e : genv) (args : list (list N * nat)) : Prop :=
  match_operands (od_generic d) (od_params d) ops 0 [] [] = MOk e args /\
  match target with
  | None => True
  | Some t => exists rt, ret_of d e = Some rt /\ ty_eqb rt t = true
  end.

Theorem overload_exact table ops target d e args :
  find_overload table ops target = Overloaded d e args ->
  exists l1 l2, table = l1 ++ d :: l2 /\ fits d ops target e args /\
    (od_generic d = true -> contains_user is_struct ops = true /\ oinst_ok d e = true) /\
    Forall (fun x => forall e' a', ~ fits x ops target e' a') l1.
Proof.
  induction table as [|x r IH]; cbn; intros H; [discriminate H|].
  destruct (negb (contains_user is_struct ops) && od_generic x) eqn:Eg; [discriminate H|].
  destruct (match_operands (od_generic x) (od_params x) ops 0 [] []) as [e0 a0| |] eqn:Em; [| |discriminate H].
  - set (ret_ok := match target with
                   | Some t => match ret_of x e0 with Some rt => ty_eqb rt t | None => false end
                   | None => true end) in *.
    destruct ret_ok eqn:Er; cbn [negb] in H.
    + assert (Hfit : fits x ops target e0 a0).
      { split; [exact Em|]. destruct target as [t|]; [|exact I]. unfold ret_ok in Er.
        destruct (ret_of x e0) as [rt|]; [eauto|discriminate Er]. }
      assert (Hgen : od_generic x = true -> contains_user is_struct ops = true).
      { intros G. rewrite G, andb_true_r in Eg. apply negb_false_iff in Eg. exact Eg. }
      destruct (od_generic x) eqn:G.
      * destruct (oinst_ok x e0) eqn:Ei; [|discriminate H]. inversion H; subst.
        exists [], r. split; [reflexivity|]. split; [exact Hfit|]. split; [|constructor].
        intros _. split; [apply Hgen; reflexivity|exact Ei].
      * inversion H; subst. exists [], r. split; [reflexivity|]. split; [exact Hfit|]. split; [|constructor].
        intros X; congruence.
    + destruct (IH H) as (l1 & l2 & -> & Hf & Hg & Hall).
      exists (x :: l1), l2. split; [reflexivity|]. split; [exact Hf|]. split; [exact Hg|]. constructor; [|exact Hall].
      intros e' a' [Hm Ht]. rewrite Em in Hm. inversion Hm; subst.
      destruct target as [t|]; [|discriminate Er]. destruct Ht as (rt & Hr & Hq).
      unfold ret_ok in Er. rewrite Hr, Hq in Er. discriminate Er.
  - destruct (IH H) as (l1 & l2 & -> & Hf & Hg & Hall).
    exists (x :: l1), l2. split; [reflexivity|]. split; [exact Hf|]. split; [exact Hg|]. constructor; [|exact Hall].
    intros e' a' [Hm _]. rewrite Em in Hm. discriminate Hm.
Qed.

(* the early "return nil" at the first generic entry is sound: with no user-defined operand
   type, a sorted table is searched exactly as if it held only its non-generic entries *)
Definition odecl_wf (d : odecl) : Prop := od_generic d = true <-> 0 < ogen_count d.

Theorem generic_only_for_user_types table ops target :
  osorted table -> Forall odecl_wf table -> contains_user is_struct ops = false ->
  find_overload table ops target = find_overload (filter (fun d => negb (od_generic d)) table) ops target.
Proof.
  intros Hs Hw Hu. induction table as [|x r IH]; [reflexivity|].
  inversion Hw as [|x0 r0 Hx Hr]; subst. unfold osorted in Hs. inversion Hs as [|x1 r1 Hsr Hf]; subst.
  cbn [find_overload filter]. rewrite Hu. cbn [negb andb].
  destruct (od_generic x) eqn:G; cbn [negb].
  - (* everything behind a generic entry is generic *)
    assert (Hall : filter (fun d => negb (od_generic d)) r = []).
    { assert (Hg : forall y, In y r -> od_generic y = true).
      { intros y Hy. rewrite Forall_forall in Hr, Hf. apply (Hr y Hy).
        apply Hx in G. specialize (Hf y Hy). unfold obefore in Hf. lia. }
      clear - Hg. induction r as [|y r' IHr]; [reflexivity|]. cbn.
      rewrite (Hg y (or_introl eq_refl)). cbn. apply IHr. intros z Hz. apply Hg. right. exact Hz. }
    rewrite Hall. reflexivity.
  - cbn [find_overload]. rewrite Hu, G. cbn [negb andb].
    rewrite (IH Hsr Hr). reflexivity.
Qed.

End Find.
