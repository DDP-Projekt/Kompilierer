(* Model of the alias-trie key predicates tokenEqual / tokenLess (src/parser/util.go: tokenEqual 15-36, tokenLess 62-88).
   A placeholder's parameter type is abstracted to what the predicates look at:
     t_ref  : IsReference
     t_list : ddptypes.IsList
     t_name : rank of GetUnderlying(type).String() in byte order (supplied by the harness from
              the real String() values, so the rank order IS the string order)
     t_id   : identity of GetUnderlying(type) (ddptypes.Equal compares these) *)
From Coq Require Import List NArith Bool.
Import ListNotations.
From DDP Require Import Gen.Tokens.
Open Scope N_scope.

Record tinfo := { t_ref : bool; t_list : bool; t_name : N; t_id : N }.
Record tok := { tt : N; lit : list N; ainfo : option tinfo }.

Fixpoint lit_eqb (a b : list N) : bool :=
  match a, b with
  | [], [] => true
  | x :: a', y :: b' => (x =? y) && lit_eqb a' b'
  | _, _ => false
  end.

(* Go string < : lexicographic on bytes *)
Fixpoint lit_ltb (a b : list N) : bool :=
  match a, b with
  | [], [] => false
  | [], _ :: _ => true
  | _ :: _, [] => false
  | x :: a', y :: b' => if x <? y then true else if y <? x then false else lit_ltb a' b'
  end.

Definition has_literal (t : N) : bool :=
  (t =? tt_IDENTIFIER) || (t =? tt_SYMBOL) || (t =? tt_INT) || (t =? tt_FLOAT) || (t =? tt_CHAR) || (t =? tt_STRING).

Definition type_equal (a b : tinfo) : bool := Bool.eqb (t_list a) (t_list b) && (t_id a =? t_id b).

Definition tinfo_eqb (a b : tinfo) : bool := Bool.eqb (t_ref a) (t_ref b) && type_equal a b.

Definition b2n (b : bool) : N := if b then 1 else 0.

Definition tok_eq (a b : tok) : bool :=
  if tt a =? tt b then
    if tt a =? tt_ALIAS_PARAMETER then
      match ainfo a, ainfo b with
      | Some x, Some y => tinfo_eqb x y
      | None, None => true
      | _, _ => false
      end
    else if has_literal (tt a) then lit_eqb (lit a) (lit b)
    else true
  else false.

Definition tok_less (a b : tok) : bool :=
  if negb (tt a =? tt b) then tt a <? tt b
  else if tt a =? tt_ALIAS_PARAMETER then
    match ainfo a, ainfo b with
    | Some x, Some y =>
      if negb (Bool.eqb (t_ref x) (t_ref y)) then b2n (t_ref x) <? b2n (t_ref y)
      else if negb (Bool.eqb (t_list x) (t_list y)) then b2n (t_list x) <? b2n (t_list y)
      else t_name x <? t_name y
    | _, _ => false
    end
  else if has_literal (tt a) then lit_ltb (lit a) (lit b)
  else false.

(* tok_eq is an equivalence: the hypothesis of the trie theorems is met by the real keys *)
Lemma lit_eqb_eq a b : lit_eqb a b = true <-> a = b.
Proof.
  revert b; induction a as [|x a IH]; intros [|y b]; cbn; split; intros H; try congruence; try reflexivity.
  - apply andb_true_iff in H. destruct H as [H1 H2]. apply N.eqb_eq in H1. apply IH in H2. congruence.
  - inversion H; subst. rewrite N.eqb_refl. apply IH. reflexivity.
Qed.

Lemma lit_eqb_sym a b : lit_eqb a b = lit_eqb b a.
Proof. apply eq_true_iff_eq. rewrite !lit_eqb_eq. split; congruence. Qed.

Lemma tinfo_eqb_spec x y :
  tinfo_eqb x y = true <-> (t_ref x, t_list x, t_id x) = (t_ref y, t_list y, t_id y).
Proof.
  unfold tinfo_eqb, type_equal. rewrite !andb_true_iff, !Bool.eqb_true_iff, N.eqb_eq.
  split; [intros (-> & -> & ->); reflexivity|intros E; inversion E; auto].
Qed.

(* what tok_eq compares; two tokens are tok_eq iff these agree (tok_eq_key) *)
Definition tok_key (a : tok) : N * option (bool * bool * N) * list N :=
  if tt a =? tt_ALIAS_PARAMETER then (tt a, option_map (fun x => (t_ref x, t_list x, t_id x)) (ainfo a), [])
  else (tt a, None, if has_literal (tt a) then lit a else []).

Lemma tok_eq_key a b : tok_eq a b = true <-> tok_key a = tok_key b.
Proof.
  unfold tok_eq, tok_key. destruct (N.eqb_spec (tt a) (tt b)) as [E|Hne].
  - rewrite <- E. destruct (tt a =? tt_ALIAS_PARAMETER).
    + destruct (ainfo a), (ainfo b); cbn [option_map]; rewrite ?tinfo_eqb_spec; split; congruence.
    + destruct (has_literal (tt a)); [rewrite lit_eqb_eq|]; split; congruence.
  - split; [discriminate|]. intros H. exfalso. apply Hne.
    destruct (tt a =? tt_ALIAS_PARAMETER), (tt b =? tt_ALIAS_PARAMETER); congruence.
Qed.

Lemma tok_eq_refl a : tok_eq a a = true.
Proof. apply tok_eq_key. reflexivity. Qed.

Lemma tok_eq_sym a b : tok_eq a b = tok_eq b a.
Proof. apply eq_true_iff_eq. rewrite !tok_eq_key. split; congruence. Qed.

Lemma tok_eq_trans a b c : tok_eq a b = true -> tok_eq b c = true -> tok_eq a c = true.
Proof. rewrite !tok_eq_key. congruence. Qed.

Lemma tok_eq_tt a b : tok_eq a b = true -> tt a = tt b.
Proof.
  rewrite tok_eq_key. unfold tok_key. intros H.
  destruct (tt a =? tt_ALIAS_PARAMETER), (tt b =? tt_ALIAS_PARAMETER); congruence.
Qed.

(* the ordering is not consistent with the equality: two distinct Kombinationen that print alike are
   incomparable yet different. This is why a binary search alone loses keys. *)
Definition ph (name id : N) : tok :=
  {| tt := tt_ALIAS_PARAMETER; lit := []; ainfo := Some {| t_ref := false; t_list := false; t_name := name; t_id := id |} |}.

Lemma tok_trichotomy_refuted :
  exists a b, tok_eq a b = false /\ tok_less a b = false /\ tok_less b a = false.
Proof. exists (ph 1 1), (ph 1 2). vm_compute. auto. Qed.
