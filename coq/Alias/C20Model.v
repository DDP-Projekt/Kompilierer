(* Instantiation of the trie model at the real key type (tokens) with integer values, the runners
   used by the correspondence check, the refutation of the binary-search-only lookup and
   non-vacuity examples. *)
From Coq Require Import List NArith.
Import ListNotations.
From DDP Require Import Gen.Tokens Alias.OMap Alias.Trie Alias.TrieProofs Alias.TokKey.
Open Scope N_scope.

(* what the parser's key generator looks at (alias.go:50-53): the child key is an ALIAS_PARAMETER,
   the call token is one of the token kinds that start an argument *)
Definition tok_isph (t : tok) : bool := tt t =? tt_ALIAS_PARAMETER.
Definition tok_isarg (t : tok) : bool :=
  (tt t =? tt_INT) || (tt t =? tt_FLOAT) || (tt t =? tt_TRUE) || (tt t =? tt_FALSE) ||
  (tt t =? tt_CHAR) || (tt t =? tt_STRING) || (tt t =? tt_IDENTIFIER) || (tt t =? tt_SYMBOL).

Lemma tok_isph_congr a b : tok_eq a b = true -> tok_isph a = tok_isph b.
Proof. intros E. unfold tok_isph. rewrite (tok_eq_tt a b E). reflexivity. Qed.

Definition ttrie := trie tok N.
Definition c20_run (ops : list (top tok N)) : list (tout N) := trun tok_eq tok_less tok_isph tok_isarg empty ops.

(* one operation at a time, for the driver (a fork is one operation: Fork inner) *)
Definition c20_step (t : ttrie) (o : top tok N) : ttrie * list (tout N) := tstep tok_eq tok_less tok_isph tok_isarg t o.
Definition c20_empty : ttrie := empty.

(* the lookup by binary search only (OMap.get_strict, the ordered map before its linear fallback) loses the
   third of three print-alike keys *)
Definition lost_map : list (tok * N) :=
  set_strict tok_eq tok_less (set_strict tok_eq tok_less (set_strict tok_eq tok_less [] (ph 1 1) 1) (ph 1 2) 2) (ph 1 3) 3.
Lemma strict_lookup_loses_key :
  In (ph 1 3) (keys lost_map) /\ get_strict tok_eq tok_less lost_map (ph 1 3) = None.
Proof. vm_compute. auto. Qed.

(* ... the lookup with the fallback does not *)
Lemma fallback_lookup_finds_key :
  let m := set tok_eq tok_less (set tok_eq tok_less (set tok_eq tok_less [] (ph 1 1) 1) (ph 1 2) 2) (ph 1 3) 3 in
  get tok_eq tok_less m (ph 1 3) = Some 3.
Proof. vm_compute. reflexivity. Qed.

Definition idt (l : list N) : tok := {| tt := tt_IDENTIFIER; lit := l; ainfo := None |}.

(* non-vacuity: a population with print-alike placeholders, duplicates rejected, all callable *)
Example c20_population :
  c20_run [Declare [idt [122]; ph 1 1] 1; Declare [idt [122]; ph 1 2] 2; Declare [idt [122]; ph 1 3] 3;
           Declare [idt [122]; ph 1 3] 4; Lookup [idt [122]; ph 1 3]; Lookup [idt [122]; ph 1 1]; Lookup [idt [122]]]
  = [Declared; Declared; Declared; Rejected 3; Found (Some 3); Found (Some 1); Found None].
Proof. vm_compute. reflexivity. Qed.

(* non-vacuity of the fork theorems: the generic context Puts a colliding key (and a print-alike
   one, a strict prefix and an extension) into the copy and sees its own values there; the
   original still finds ITS value, still rejects the duplicate and does not see the fork's keys;
   a nested fork sees the outer fork's Put, the outer fork does not see the nested one's *)
Example c20_fork_population :
  c20_run [Declare [idt [122]; ph 1 1] 1; Declare [idt [122]; ph 1 2] 2;
           Fork [Put [idt [122]; ph 1 1] 7; Put [idt [122]; ph 1 3] 8; Put [idt [122]] 9; Put [idt [122]; ph 1 2; idt [97]] 10;
                 Lookup [idt [122]; ph 1 1]; Lookup [idt [122]; ph 1 2];
                 Fork [Lookup [idt [122]; ph 1 1]; Put [idt [122]; ph 1 2] 11; Lookup [idt [122]; ph 1 2]];
                 Lookup [idt [122]; ph 1 2]; Declare [idt [122]; ph 1 1] 12];
           Lookup [idt [122]; ph 1 1]; Declare [idt [122]; ph 1 1] 13; Lookup [idt [122]; ph 1 2];
           Lookup [idt [122]; ph 1 3]; Lookup [idt [122]]; Lookup [idt [122]; ph 1 2; idt [97]];
           Declare [idt [122]; ph 1 3] 14; Lookup [idt [122]; ph 1 3]]
  = [Declared; Declared;
     ForkBegin; PutDone; PutDone; PutDone; PutDone; Found (Some 7); Found (Some 2);
       ForkBegin; Found (Some 7); PutDone; Found (Some 11); ForkEnd;
       Found (Some 2); Rejected 7; ForkEnd;
     Found (Some 1); Rejected 1; Found (Some 2); Found None; Found None; Found None; Declared; Found (Some 14)].
Proof. vm_compute. reflexivity. Qed.

(* the hypotheses of C20_stays_callable / C20_dup_rejected are satisfiable with a fork that Puts
   the declared key in between *)
Example c20_fork_hypotheses :
  let ops1 := [Declare [idt [122]; ph 1 2] 2] in
  let ops2 := [Fork [Put [idt [122]; ph 1 1] 7; Fork [Put [idt [122]; ph 1 1] 8]]; Lookup [idt [122]]; Fork [Put [idt [122]; ph 1 1] 9]] in
  lookup tok_eq tok_less (state_after tok N tok_eq tok_less tok_isph tok_isarg ops1) [idt [122]; ph 1 1] = None /\
  forallb (fun o => negb (is_put o)) ops2 = true /\
  lookup tok_eq tok_less (state_after tok N tok_eq tok_less tok_isph tok_isarg (ops1 ++ Declare [idt [122]; ph 1 1] 1 :: ops2)) [idt [122]; ph 1 1] = Some 1.
Proof. vm_compute. auto. Qed.

(* non-vacuity of the Search theorems: "f b z" and "f <a> q" share the prefix f and have, at the
   same position, a literal identifier and a placeholder. The call "f b q" - its argument is the
   identifier b, equal to the literal word of the sibling - finds the placeholder alias, in both
   declaration orders; "f b z" finds the literal one; a call both patterns accept ("f b" / "f <a>")
   returns both, the literal sibling first (IDENTIFIER sorts before ALIAS_PARAMETER); a
   non-argument token (a comma) does not instantiate the placeholder. *)
Definition comma : tok := {| tt := tt_COMMA; lit := []; ainfo := None |}.
Example c20_search_siblings :
  c20_run [Declare [idt [102]; idt [98]; idt [122]] 1; Declare [idt [102]; ph 1 1; idt [113]] 2;
           Search [idt [102]; idt [98]; idt [113]]; Search [idt [102]; idt [98]; idt [122]; idt [97]];
           Declare [idt [102]; idt [98]] 3; Declare [idt [102]; ph 1 1] 4; Search [idt [102]; idt [98]; idt [113]];
           Search [idt [102]; comma; idt [113]]]
  = [Declared; Declared; Matches (Some [2]); Matches (Some [1]); Declared; Declared; Matches (Some [3; 4; 2]); Matches (Some [])]
  /\ c20_run [Declare [idt [102]; ph 1 1; idt [113]] 2; Declare [idt [102]; idt [98]; idt [122]] 1;
              Search [idt [102]; idt [98]; idt [113]]]
  = [Declared; Declared; Matches (Some [2])].
Proof. vm_compute. auto. Qed.

Example c20_search_hypotheses :
  let ks := [idt [102]; ph 1 1; idt [113]] in
  let ops1 := [Declare [idt [102]; idt [98]; idt [122]] 1] in
  lookup tok_eq tok_less (state_after tok N tok_eq tok_less tok_isph tok_isarg ops1) ks = None /\ ks <> [] /\
  instantiates tok_eq tok_isph tok_isarg ks [idt [102]; idt [98]; idt [113]] = true.
Proof. vm_compute. repeat split; congruence. Qed.
