(* C19 — non-vacuity: every hypothesis of the theorems in Props/C19.v is satisfiable on interesting inputs,
   and the conclusions are the expected concrete values (all by computation). *)
From Coq Require Import List NArith ZArith Bool.
Import ListNotations.
From DDP Require Import Lex.LitUtf8 Lex.Literals.
Open Scope N_scope.

(* body  a \n \\ n ä \DQUOTE 𝄞 \t  : adjacent escapes, an escaped backslash before a letter n, multi-byte neighbours *)
Definition ex_body : list N := [97; 92; 110; 92; 92; 110; 228; 92; 34; 119070; 92; 116].
Example ex_body_valid : forallb valid_cp ex_body = true. Proof. vm_compute. reflexivity. Qed.
Example ex_body_denote : denote 34 ex_body = Some [97; 10; 92; 110; 228; 34; 119070; 9].
Proof. vm_compute. reflexivity. Qed.
Example ex_body_parse :
  parse_string (encode ex_body) = POk [97; 10; 92; 110; 195; 164; 34; 240; 157; 132; 158; 9] 0.
Proof. vm_compute. reflexivity. Qed.
Example ex_body_scanned : scan_string (ex_body ++ [34; 46]) = (Some (ex_body, [46]), 0).
Proof. vm_compute. reflexivity. Qed.

(* an unknown escape \x, an escape of the other literal kind \', and a backslash before a 2-byte character *)
Definition ex_bad : list N := [97; 92; 120; 92; 39; 92; 228].
Example ex_bad_denote : denote 34 ex_bad = None. Proof. vm_compute. reflexivity. Qed.
Example ex_bad_scanned : scan_string (ex_bad ++ [34]) = (Some (ex_bad, []), 3). Proof. vm_compute. reflexivity. Qed.
Example ex_bad_parse : parse_string (encode ex_bad) = POk (encode ex_bad) 3. Proof. vm_compute. reflexivity. Qed.
(* a trailing backslash can only be seen by the parser on its own: the scanner never delimits such a body *)
Example ex_trailing : parse_string [97; 92] = POk [97; 92] 1. Proof. vm_compute. reflexivity. Qed.
Example ex_unterminated : scan_string [97; 92; 34] = (None, 0). Proof. vm_compute. reflexivity. Qed.

Example ex_escape : escape 34 [97; 10; 34; 92; 39; 228] = [97; 92; 110; 92; 34; 92; 92; 39; 228].
Proof. vm_compute. reflexivity. Qed.

(* characters: plain, multi-byte, every escape, a literal line break; rejected: empty, ab, \x, \DQUOTE, \n a *)
Example ex_char_plain : lit_char [240; 157; 132; 158; 39] =
  Build_lit_out true [240; 157; 132; 158] 0 0 [] 119070 0 false.
Proof. vm_compute. reflexivity. Qed.
Example ex_char_escapes :
  map (fun e => (scan_char [92; e; 39], parse_char [92; e])) [97; 98; 110; 114; 116; 39; 92] =
  map (fun ev => ((Some ([92; fst ev], []), 0), (Z.of_N (snd ev), 0)))
      [(97, 7); (98, 8); (110, 10); (114, 13); (116, 9); (39, 39); (92, 92)].
Proof. vm_compute. reflexivity. Qed.
Example ex_char_newline : scan_char [10; 39] = (Some ([10], []), 0). Proof. vm_compute. reflexivity. Qed.
Example ex_char_rejected :
  map (fun s => snd (scan_char s)) [[39]; [97; 98; 39]; [92; 120; 39]; [92; 34; 39]; [92; 110; 97; 39]] = [1; 1; 1; 1; 1].
Proof. vm_compute. reflexivity. Qed.
Example ex_char_parser_rejects : parse_char [92; 34] = (34%Z, 1). Proof. vm_compute. reflexivity. Qed.

(* integers: 2^63-1 accepted, 2^63 and 10^19 and 2^64 rejected, leading zeros *)
Definition digits_of (s : list N) := s.
Example ex_int_max : parse_int_lit [57;50;50;51;51;55;50;48;51;54;56;53;52;55;55;53;56;48;55] = (9223372036854775807, 0).
Proof. vm_compute. reflexivity. Qed.
Example ex_int_over : parse_int_lit [57;50;50;51;51;55;50;48;51;54;56;53;52;55;55;53;56;48;56] = (0, 1).
Proof. vm_compute. reflexivity. Qed.
Example ex_int_2_64 : parse_int [49;56;52;52;54;55;52;52;48;55;51;55;48;57;53;53;49;54;49;54] = NumRange.
Proof. vm_compute. reflexivity. Qed.
Example ex_int_min : negate_int_lit [57;50;50;51;51;55;50;48;51;54;56;53;52;55;55;53;56;48;56] = ((-9223372036854775808)%Z, 0).
Proof. vm_compute. reflexivity. Qed.
Example ex_int_below_min : negate_int_lit [57;50;50;51;51;55;50;48;51;54;56;53;52;55;55;53;56;48;57] = (0%Z, 1).
Proof. vm_compute. reflexivity. Qed.
Example ex_int_neg_max : negate_int_lit [57;50;50;51;51;55;50;48;51;54;56;53;52;55;55;53;56;48;55] = ((-9223372036854775807)%Z, 0).
Proof. vm_compute. reflexivity. Qed.
Example ex_int_zeros : parse_int_lit [48; 48; 48; 52; 50] = (42, 0). Proof. vm_compute. reflexivity. Qed.

(* decimals: 0,1 and 0,3 have the hardware bit patterns; 2^53+1 written out rounds to even *)
Example ex_float_01 : option_map sf_bits (match parse_float [48; 44; 49] with FOk f => Some f | _ => None end)
                      = Some 4591870180066957722%Z.
Proof. vm_compute. reflexivity. Qed.
Example ex_float_tie : option_map sf_bits (match parse_float [57;48;48;55;49;57;57;50;53;52;55;52;48;57;57;51;44;48] with FOk f => Some f | _ => None end)
                      = Some 4845873199050653696%Z.
Proof. vm_compute. reflexivity. Qed.
