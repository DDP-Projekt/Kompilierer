(* C13 — kinds: every token is the first_token of the source from its start on (soundness); the rules of ScanSpec
   are deterministic (first_token_unique), hence completeness; readings by type, munch, the rules read forwards. *)
From Coq Require Import List PeanoNat NArith Bool Lia.
Import ListNotations.
From DDP Require Import Gen.Tokens Lex.ScanModel Lex.ScanSpec Lex.ScanRules Lex.ScanProofs.
Open Scope N_scope.

Theorem scan_first m l0 c0 i0 src ts : scan_from m l0 c0 i0 src = Some ts ->
  Forall (fun t => first_token m (skipn (N.to_nat (tstart t)) src) (ty t) (sub src (tstart t) (tend t))) ts.
Proof.
  unfold scan_from. intros H. eapply scanAll_Forall; [|exact H|apply at_off_start]. clear. intros s t s' O T.
  destruct (token_frame _ _ _ _ _ O T) as (ws & mid & s0 & _ & (_ & Tk & K & Mx) & _ & (_ & Bd & Sk & _)).
  rewrite Tk. cbn [tstart tend ty mkToken]. rewrite Bd, Sk. exists (rest s'). auto.
Qed.

Theorem scan_kinds m l0 c0 i0 src ts : scan_from m l0 c0 i0 src = Some ts -> Forall (kind_ok m src) ts.
Proof.
  unfold scan_from. intros H. eapply scanAll_Forall; [|exact H|apply at_off_start]. clear. intros s t s' O T.
  destruct (token_frame _ _ _ _ _ O T) as (ws & mid & s0 & _ & (_ & Tk & K & _) & _ & ((pre & -> & Hc) & Bd & _)).
  unfold kind_ok. rewrite Tk. cbn [tstart tend ty mkToken]. rewrite Bd.
  eapply class_ok_mono; [|exact K]. intros ->. rewrite app_nil_r. exact Hc.
Qed.

Definition munch_ok (src : list N) (t : token) : Prop :=
  forall c r d, sub src (tstart t) (tend t) = c :: r -> nth_error src (N.to_nat (tend t)) = Some d ->
    (isAlpha c = true -> isAlphaNumeric d = false) /\ (isDigit c = true -> isDigit d = false).

Theorem scan_munch m l0 c0 i0 src ts : scan_from m l0 c0 i0 src = Some ts -> Forall (munch_ok src) ts.
Proof.
  unfold scan_from. intros H. eapply scanAll_Forall; [|exact H|apply at_off_start]. clear. intros s t s' O T.
  destruct (token_frame _ _ _ _ _ O T) as (ws & mid & s0 & _ & (_ & Tk & _ & Mx) & _ & ((pre & -> & Hc) & Bd & _)).
  unfold munch_ok. rewrite Tk. cbn [tstart tend mkToken]. rewrite Bd, Hc. intros c r d -> Nx.
  unfold len in Nx. rewrite Nat2N.id, nth_error_app2, Nat.sub_diag in Nx by lia.
  destruct (rest s') as [|d' t']; inv Nx. destruct Mx as (_ & Ma & Md & _). split; intros X; [apply (Ma c r)|apply (Md c r)]; auto.
Qed.

(* ---- uniqueness of the decompositions the rules speak about ---- *)
Lemma span_unique (p : N -> bool) : forall a b ta tb,
  Forall (fun c => p c = true) a -> Forall (fun c => p c = true) b ->
  hd_sat ta p = false -> hd_sat tb p = false -> a ++ ta = b ++ tb -> a = b /\ ta = tb.
Proof.
  induction a as [|x a IH]; intros [|y b] ta tb Fa Fb Ha Hb E; cbn in E.
  - auto.
  - subst ta. inv Fb. cbn in Ha. congruence.
  - subst tb. inv Fa. cbn in Hb. congruence.
  - inv E. inv Fa. inv Fb. destruct (IH b ta tb) as [-> ->]; auto.
Qed.

Lemma qbody_head q c r : q <> 92 -> qbody q (c :: r) -> c <> q.
Proof. intros Hq H. inversion H; subst; auto. Qed.

Lemma qbody_unique q : q <> 92 -> forall b1, qbody q b1 -> forall b2 t1 t2, qbody q b2 ->
  b1 ++ q :: t1 = b2 ++ q :: t2 -> b1 = b2.
Proof.
  intros Hq b1 H1. induction H1 as [|c r Hc1 Hc2 H1 IH|c r H1 IH]; intros b2 t1 t2 H2 E.
  - destruct b2 as [|y b2]; auto. cbn in E. injection E as Ey _. subst y. exfalso. apply (qbody_head q q b2); auto.
  - destruct H2 as [|c' r' Hd1 Hd2 H2|c' r' H2]; cbn in E.
    + inv E. congruence.
    + inv E. f_equal. eapply IH; eauto.
    + inv E. congruence.
  - destruct H2 as [|c' r' Hd1 Hd2 H2|c' r' H2]; cbn in E.
    + inv E. congruence.
    + inv E. congruence.
    + inv E. do 2 f_equal. eapply IH; eauto.
Qed.

Lemma qbody_not_qopen q : q <> 92 -> forall b, qbody q b -> forall t, qopen q (b ++ q :: t) -> False.
Proof.
  intros Hq b H. induction H as [|c r Hc1 Hc2 H IH|c r H IH]; intros t O; cbn in O.
  - inversion O; subst; congruence.
  - inversion O; subst; try congruence; eapply IH; eauto.
  - inversion O; subst; try congruence; eapply IH; eauto.
Qed.

Lemma depth_after_app : forall x y d,
  depth_after d (x ++ y) = match depth_after d x with Some d' => depth_after d' y | None => None end.
Proof.
  induction x as [|c x IH]; intros y d; cbn; auto.
  destruct (d =? 0); auto.
Qed.
Lemma depth_after_zero c r : depth_after 0 (c :: r) = None.
Proof. reflexivity. Qed.

(* a comment ends at its closing bracket or at the end of the source: two such prefixes coincide *)
Lemma comment_unique b1 b2 t1 t2 d1 d2 :
  b1 ++ t1 = b2 ++ t2 -> depth_after 1 b1 = Some d1 -> depth_after 1 b2 = Some d2 ->
  (d1 = 0 \/ t1 = []) -> (d2 = 0 \/ t2 = []) -> b1 = b2.
Proof.
  intros E D1 D2 X1 X2. apply app_eq_app in E. destruct E as (z & [[E1 E2]|[E1 E2]]).
  - destruct z as [|c z]; [rewrite app_nil_r in E1; auto|]. exfalso.
    subst b1. rewrite depth_after_app, D2 in D1.
    destruct X2 as [ -> | -> ]; [rewrite depth_after_zero in D1; discriminate D1|discriminate E2].
  - destruct z as [|c z]; [rewrite app_nil_r in E1; auto|]. exfalso.
    subst b2. rewrite depth_after_app, D1 in D2.
    destruct X1 as [ -> | -> ]; [rewrite depth_after_zero in D2; discriminate D2|discriminate E2].
Qed.

Lemma first62_unique b1 b2 t1 t2 : ~ In 62 b1 -> ~ In 62 b2 -> b1 ++ 62 :: t1 = b2 ++ 62 :: t2 -> b1 = b2.
Proof.
  revert b2. induction b1 as [|x b1 IH]; intros [|y b2] N1 N2 E; cbn in E; auto.
  - inv E. exfalso. apply N2. cbn. auto.
  - inv E. exfalso. apply N1. cbn. auto.
  - inv E. f_equal. apply IH; auto; intros I; [apply N1|apply N2]; cbn; auto.
Qed.

(* ---- the rules read by the first character, in the order in which NextToken looks at it ---- *)
Definition single_type (c : N) : N :=
  if c =? 45 then tt_NEGATE else if c =? 44 then tt_COMMA else if c =? 58 then tt_COLON
  else if c =? 40 then tt_LPAREN else if c =? 41 then tt_RPAREN else tt_SYMBOL.

Definition head_spec (m : mode) (P : Prop) (k c : N) (l : list N) : Prop :=
  if isAlpha c then
    Forall (fun c => isAlphaNumeric c = true) l /\ k = match keyword_type (c :: l) with Some v => v | None => tt_IDENTIFIER end
  else if isDigit c then
    (k = tt_INT /\ Forall (fun c => isDigit c = true) l) \/
    (k = tt_FLOAT /\ exists a b, l = a ++ 44 :: b /\ Forall (fun c => isDigit c = true) a /\ digits b)
  else if (c =? 34) || (c =? 39) then
    (k = (if c =? 34 then tt_STRING else tt_CHAR) /\ exists b, l = b ++ [c] /\ qbody c b) \/ (k = tt_ILLEGAL /\ qopen c l /\ P)
  else if c =? 91 then k = tt_COMMENT /\ exists d, depth_after 1 l = Some d /\ (d = 0 \/ P)
  else if (c =? 60) && (match m with Alias => true | Normal => false end) then
    k = tt_ALIAS_PARAMETER /\ ((exists b, l = b ++ [62] /\ ~ In 62 b) \/ (~ In 62 l /\ P))
  else if c =? 46 then (k = tt_ELIPSIS /\ l = [46; 46]) \/ (k = tt_DOT /\ l = [])
  else l = [] /\ k = single_type c.

Lemma class_ok_head m P k c l : class_ok m P k (c :: l) -> head_spec m P k c l.
Proof.
  intros H. unfold head_spec. remember (c :: l) as cl eqn:E.
  destruct H as [ | l0 [_ D] | a b [Na Fa] Db | l0 W K | l0 v W K | l0 Q | l0 Q | q b Hq Ho HP | b d Dd X | b Hm Nn | b Hm Nn HP
                 | | | | | | | | c0 A1 A2 A3 A4 A5 ]; try (inv E; cbn; eauto; fail).
  - subst l0. inversion D as [|? ? Dc Dl]; subst.
    destruct (isAlpha c) eqn:A; [destruct (alpha_not_digit c); assumption|]. rewrite Dc. auto.
  - destruct a as [|x a]; [congruence|]. inv E. inversion Fa as [|? ? Dc Dl]; subst.
    destruct (isAlpha c) eqn:A; [destruct (alpha_not_digit c); assumption|]. rewrite Dc. right. eauto 6.
  - destruct W as (x & r & E' & A & AN). subst l0. inv E'. rewrite A, K. auto.
  - destruct W as (x & r & E' & A & AN). subst l0. inv E'. rewrite A, K. auto.
  - destruct Q as (b & E' & Q). subst l0. inv E'. cbn. left. eauto.
  - destruct Q as (b & E' & Q). subst l0. inv E'. cbn. left. eauto.
  - inv E. destruct Hq; subst; cbn; auto.
  - inv E.
    assert (Hn : forall x, In x [45; 46; 44; 58; 40; 41; 34; 39; 91] -> (c =? x) = false)
      by (intros x Hx; apply N.eqb_neq; intros ->; contradiction).
    rewrite A1, A2. rewrite (Hn 34), (Hn 39), (Hn 91), (Hn 46) by (cbn; tauto). cbn [orb].
    replace ((c =? 60) && match m with Alias => true | Normal => false end) with false.
    + unfold single_type. rewrite (Hn 45), (Hn 44), (Hn 58), (Hn 40), (Hn 41) by (cbn; tauto). auto.
    + destruct (c =? 60) eqn:E60; [|reflexivity]. apply N.eqb_eq in E60. rewrite (A5 E60). reflexivity.
Qed.

Lemma int_not_float l a b t1 t2 :
  Forall (fun c => isDigit c = true) l -> Forall (fun c => isDigit c = true) a -> digits b ->
  hd_sat t1 isDigit = false -> (forall d t', t1 = 44 :: d :: t' -> isDigit d = false) ->
  l ++ t1 = (a ++ 44 :: b) ++ t2 -> False.
Proof.
  intros Fl Fa [Nb Fb] X N44 E. rewrite <- app_assoc in E.
  destruct (span_unique isDigit l a t1 ((44 :: b) ++ t2)) as [_ Et]; auto.
  destruct b as [|d b]; [congruence|]. inv Fb.
  assert (isDigit d = false) by (apply (N44 d (b ++ t2)); reflexivity). congruence.
Qed.

Theorem first_token_unique m r k1 l1 k2 l2 :
  first_token m r k1 l1 -> first_token m r k2 l2 -> k1 = k2 /\ l1 = l2.
Proof.
  intros (t1 & E1 & K1 & M1) (t2 & E2 & K2 & M2).
  destruct l1 as [|c l1], l2 as [|c' l2].
  - apply class_ok_nil in K1. apply class_ok_nil in K2. subst. auto.
  - rewrite (proj1 M1 eq_refl) in E1. rewrite E1 in E2. discriminate E2.
  - rewrite (proj1 M2 eq_refl) in E2. rewrite E2 in E1. discriminate E1.
  - subst r. cbn in E2. injection E2 as <- E.
    apply class_ok_head in K1. apply class_ok_head in K2. unfold head_spec in *.
    destruct M1 as (_ & Ma1 & Md1 & Mf1 & Mp1). destruct M2 as (_ & Ma2 & Md2 & Mf2 & Mp2).
    destruct (isAlpha c) eqn:A.
    { destruct K1 as [F1 ->]. destruct K2 as [F2 ->].
      destruct (span_unique isAlphaNumeric l1 l2 t1 t2) as [-> _]; eauto. }
    destruct (isDigit c) eqn:D.
    { specialize (Md1 c l1 eq_refl D). specialize (Md2 c l2 eq_refl D).
      destruct K1 as [(-> & F1)|(-> & a1 & b1 & -> & Fa1 & Db1)]; destruct K2 as [(-> & F2)|(-> & a2 & b2 & -> & Fa2 & Db2)].
      - destruct (span_unique isDigit l1 l2 t1 t2) as [-> _]; auto.
      - exfalso. apply (int_not_float l1 a2 b2 t1 t2); auto. apply Mf1. split; [discriminate|constructor; auto].
      - exfalso. apply (int_not_float l2 a1 b1 t2 t1); auto. apply Mf2. split; [discriminate|constructor; auto].
      - rewrite <- !app_assoc in E.
        destruct (span_unique isDigit a1 a2 ((44 :: b1) ++ t1) ((44 :: b2) ++ t2)) as [-> Et]; auto.
        cbn in Et. injection Et as Et. destruct Db1 as [_ Fb1]. destruct Db2 as [_ Fb2].
        destruct (span_unique isDigit b1 b2 t1 t2) as [-> _]; auto. }
    destruct ((c =? 34) || (c =? 39)) eqn:Q.
    { assert (Hq : c <> 92) by (apply orb_prop in Q; destruct Q as [Q|Q]; apply N.eqb_eq in Q; subst; discriminate).
      destruct K1 as [(-> & b1 & -> & Q1)|(-> & O1 & ->)]; destruct K2 as [(-> & b2 & -> & Q2)|(-> & O2 & ->)];
        rewrite <- ?app_assoc, ?app_nil_r in E; cbn [app] in E.
      - rewrite (qbody_unique c Hq b1 Q1 b2 t1 t2 Q2 E). auto.
      - exfalso. subst l2. eapply qbody_not_qopen; eauto.
      - exfalso. subst l1. eapply qbody_not_qopen; eauto.
      - subst. auto. }
    destruct (c =? 91) eqn:E91.
    { destruct K1 as (-> & d1 & D1 & X1). destruct K2 as (-> & d2 & D2 & X2).
      rewrite (comment_unique l1 l2 t1 t2 d1 d2); auto. }
    destruct ((c =? 60) && match m with Alias => true | Normal => false end).
    { destruct K1 as (-> & [(b1 & -> & N1)|(N1 & ->)]); destruct K2 as (-> & [(b2 & -> & N2)|(N2 & ->)]);
        rewrite <- ?app_assoc, ?app_nil_r in E; cbn [app] in E.
      - rewrite (first62_unique b1 b2 t1 t2 N1 N2 E). auto.
      - exfalso. apply N2. subst l2. apply in_or_app. right. left. reflexivity.
      - exfalso. apply N1. subst l1. apply in_or_app. right. left. reflexivity.
      - subst. auto. }
    destruct (c =? 46) eqn:E46.
    { apply N.eqb_eq in E46. subst c.
      destruct K1 as [(-> & ->)|(-> & ->)]; destruct K2 as [(-> & ->)|(-> & ->)]; auto; exfalso; cbn in E.
      - apply (Mp2 eq_refl t1). auto.
      - apply (Mp1 eq_refl t2). auto. }
    destruct K1 as [-> ->]. destruct K2 as [-> ->]. auto.
Qed.

Theorem scan_kind_complete m l0 c0 i0 src ts : scan_from m l0 c0 i0 src = Some ts ->
  Forall (fun t => forall k l, first_token m (skipn (N.to_nat (tstart t)) src) k l <->
                              (k = ty t /\ l = sub src (tstart t) (tend t))) ts.
Proof.
  intros H. eapply Forall_impl; [|exact (scan_first _ _ _ _ _ _ H)].
  intros t Ft k l. split; [intros Fk; exact (first_token_unique _ _ _ _ _ _ Fk Ft)|]. intros [-> ->]. exact Ft.
Qed.

(* ---- reading the classification by type ---- *)
Lemma class_readings m (P : Prop) l :
  (class_ok m P tt_INT l -> digits l) /\
  (class_ok m P tt_FLOAT l -> exists a b, l = a ++ 44 :: b /\ digits a /\ digits b) /\
  (class_ok m P tt_IDENTIFIER l -> word l /\ keyword_type l = None) /\
  (class_ok m P tt_STRING l -> quoted_lit 34 l) /\
  (class_ok m P tt_CHAR l -> quoted_lit 39 l) /\
  (class_ok m P tt_COMMENT l -> exists b d, l = 91 :: b /\ depth_after 1 b = Some d /\ (d = 0 \/ P)).
Proof.
  split; [|split; [|split; [|split; [|split]]]]; intros H; inversion H; subst; eauto; try discriminate; no_kw.
Qed.
Lemma class_keyword m P t l : ~ In t special_types -> class_ok m P t l -> word l /\ keyword_type l = Some t.
Proof.
  intros NS H. inversion H; subst; auto; exfalso; apply NS; cbn; tauto.
Qed.
Lemma class_word m P t l : word l -> class_ok m P t l ->
  match keyword_type l with Some v => t = v | None => t = tt_IDENTIFIER end.
Proof.
  intros (c & r & -> & A & _) H. apply class_ok_head in H. unfold head_spec in H. rewrite A in H.
  destruct H as [_ ->]. destruct (keyword_type (c :: r)); reflexivity.
Qed.

(* ---- the rules in the forward direction: shapes of a source suffix that ARE a first_token ---- *)
Lemma ft_intro m l tail k : class_ok m (tail = []) k l -> maximal l tail -> first_token m (l ++ tail) k l.
Proof. intros K M. exists tail. auto. Qed.

Lemma digits_head l : digits l -> exists c r, l = c :: r /\ isDigit c = true /\ Forall (fun c => isDigit c = true) r.
Proof. intros [N F]. destruct l as [|c r]; [congruence|]. inv F. eauto. Qed.

Lemma ft_int m l tail : digits l -> hd_sat tail isDigit = false ->
  (forall d t', tail = 44 :: d :: t' -> isDigit d = false) -> first_token m (l ++ tail) tt_INT l.
Proof.
  intros D X N44. apply ft_intro; [apply K_int; auto|].
  destruct (digits_head _ D) as (c & r & -> & Dc & _). apply maximal_number; auto.
Qed.

Lemma ft_float m a b tail : digits a -> digits b -> hd_sat tail isDigit = false ->
  first_token m (a ++ 44 :: b ++ tail) tt_FLOAT (a ++ 44 :: b).
Proof.
  intros Da Db X. replace (a ++ 44 :: b ++ tail) with ((a ++ 44 :: b) ++ tail) by (rewrite <- app_assoc; reflexivity).
  apply ft_intro; [apply K_float; auto|].
  destruct (digits_head _ Da) as (c & r & -> & Dc & _). apply maximal_number; auto.
  intros F. apply Forall_app in F. destruct F as [_ F]. inv F. discriminate.
Qed.

Lemma ft_word m l tail : word l -> hd_sat tail isAlphaNumeric = false ->
  first_token m (l ++ tail) (match keyword_type l with Some v => v | None => tt_IDENTIFIER end) l.
Proof.
  intros W X. apply ft_intro.
  - destruct (keyword_type l) eqn:K; [apply K_keyword|apply K_ident]; auto.
  - destruct W as (c & r & -> & A & AN). apply maximal_word; auto.
Qed.

Lemma ft_quoted m q okty b tail : (q = 34 /\ okty = tt_STRING) \/ (q = 39 /\ okty = tt_CHAR) -> qbody q b ->
  first_token m (q :: b ++ q :: tail) okty (q :: b ++ [q]).
Proof.
  intros Hq Q. replace (q :: b ++ q :: tail) with ((q :: b ++ [q]) ++ tail) by (cbn; rewrite <- app_assoc; reflexivity).
  destruct Hq as [[-> ->]|[-> ->]]; (apply ft_intro; [first [apply K_string | apply K_char]; exists b; auto|apply maximal_other; auto; discriminate]).
Qed.

Lemma ft_illegal m q b : q = 34 \/ q = 39 -> qopen q b -> first_token m (q :: b) tt_ILLEGAL (q :: b).
Proof.
  intros Hq Q. rewrite <- (app_nil_r (q :: b)) at 1. apply ft_intro; [apply K_illegal; auto|].
  destruct Hq as [-> | ->]; apply maximal_other; auto; discriminate.
Qed.

Lemma ft_comment m b tail : depth_after 1 b = Some 0 -> first_token m (91 :: b ++ tail) tt_COMMENT (91 :: b).
Proof.
  intros D. apply (ft_intro m (91 :: b)); [eapply K_comment; eauto|apply maximal_other; auto; discriminate].
Qed.
Lemma ft_comment_open m b d : depth_after 1 b = Some d -> first_token m (91 :: b) tt_COMMENT (91 :: b).
Proof.
  intros D. rewrite <- (app_nil_r (91 :: b)) at 1.
  apply ft_intro; [eapply K_comment; eauto|apply maximal_other; auto; discriminate].
Qed.

Lemma ft_apar b tail : ~ In 62 b -> first_token Alias (60 :: b ++ 62 :: tail) tt_ALIAS_PARAMETER (60 :: b ++ [62]).
Proof.
  intros N. replace (60 :: b ++ 62 :: tail) with ((60 :: b ++ [62]) ++ tail) by (cbn; rewrite <- app_assoc; reflexivity).
  apply ft_intro; [apply K_apar; auto|apply maximal_other; auto; discriminate].
Qed.
Lemma ft_apar_open b : ~ In 62 b -> first_token Alias (60 :: b) tt_ALIAS_PARAMETER (60 :: b).
Proof.
  intros N. rewrite <- (app_nil_r (60 :: b)) at 1.
  apply ft_intro; [apply K_apar_open; auto|apply maximal_other; auto; discriminate].
Qed.

Lemma ft_single m c ty tail : isAlpha c = false -> isDigit c = false -> c <> 46 ->
  class_ok m (tail = []) ty [c] -> first_token m (c :: tail) ty [c].
Proof. intros A D N K. apply (ft_intro m [c]); [exact K|]. apply maximal_other; auto. Qed.

Lemma ft_punct m tail :
  first_token m (45 :: tail) tt_NEGATE [45] /\ first_token m (44 :: tail) tt_COMMA [44] /\ first_token m (58 :: tail) tt_COLON [58] /\
  first_token m (40 :: tail) tt_LPAREN [40] /\ first_token m (41 :: tail) tt_RPAREN [41] /\
  first_token m (46 :: 46 :: 46 :: tail) tt_ELIPSIS [46; 46; 46] /\
  ((forall t', tail <> 46 :: 46 :: t') -> first_token m (46 :: tail) tt_DOT [46]).
Proof.
  split; [apply ft_single; auto; [discriminate|apply K_negate]|].
  split; [apply ft_single; auto; [discriminate|apply K_comma]|].
  split; [apply ft_single; auto; [discriminate|apply K_colon]|].
  split; [apply ft_single; auto; [discriminate|apply K_lparen]|].
  split; [apply ft_single; auto; [discriminate|apply K_rparen]|].
  split.
  - apply (ft_intro m [46; 46; 46]); [apply K_elipsis|apply maximal_other; auto; discriminate].
  - intros N. apply (ft_intro m [46]); [apply K_dot|apply maximal_other; auto].
Qed.

Lemma ft_symbol m c tail : isAlpha c = false -> isDigit c = false -> ~ blank c ->
  ~ In c [45; 46; 44; 58; 40; 41; 34; 39; 91] -> (c = 60 -> m = Normal) -> first_token m (c :: tail) tt_SYMBOL [c].
Proof.
  intros A D B N M. apply ft_single; auto; [|apply K_symbol; auto]. intros ->. apply N. cbn. auto.
Qed.

(* capitalised umlaut keywords: Überlädt, Öffentliche are the keywords überlädt, öffentliche *)
Example umlaut_keywords :
  keyword_type [220;98;101;114;108;228;100;116] = lookup keyword_table [252;98;101;114;108;228;100;116] /\
  lookup keyword_table [252;98;101;114;108;228;100;116] <> None /\
  keyword_type [214;102;102;101;110;116;108;105;99;104;101] = lookup keyword_table [246;102;102;101;110;116;108;105;99;104;101] /\
  lookup keyword_table [246;102;102;101;110;116;108;105;99;104;101] <> None.
Proof. vm_compute. repeat split; discriminate. Qed.

(* non-vacuity of the hypothesis of the completeness theorem: "1,5 x" starts with the FLOAT 1,5 *)
Example first_token_sample : first_token Normal ([49] ++ 44 :: [53] ++ [32; 120]) tt_FLOAT ([49] ++ 44 :: [53]).
Proof. apply ft_float; [split; [discriminate|repeat constructor]|split; [discriminate|repeat constructor]|reflexivity]. Qed.
