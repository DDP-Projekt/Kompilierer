(* C13 — proofs about ScanModel: one lemma per loop and sub-scanner (with fuel beyond the length left it returns,
   and what it consumed, how position and indentation moved); NextToken yields the first_token of the rest. *)
From Coq Require Import List NArith Bool Lia.
Import ListNotations.
From DDP Require Import Gen.Tokens Lex.ScanModel Lex.ScanSpec Lex.ScanRules Lex.ScanIndent.
Open Scope N_scope.

Lemma skipn_len_app (a b : list N) : skipn (length a) (a ++ b) = b.
Proof. induction a; cbn; auto. Qed.
Lemma firstn_len_app (a b : list N) : firstn (length a) (a ++ b) = a.
Proof. induction a; cbn; congruence. Qed.
Lemma len_app a b : len (a ++ b) = len a + len b.
Proof. unfold len. rewrite app_length. lia. Qed.
Lemma sub_app pre x post a b : a = len pre -> b = len pre + len x -> sub (pre ++ x ++ post) a b = x.
Proof.
  intros -> ->. unfold sub, len.
  replace (N.to_nat (N.of_nat (length pre) + N.of_nat (length x) - N.of_nat (length pre))) with (length x) by lia.
  rewrite Nat2N.id, skipn_len_app, firstn_len_app. reflexivity.
Qed.

(* relations between two scanner states: s' is s after the characters mid *)
Definition Consumed (s s' : st) (mid : list N) : Prop := rest s = mid ++ rest s' /\ cur s' = cur s + len mid.
Definition PosR (s s' : st) (mid : list N) : Prop := (line s', col s') = pos_after (line s, col s) mid.
Definition IndR (s s' : st) (mid : list N) : Prop := (indent s', shi s') = fold_left tok_ind mid (indent s, shi s).
(* between tokens only Move holds (skipWhitespace counts the depth up), inside a token Step *)
Definition Move (s s' : st) (mid : list N) : Prop := Consumed s s' mid /\ PosR s s' mid.
Definition Step (s s' : st) (mid : list N) : Prop := Move s s' mid /\ IndR s s' mid.

Lemma Move_refl s : Move s s [].
Proof. split; [split; [reflexivity|]|reflexivity]. unfold len; cbn; lia. Qed.
Lemma Move_trans s s1 s2 m1 m2 : Move s s1 m1 -> Move s1 s2 m2 -> Move s s2 (m1 ++ m2).
Proof.
  intros [[R1 C1] P1] [[R2 C2] P2]. split; [split|].
  - rewrite R1, R2, app_assoc. reflexivity.
  - rewrite len_app. lia.
  - unfold PosR, pos_after in *. rewrite fold_left_app, <- P1. exact P2.
Qed.
Lemma Step_refl s : Step s s [].
Proof. split; [apply Move_refl|reflexivity]. Qed.
Lemma Step_trans s s1 s2 m1 m2 : Step s s1 m1 -> Step s1 s2 m2 -> Step s s2 (m1 ++ m2).
Proof.
  intros [M1 I1] [M2 I2]. split; [eapply Move_trans; eauto|].
  unfold IndR in *. rewrite fold_left_app, <- I1. exact I2.
Qed.
Lemma Step_Consumed s s' mid : Step s s' mid -> Consumed s s' mid.
Proof. intros [[C _] _]. exact C. Qed.
Lemma Consumed_length s s' mid : Consumed s s' mid -> (length (rest s) = length mid + length (rest s'))%nat.
Proof. intros [R _]. rewrite R, app_length. reflexivity. Qed.

Lemma adv_eq s c r : rest s = c :: r ->
  adv s = mkst r (cur s + 1) (line s) (col s + 1) (indent s) (shi s && isSpace c).
Proof. intros H. unfold adv, advance. rewrite H. reflexivity. Qed.

Lemma adv_Move s c r : rest s = c :: r -> c <> 10 -> Move s (adv s) [c].
Proof.
  intros R Hc. rewrite (adv_eq _ _ _ R). split; [split; [exact R|reflexivity]|].
  unfold PosR, pos_after, adv_pos. cbn. rewrite (proj2 (N.eqb_neq c 10) Hc). reflexivity.
Qed.
Lemma adv_Step s c r : rest s = c :: r -> c <> 10 -> Step s (adv s) [c].
Proof.
  intros R Hc. split; [eapply adv_Move; eauto|]. rewrite (adv_eq _ _ _ R).
  unfold IndR, tok_ind. cbn. rewrite (proj2 (N.eqb_neq c 10) Hc). reflexivity.
Qed.
(* a line feed is always advanced over behind increaseLineBeforeAdvance *)
Lemma nl_Step s r : rest s = 10 :: r -> Step s (adv (increaseLine s)) [10].
Proof. intros R. rewrite (adv_eq (increaseLine s) 10 r R). split; [split; [split; [exact R|]|]|]; reflexivity. Qed.

Definition Progress (s s' : st) : Prop := exists mid, mid <> [] /\ Consumed s s' mid.
Lemma Progress_shorter s s' : Progress s s' -> (length (rest s') < length (rest s))%nat.
Proof. intros (mid & Hm & C). apply Consumed_length in C. destruct mid; [congruence|]. cbn in C. lia. Qed.
Lemma Step_Progress s s' mid : mid <> [] -> Step s s' mid -> Progress s s'.
Proof. intros N St. exists mid. split; [exact N|apply Step_Consumed; exact St]. Qed.

Lemma iter_total {A} (body : A -> st -> option (A * st)) (Q : A -> st -> A -> st -> Prop) :
  (forall a s, body a s = None -> Q a s a s) ->
  (forall a s a1 s1, body a s = Some (a1, s1) -> Progress s s1 /\ forall a' s', Q a1 s1 a' s' -> Q a s a' s') ->
  forall fuel a s, (length (rest s) < fuel)%nat -> exists a' s', iter body fuel a s = Some (a', s') /\ Q a s a' s'.
Proof.
  intros Hn Hs fuel. induction fuel as [|f IH]; intros a s Hl; [lia|]. cbn.
  destruct (body a s) as [[a1 s1]|] eqn:E; [|eauto].
  destruct (Hs _ _ _ _ E) as [P K]. apply Progress_shorter in P.
  destruct (IH a1 s1) as (a' & s' & E' & HQ); [lia|]. eauto.
Qed.

Lemma peek_rest s c : peek s = Some c -> exists r, rest s = c :: r.
Proof. unfold peek. destruct (rest s); intros H; inversion H; eauto. Qed.
Lemma peek_none s : peek s = None -> rest s = [].
Proof. unfold peek. destruct (rest s); intros H; [auto|discriminate H]. Qed.
Lemma atEnd_true s : atEnd s = true -> rest s = [].
Proof. unfold atEnd. destruct (rest s); intros H; [auto|discriminate H]. Qed.
Lemma atEnd_false s : atEnd s = false -> exists c r, rest s = c :: r.
Proof. unfold atEnd. destruct (rest s); intros H; [discriminate H|eauto]. Qed.
Lemma is_true_Some o c : is o c = true -> o = Some c.
Proof. destruct o; cbn; intros H; [apply N.eqb_eq in H; subst; auto|discriminate H]. Qed.
Lemma sat_some o p : sat o p = true -> exists c, o = Some c /\ p c = true.
Proof. destruct o; cbn; intros H; [eauto|discriminate H]. Qed.
Lemma sat_peek s p : sat (peek s) p = hd_sat (rest s) p.
Proof. unfold peek. destruct (rest s); reflexivity. Qed.
(* behind an ASCII character peekNext is the second character (the RuneError quirk needs a multi-byte last one) *)
Lemma sat_peekNext s a r p : rest s = a :: r -> a < 128 -> sat (peekNext s) p = hd_sat r p.
Proof.
  intros R Ha. unfold peekNext. rewrite R. destruct r; [|reflexivity].
  rewrite (proj2 (N.ltb_lt a 128) Ha). reflexivity.
Qed.
Lemma dots_true s : is (peek s) 46 && is (peekNext s) 46 = true -> exists r, rest s = 46 :: 46 :: r.
Proof.
  unfold peek, peekNext. destruct (rest s) as [|a [|b r]]; cbn [is]; intros H.
  - discriminate H.
  - destruct (a <? 128); cbn [is] in H; rewrite andb_false_r in H; discriminate H.
  - apply andb_true_iff in H. destruct H as [Ea Eb]. apply N.eqb_eq in Ea. apply N.eqb_eq in Eb. subst. eauto.
Qed.
Lemma dots_false s : is (peek s) 46 && is (peekNext s) 46 = false -> forall r, rest s <> 46 :: 46 :: r.
Proof. intros G r R. unfold peek, peekNext in G. rewrite R in G. discriminate G. Qed.

Lemma ws_body_none cnt s : ws_body cnt s = None -> forall c, peek s = Some c -> ~ blank c.
Proof.
  intros H c P B. unfold ws_body in H. rewrite P in H.
  destruct B as [ -> | [ -> | [ -> | -> ] ] ]; cbn in H; try discriminate H. destruct (shi s && _); discriminate H.
Qed.

Lemma ws_body_step cnt s cnt1 s1 : ws_body cnt s = Some (cnt1, s1) ->
  exists c, blank c /\ Move s s1 [c] /\
    forall ws, gapd (shi s) (indent s) cnt (c :: ws) = gapd (shi s1) (indent s1) cnt1 ws.
Proof.
  unfold ws_body. intros H. destruct (peek s) as [c|] eqn:P; [|discriminate H].
  destruct (peek_rest _ _ P) as [r R]. exists c.
  destruct (c =? 32) eqn:E32.
  { apply N.eqb_eq in E32; subst c. split; [left; auto|]. cbn [gapd N.eqb Pos.eqb].
    destruct (shi s && (cnt + 1 =? 4)) eqn:G; inv H.
    - split; [exact (adv_Move (incIndent s) 32 r R ltac:(discriminate))|].
      intros ws. rewrite (adv_eq (incIndent s) 32 r R). cbn. rewrite andb_true_r. reflexivity.
    - split; [eapply adv_Move; eauto; discriminate|].
      intros ws. rewrite (adv_eq s 32 r R). cbn. rewrite andb_true_r. reflexivity. }
  destruct (c =? 13) eqn:E13.
  { apply N.eqb_eq in E13; subst c. inv H. split; [right; right; left; auto|].
    split; [eapply adv_Move; eauto; discriminate|].
    intros ws. rewrite (adv_eq s 13 r R). cbn. rewrite andb_true_r. reflexivity. }
  destruct (c =? 9) eqn:E9.
  { apply N.eqb_eq in E9; subst c. inv H. split; [right; left; auto|]. destruct (shi s) eqn:Sh.
    - split; [exact (adv_Move (incIndent s) 9 r R ltac:(discriminate))|].
      intros ws. rewrite (adv_eq (incIndent s) 9 r R). cbn. rewrite Sh. reflexivity.
    - split; [eapply adv_Move; eauto; discriminate|].
      intros ws. rewrite (adv_eq s 9 r R). cbn. rewrite Sh. reflexivity. }
  destruct (c =? 10) eqn:E10; [|discriminate H].
  apply N.eqb_eq in E10; subst c. inv H. split; [right; right; right; auto|].
  split; [apply (nl_Step s r R)|]. intros ws. rewrite (adv_eq (increaseLine s) 10 r R). reflexivity.
Qed.

Lemma skipWhitespace_spec F s : (length (rest s) < F)%nat ->
  exists s0 ws, skipWhitespace F s = Some s0 /\ Move s s0 ws /\ Forall blank ws /\
                (forall c, peek s0 = Some c -> ~ blank c) /\ indent s0 = gapd (shi s) (indent s) 0 ws.
Proof.
  intros HF. unfold skipWhitespace.
  destruct (iter_total ws_body (fun cnt s _ s0 => exists ws, Move s s0 ws /\ Forall blank ws /\
              (forall c, peek s0 = Some c -> ~ blank c) /\ indent s0 = gapd (shi s) (indent s) cnt ws)) with (3 := HF) (a := 0)
    as (a & s0 & -> & ws & X).
  - intros cnt s1 H. exists []. split; [apply Move_refl|]. split; [constructor|].
    split; [exact (ws_body_none _ _ H)|reflexivity].
  - intros cnt s1 cnt1 s2 H. destruct (ws_body_step _ _ _ _ H) as (c & Bc & Mc & G).
    split; [exists [c]; split; [discriminate|exact (proj1 Mc)]|]. intros a' s' (ws & M & B & X & I). exists (c :: ws).
    split; [exact (Move_trans _ _ _ _ _ Mc M)|]. split; [constructor; auto|]. split; [exact X|]. rewrite G. exact I.
  - exists s0, ws. auto.
Qed.

Lemma while_body_step p u s u' s' : (forall c, p c = true -> c <> 10) ->
  while_body p u s = Some (u', s') -> exists c, p c = true /\ Step s s' [c].
Proof.
  unfold while_body. intros Hp H. destruct (sat (peek s) p) eqn:S; [|discriminate H]. inv H.
  destruct (sat_some _ _ S) as (c & P & Pc). destruct (peek_rest _ _ P) as [r R].
  exists c. split; auto. eapply adv_Step; eauto.
Qed.

Lemma while_peek_spec p F s : (forall c, p c = true -> c <> 10) -> (length (rest s) < F)%nat ->
  exists s' mid, while_peek p F s = Some s' /\ Step s s' mid /\ Forall (fun c => p c = true) mid /\ hd_sat (rest s') p = false.
Proof.
  intros Hp HF. unfold while_peek.
  destruct (iter_total (while_body p) (fun _ s _ s' => exists mid, Step s s' mid /\ Forall (fun c => p c = true) mid /\
              hd_sat (rest s') p = false)) with (3 := HF) (a := tt) as (a & s' & -> & mid & X).
  - intros u s1 H. exists []. split; [apply Step_refl|]. split; [constructor|].
    unfold while_body in H. rewrite <- sat_peek. destruct (sat (peek s1) p); [discriminate H|auto].
  - intros u s1 u1 s2 H. destruct (while_body_step _ _ _ _ _ Hp H) as (c & Bc & Sc).
    split; [apply (Step_Progress _ _ [c]); [discriminate|exact Sc]|]. intros a' s' (mid & St & B & X). exists (c :: mid).
    split; [exact (Step_trans _ _ _ _ _ Sc St)|]. auto.
  - exists s', mid. auto.
Qed.

Lemma isDigit_not10 c : isDigit c = true -> c <> 10.
Proof. intros H E. subst. discriminate H. Qed.
Lemma isAlphaNumeric_not10 c : isAlphaNumeric c = true -> c <> 10.
Proof. intros H E. subst. discriminate H. Qed.

Lemma isEscape_not10 q c : q <> 10 -> isEscape q c = true -> c <> 10.
Proof.
  intros Hq H E. subst. unfold isEscape in H.
  rewrite (proj2 (N.eqb_neq 10 q)) in H by congruence. discriminate H.
Qed.
Lemma isEscape_false q d : isEscape q d = false -> d <> q /\ d <> 92.
Proof.
  unfold isEscape. intros H. repeat (apply orb_false_iff in H; destruct H as [H ?]).
  split; apply N.eqb_neq; auto.
Qed.
Lemma isEscape_quote q : isEscape q q = true.
Proof. unfold isEscape. rewrite N.eqb_refl. apply orb_true_r. Qed.

Lemma scanEscape_cases q s r : rest s = 92 :: r ->
  (scanEscape q s = s /\ hd_sat r (isEscape q) = false) \/
  (exists d r', r = d :: r' /\ isEscape q d = true /\ scanEscape q s = adv s).
Proof.
  intros R. unfold scanEscape. rewrite (sat_peekNext s 92 r _ R) by reflexivity.
  destruct (hd_sat r (isEscape q)) eqn:S; [|left; auto]. right.
  destruct r as [|d r']; [discriminate S|]. eauto.
Qed.

(* what the loop has consumed when it stops in front of t: a body before the closing quote, or an open literal *)
Definition quoted_end (q : N) (mid t : list N) : Prop := (hd_error t = Some q /\ qbody q mid) \/ (t = [] /\ qopen q mid).

Lemma quoted_end_plain q c m t : c <> q -> c <> 92 -> quoted_end q m t -> quoted_end q (c :: m) t.
Proof. intros H1 H2 [[Ht Q]|[Ht Q]]; [left; split; [|apply qb_plain] | right; split; [|apply qo_plain]]; auto. Qed.
Lemma quoted_end_esc q d m t : quoted_end q m t -> quoted_end q (92 :: d :: m) t.
Proof. intros [[Ht Q]|[Ht Q]]; [left; split; [|apply qb_esc] | right; split; [|apply qo_esc]]; auto. Qed.
(* a backslash before something that is no escape stands alone: the next round reads that character as plain *)
Lemma quoted_end_bs q m t : hd_sat (m ++ t) (isEscape q) = false -> quoted_end q m t -> quoted_end q (92 :: m) t.
Proof.
  intros NE [[Ht Q]|[-> Q]].
  - destruct m as [|d m].
    + destruct t as [|x t]; [discriminate Ht|]. inv Ht. cbn in NE. rewrite isEscape_quote in NE. discriminate NE.
    + cbn in NE. destruct (isEscape_false _ _ NE) as [N1 N2]. left. split; auto.
      inv Q; [apply qb_esc; auto|congruence].
  - right. split; auto. destruct m as [|d m]; [constructor|].
    cbn in NE. destruct (isEscape_false _ _ NE) as [N1 N2]. inv Q; try congruence. apply qo_esc; auto.
Qed.

Lemma quoted_body_none q u s : quoted_body q u s = None -> quoted_end q [] (rest s).
Proof.
  unfold quoted_body. intros H. destruct (peek s) as [c|] eqn:P.
  - destruct (peek_rest _ _ P) as [r R]. destruct (c =? q) eqn:Eq.
    + apply N.eqb_eq in Eq. subst c. left. rewrite R. split; [reflexivity|constructor].
    + destruct (c =? 10); [discriminate H|]. destruct (c =? 92); discriminate H.
  - right. split; [apply peek_none; auto|constructor].
Qed.

Lemma quoted_body_step q u s u' s' : q <> 10 -> quoted_body q u s = Some (u', s') ->
  exists mid, mid <> [] /\ Step s s' mid /\ forall m t, rest s' = m ++ t -> quoted_end q m t -> quoted_end q (mid ++ m) t.
Proof.
  unfold quoted_body. intros Hq H. destruct (peek s) as [c|] eqn:P; [|discriminate H].
  destruct (peek_rest _ _ P) as [r R].
  destruct (c =? q) eqn:Eq; [discriminate H|]. apply N.eqb_neq in Eq.
  destruct (c =? 10) eqn:E10.
  { apply N.eqb_eq in E10; subst c. inv H. exists [10]. split; [discriminate|]. split; [eapply nl_Step; eauto|].
    intros m t _. apply quoted_end_plain; [exact Eq|discriminate]. }
  apply N.eqb_neq in E10.
  destruct (c =? 92) eqn:E92.
  2:{ apply N.eqb_neq in E92. inv H. exists [c]. split; [discriminate|]. split; [eapply adv_Step; eauto|].
      intros m t _. apply quoted_end_plain; auto. }
  apply N.eqb_eq in E92; subst c. inv H.
  destruct (scanEscape_cases q s r R) as [[E NE]|(d & r' & -> & Ed & E)]; rewrite E.
  - exists [92]. split; [discriminate|]. split; [eapply adv_Step; eauto|].
    intros m t Rm. rewrite (adv_eq _ _ _ R) in Rm. cbn in Rm. subst r. apply quoted_end_bs. exact NE.
  - exists [92; d]. split; [discriminate|]. split.
    + apply (Step_trans s (adv s) _ [92] [d]); [eapply adv_Step; eauto|].
      eapply adv_Step; [rewrite (adv_eq _ _ _ R); reflexivity|]. eapply (isEscape_not10 q); eauto.
    + intros m t _. apply quoted_end_esc.
Qed.

Lemma quoted_spec q okty F s : q <> 10 -> (length (rest s) < F)%nat ->
  exists t s' mid, quoted q okty F s = Some (t, s') /\ Step s s' mid /\
    ((t = okty /\ exists b, mid = b ++ [q] /\ qbody q b) \/ (t = tt_ILLEGAL /\ rest s' = [] /\ qopen q mid)).
Proof.
  intros Hq HF. unfold quoted.
  destruct (iter_total (quoted_body q) (fun _ s _ s1 => exists mid, Step s s1 mid /\ quoted_end q mid (rest s1))) with (3 := HF) (a := tt)
    as (a & s1 & -> & mid & St & X).
  - intros u0 s0 H. exists []. split; [apply Step_refl|apply quoted_body_none with u0; exact H].
  - intros u0 s0 u1 s1 H. destruct (quoted_body_step _ _ _ _ _ Hq H) as (m0 & N0 & S0 & K).
    split; [exact (Step_Progress _ _ _ N0 S0)|]. intros a' s' (mid & St & X). exists (m0 ++ mid).
    split; [exact (Step_trans _ _ _ _ _ S0 St)|]. apply K; [apply (Step_Consumed _ _ _ St)|exact X].
  - destruct (atEnd s1) eqn:A.
    + apply atEnd_true in A. exists tt_ILLEGAL, s1, mid. split; [reflexivity|]. split; [exact St|]. right.
      destruct X as [[X _]|[_ X]]; auto. rewrite A in X. discriminate X.
    + destruct X as [[X Q]|[X _]]; [|unfold atEnd in A; rewrite X in A; discriminate A].
      destruct (rest s1) as [|x r] eqn:R; inv X. exists okty, (adv s1), (mid ++ [q]). split; [reflexivity|].
      split; [|left; eauto]. eapply Step_trans; eauto. eapply adv_Step; eauto.
Qed.

Lemma comment_body_none d s : comment_body d s = None -> d = 0 \/ rest s = [].
Proof.
  unfold comment_body. intros H. destruct (0 <? d) eqn:D; [|left; apply N.ltb_ge in D; lia].
  destruct (atEnd s) eqn:A; [right; apply atEnd_true; auto|]. cbn in H.
  destruct (is (peek s) 91); [discriminate H|]. destruct (is (peek s) 93); [discriminate H|]. destruct (is (peek s) 10); discriminate H.
Qed.

Lemma comment_body_step d s d' s' : comment_body d s = Some (d', s') ->
  exists c, Step s s' [c] /\ forall m, depth_after d (c :: m) = depth_after d' m.
Proof.
  unfold comment_body. intros H. destruct ((0 <? d) && negb (atEnd s)) eqn:G; [|discriminate H].
  apply andb_true_iff in G. destruct G as [G0 G]. apply negb_true_iff in G. apply N.ltb_lt in G0.
  destruct (atEnd_false _ G) as (c & r & R). unfold peek in H. rewrite R in H. cbn [is] in H.
  assert (D0 : (d =? 0) = false) by (apply N.eqb_neq; lia).
  exists c. cbn [depth_after]. rewrite D0.
  destruct (c =? 91) eqn:E91; [inv H; split; [eapply adv_Step; eauto; apply N.eqb_eq in E91; lia|reflexivity]|].
  destruct (c =? 93) eqn:E93; [inv H; split; [eapply adv_Step; eauto; apply N.eqb_eq in E93; lia|reflexivity]|].
  destruct (c =? 10) eqn:E10; inv H.
  - apply N.eqb_eq in E10; subst. split; [eapply nl_Step; eauto|reflexivity].
  - apply N.eqb_neq in E10. split; [eapply adv_Step; eauto|reflexivity].
Qed.

Lemma comment_spec F s : (length (rest s) < F)%nat ->
  exists s' mid d, comment F s = Some (tt_COMMENT, s') /\ Step s s' mid /\ depth_after 1 mid = Some d /\ (d = 0 \/ rest s' = []).
Proof.
  intros HF. unfold comment.
  destruct (iter_total comment_body (fun d0 s d s' => exists mid, Step s s' mid /\ depth_after d0 mid = Some d /\
              (d = 0 \/ rest s' = []))) with (3 := HF) (a := 1) as (d & s' & -> & mid & X).
  - intros d s0 H. exists []. split; [apply Step_refl|]. split; [reflexivity|exact (comment_body_none _ _ H)].
  - intros d s0 d1 s1 H. destruct (comment_body_step _ _ _ _ H) as (c & Sc & Dc).
    split; [apply (Step_Progress _ _ [c]); [discriminate|exact Sc]|]. intros d' s' (mid & St & Dm & X). exists (c :: mid).
    split; [exact (Step_trans _ _ _ _ _ Sc St)|]. rewrite Dc. auto.
  - exists s', mid, d. auto.
Qed.

Lemma alias_body_none u s : alias_body u s = None -> rest s = [] \/ peek s = Some 62.
Proof.
  unfold alias_body. intros H. destruct (atEnd s) eqn:A; [left; apply atEnd_true; auto|]. cbn in H.
  destruct (is (peek s) 62) eqn:I; [|discriminate H]. right. apply is_true_Some; auto.
Qed.

Lemma alias_body_step u s u' s' : alias_body u s = Some (u', s') ->
  exists c, c <> 62 /\ Step s s' [c].
Proof.
  unfold alias_body. intros H. destruct (negb (atEnd s) && negb (is (peek s) 62)) eqn:G; [|discriminate H]. inv H.
  apply andb_true_iff in G. destruct G as [G1 G2]. apply negb_true_iff in G1. apply negb_true_iff in G2.
  destruct (atEnd_false _ G1) as (c & r & R). unfold peek in *. rewrite R in *. cbn [is] in *. apply N.eqb_neq in G2.
  exists c. split; auto. destruct (c =? 10) eqn:E10.
  - apply N.eqb_eq in E10. subst c. eapply nl_Step; eauto.
  - apply N.eqb_neq in E10. eapply adv_Step; eauto.
Qed.

Lemma aliasParameter_spec F s : (length (rest s) < F)%nat ->
  exists s' mid, aliasParameter F s = Some (tt_ALIAS_PARAMETER, s') /\ Step s s' mid /\
    ((exists b, mid = b ++ [62] /\ ~ In 62 b) \/ (rest s' = [] /\ ~ In 62 mid)).
Proof.
  intros HF. unfold aliasParameter.
  destruct (iter_total alias_body (fun _ s _ s' => exists mid, Step s s' mid /\ ~ In 62 mid /\
              (rest s' = [] \/ peek s' = Some 62))) with (3 := HF) (a := tt) as (u & s1 & -> & mid & St & N62 & X).
  - intros u0 s0 H. exists []. split; [apply Step_refl|]. split; [intros []|exact (alias_body_none _ _ H)].
  - intros u0 s0 u1 s1 H. destruct (alias_body_step _ _ _ _ H) as (c & Hc & Sc).
    split; [apply (Step_Progress _ _ [c]); [discriminate|exact Sc]|]. intros u2 s' (mid & St & N62 & X). exists (c :: mid).
    split; [exact (Step_trans _ _ _ _ _ Sc St)|]. split; auto. intros [Hx|Hx]; [congruence|auto].
  - destruct (atEnd s1) eqn:A.
    + exists s1, mid. split; [reflexivity|]. split; auto. right. split; auto. apply atEnd_true; auto.
    + destruct X as [X|X]; [unfold atEnd in A; rewrite X in A; discriminate A|].
      destruct (peek_rest _ _ X) as [r R]. exists (adv s1), (mid ++ [62]). split; [reflexivity|]. split; [|left; eauto].
      eapply Step_trans; eauto. eapply adv_Step; eauto. discriminate.
Qed.

(* facts about the regenerated tables (re-checked by computation whenever Gen/Tokens.v changes) *)
Definition special_types : list N :=
  [tt_ILLEGAL; tt_EOF; tt_IDENTIFIER; tt_ALIAS_PARAMETER; tt_COMMENT; tt_SYMBOL; tt_INT; tt_FLOAT; tt_STRING; tt_CHAR;
   tt_NEGATE; tt_DOT; tt_COMMA; tt_COLON; tt_LPAREN; tt_RPAREN; tt_ELIPSIS].
Fixpoint nodupb (l : list N) : bool :=
  match l with [] => true | x :: r => negb (existsb (N.eqb x) r) && nodupb r end.
Lemma special_types_distinct : nodupb special_types = true.
Proof. vm_compute. reflexivity. Qed.
Lemma keyword_values_not_special :
  forallb (fun kv => negb (existsb (N.eqb (snd kv)) special_types)) keyword_table = true.
Proof. vm_compute. reflexivity. Qed.

Lemma lookup_in tbl k v : lookup tbl k = Some v -> exists k', In (k', v) tbl.
Proof.
  induction tbl as [|[k' v'] tbl IH]; cbn; [discriminate|].
  destruct (list_eqb k k'); intros H; [inv H; eauto|]. destruct (IH H) as [k2 I]. eauto.
Qed.
Lemma lookup_not_special k v : lookup keyword_table k = Some v -> ~ In v special_types.
Proof.
  intros H. destruct (lookup_in _ _ _ H) as [k' I].
  pose proof keyword_values_not_special as T. rewrite forallb_forall in T. specialize (T _ I). cbn [snd] in T.
  intros J. apply negb_true_iff in T. assert (X : existsb (N.eqb v) special_types = true); [|congruence].
  apply existsb_exists. exists v. split; auto. apply N.eqb_refl.
Qed.
Lemma keyword_type_not_special l v : keyword_type l = Some v -> ~ In v special_types.
Proof.
  unfold keyword_type. destruct (lookup keyword_table l) eqn:L; intros H.
  - inv H. eapply lookup_not_special; eauto.
  - eapply lookup_not_special; eauto.
Qed.

(* a keyword's type in a place where the rules want one of the special types *)
Ltac no_kw :=
  match goal with H : keyword_type _ = Some _ |- _ => exfalso; apply keyword_type_not_special in H; apply H; cbn; tauto end.

Lemma identifierType_keyword l :
  identifierType l = match keyword_type l with Some v => v | None => tt_IDENTIFIER end.
Proof.
  unfold identifierType, keywordToTokenType, keyword_type.
  destruct (lookup keyword_table l) as [v|] eqn:L1.
  - destruct (v =? tt_IDENTIFIER) eqn:E; auto. apply N.eqb_eq in E. subst.
    exfalso. apply (lookup_not_special _ _ L1). cbn. auto.
  - rewrite N.eqb_refl. destruct (lookup keyword_table (map toLower l)) as [v|] eqn:L2; [|reflexivity].
    destruct (v =? tt_IDENTIFIER) eqn:E; auto. apply N.eqb_eq in E. subst. reflexivity.
Qed.

Lemma number_spec F s : (length (rest s) < F)%nat ->
  exists t s' mid, number F s = Some (t, s') /\ Step s s' mid /\ hd_sat (rest s') isDigit = false /\
    ((t = tt_INT /\ Forall (fun c => isDigit c = true) mid /\ (forall d t', rest s' = 44 :: d :: t' -> isDigit d = false)) \/
     (t = tt_FLOAT /\ exists a b, mid = a ++ 44 :: b /\ Forall (fun c => isDigit c = true) a /\ digits b)).
Proof.
  intros HF. unfold number.
  destruct (while_peek_spec isDigit F s isDigit_not10 HF) as (s1 & m1 & -> & St1 & D1 & X1).
  destruct (is (peek s1) 44 && sat (peekNext s1) isDigit) eqn:G.
  2:{ exists tt_INT, s1, m1. split; [reflexivity|]. split; auto. split; auto. left. split; auto. split; auto.
      intros d t' R. unfold peek, peekNext in G. rewrite R in G. exact G. }
  apply andb_true_iff in G. destruct G as [G1 G2]. apply is_true_Some in G1. destruct (peek_rest _ _ G1) as [r R].
  rewrite (sat_peekNext _ _ _ _ R) in G2 by reflexivity.
  destruct (while_peek_spec isDigit F (adv s1) isDigit_not10) as (s2 & m2 & -> & St2 & D2 & X2).
  { apply Step_Consumed, Consumed_length in St1. rewrite (adv_eq _ _ _ R). rewrite R in St1. cbn in *. lia. }
  exists tt_FLOAT, s2, (m1 ++ [44] ++ m2). split; [reflexivity|]. split.
  - eapply Step_trans; eauto. eapply Step_trans; eauto. eapply adv_Step; eauto. discriminate.
  - split; auto. right. split; auto. exists m1, m2. split; auto. split; auto. split; auto.
    intros ->. destruct (Step_Consumed _ _ _ St2) as [Rm _]. rewrite (adv_eq _ _ _ R) in Rm. cbn in Rm. congruence.
Qed.

Lemma literal_mid s0 s' mid : Consumed s0 s' mid -> literal s0 s' = mid.
Proof.
  intros [R C]. unfold literal. rewrite C, R. unfold len.
  replace (N.to_nat (cur s0 + N.of_nat (length mid) - cur s0)) with (length mid) by lia.
  apply firstn_len_app.
Qed.

Lemma identifier_spec F s0 s : (length (rest s) < F)%nat ->
  exists s' mid, identifier F s0 s = Some (identifierType (literal s0 s'), s') /\
    Step s s' mid /\ Forall (fun c => isAlphaNumeric c = true) mid /\ hd_sat (rest s') isAlphaNumeric = false.
Proof.
  intros HF. unfold identifier.
  destruct (while_peek_spec isAlphaNumeric F s isAlphaNumeric_not10 HF) as (s' & mid & -> & X). exists s', mid. auto.
Qed.

Ltac eqb_all :=
  repeat match goal with
         | H : (_ =? _) = true |- _ => apply N.eqb_eq in H
         | H : (_ =? _) = false |- _ => apply N.eqb_neq in H
         end.

Definition first_ok (m : mode) (s0 : st) (c : N) (o : option (N * st)) : Prop :=
  exists t s2 mid, o = Some (t, s2) /\
    Step (adv s0) s2 mid /\ class_ok m (rest s2 = []) t (c :: mid) /\ maximal (c :: mid) (rest s2).

(* behind a first character that is neither letter nor digit only `.` before `..` could be extended *)
Lemma first_other m s0 c t s2 mid : isAlpha c = false -> isDigit c = false ->
  (c = 46 -> mid = [] -> forall t', rest s2 <> 46 :: 46 :: t') ->
  Step (adv s0) s2 mid -> class_ok m (rest s2 = []) t (c :: mid) -> first_ok m s0 c (Some (t, s2)).
Proof. intros A D P St K. exists t, s2, mid. split; [reflexivity|]. split; [exact St|]. split; [exact K|]. apply maximal_other; auto. Qed.

Lemma dispatch_first m F s0 c r : rest s0 = c :: r -> ~ blank c -> (length r < F)%nat ->
  first_ok m s0 c (dispatch m F s0 c (adv s0)).
Proof.
  intros R NB HF. unfold dispatch.
  assert (Hc : c <> 10) by (intros ->; apply NB; unfold blank; auto).
  assert (HF' : (length (rest (adv s0)) < F)%nat) by (rewrite (adv_eq _ _ _ R); exact HF).
  assert (Single : forall k, isAlpha c = false -> isDigit c = false -> c <> 46 ->
            class_ok m (rest (adv s0) = []) k [c] -> first_ok m s0 c (Some (k, adv s0))).
  { intros k A D N K. apply (first_other m s0 c k (adv s0) []); auto. apply Step_refl. }
  assert (Quoted : forall q okty, q = 34 \/ q = 39 -> c = q ->
            (forall P b, qbody q b -> class_ok m P okty (q :: b ++ [q])) -> first_ok m s0 c (quoted q okty F (adv s0))).
  { intros q okty Hq -> K. assert (Q10 : q <> 10) by (destruct Hq; subst; discriminate).
    destruct (quoted_spec q okty F (adv s0) Q10 HF') as (t & s2 & mid & -> & St & X).
    apply (first_other _ _ _ _ _ mid); auto; try (destruct Hq; subst; (reflexivity || discriminate)).
    destruct X as [(-> & b & -> & Qb)|(-> & Rs & Qo)]; [apply K; exact Qb|apply K_illegal; auto]. }
  destruct (isAlpha c) eqn:A.
  { destruct (identifier_spec F s0 (adv s0) HF') as (s2 & mid & -> & St & AN & X).
    exists (identifierType (literal s0 s2)), s2, mid. split; [reflexivity|]. split; [exact St|].
    pose proof (Step_Consumed _ _ _ (Step_trans _ _ _ _ _ (adv_Step _ _ _ R Hc) St)) as C.
    rewrite (literal_mid _ _ _ C), identifierType_keyword. cbn [app]. split; [|apply maximal_word; auto].
    assert (W : word (c :: mid)) by (exists c, mid; auto).
    destruct (keyword_type (c :: mid)) eqn:K; [apply K_keyword|apply K_ident]; auto. }
  destruct (isDigit c) eqn:D.
  { destruct (number_spec F (adv s0) HF') as (t & s2 & mid & -> & St & X & Kd). exists t, s2, mid. split; [reflexivity|].
    split; [exact St|]. split.
    - destruct Kd as [(-> & Fm & _)|(-> & a & b & -> & Fa & Db)].
      + apply K_int. split; [discriminate|constructor; auto].
      + change (c :: a ++ 44 :: b) with ((c :: a) ++ 44 :: b). apply K_float; auto. split; [discriminate|constructor; auto].
    - apply maximal_number; auto. intros Fm d t' Rt.
      destruct Kd as [(_ & _ & N44)|(_ & a & b & -> & _ & _)]; [eauto|].
      apply Forall_app in Fm. destruct Fm as [_ Fm]. inv Fm. discriminate. }
  destruct (c =? 45) eqn:E45; [eqb_all; subst; apply Single; [reflexivity..|discriminate|apply K_negate]|].
  destruct (c =? 46) eqn:E46.
  { eqb_all. subst c. destruct (is (peek (adv s0)) 46 && is (peekNext (adv s0)) 46) eqn:G.
    - destruct (dots_true _ G) as [r1 R1]. apply (first_other m s0 46 _ _ [46; 46]); auto; [discriminate| |apply K_elipsis].
      apply (Step_trans _ (adv (adv s0)) _ [46] [46]); eapply adv_Step; eauto; try discriminate. rewrite (adv_eq _ _ _ R1). reflexivity.
    - apply (first_other m s0 46 _ _ []); auto; [intros _ _; exact (dots_false _ G)|apply Step_refl|apply K_dot]. }
  destruct (c =? 44) eqn:E44; [eqb_all; subst; apply Single; [reflexivity..|discriminate|apply K_comma]|].
  destruct (c =? 58) eqn:E58; [eqb_all; subst; apply Single; [reflexivity..|discriminate|apply K_colon]|].
  destruct (c =? 40) eqn:E40; [eqb_all; subst; apply Single; [reflexivity..|discriminate|apply K_lparen]|].
  destruct (c =? 41) eqn:E41; [eqb_all; subst; apply Single; [reflexivity..|discriminate|apply K_rparen]|].
  destruct (c =? 34) eqn:E34.
  { apply N.eqb_eq in E34. apply (Quoted 34 tt_STRING); auto. intros P b Q. apply K_string. exists b. auto. }
  destruct (c =? 39) eqn:E39.
  { apply N.eqb_eq in E39. apply (Quoted 39 tt_CHAR); auto. intros P b Q. apply K_char. exists b. auto. }
  clear Quoted.
  destruct (c =? 91) eqn:E91.
  { apply N.eqb_eq in E91. subst c. destruct (comment_spec F (adv s0) HF') as (s2 & mid & d & -> & St & Dd & X).
    apply (first_other _ _ _ _ _ mid); auto; [discriminate|eapply K_comment; eauto]. }
  destruct ((c =? 60) && match m with Alias => true | Normal => false end) eqn:G.
  { apply andb_true_iff in G. destruct G as [G1 G]. apply N.eqb_eq in G1. subst c. destruct m; [discriminate G|].
    destruct (aliasParameter_spec F (adv s0) HF') as (s2 & mid & -> & St & X).
    apply (first_other _ _ _ _ _ mid); auto; [discriminate|]. destruct X as [(b & -> & N62)|(Rs & N62)]; [apply K_apar|apply K_apar_open]; auto. }
  eqb_all. apply Single; auto. apply K_symbol; auto.
  - cbn. intuition congruence.
  - intros ->. destruct m; auto. discriminate G.
Qed.

Lemma nextToken_first m F s : (length (rest s) < F)%nat ->
  exists t s' ws mid s0, nextToken m F s = Some (t, s') /\
    Move s s0 ws /\ Forall blank ws /\ indent s0 = gapd (shi s) (indent s) 0 ws /\
    Step s0 s' mid /\ t = mkToken (ty t) s0 s' /\
    class_ok m (rest s' = []) (ty t) mid /\ maximal mid (rest s').
Proof.
  intros HF. unfold nextToken. destruct (skipWhitespace_spec F s HF) as (s0 & ws & -> & M & B & NB & I).
  destruct (atEnd s0) eqn:A.
  - apply atEnd_true in A. exists (mkToken tt_EOF s0 s0), s0, ws, [], s0. rewrite A.
    repeat (split; [first [assumption | reflexivity | apply Step_refl | apply K_eof]|]). apply maximal_nil.
  - destruct (atEnd_false _ A) as (c & r & R).
    assert (Ad : advance s0 = (c, adv s0)) by (unfold adv, advance; rewrite R; reflexivity). rewrite Ad.
    assert (Hb : ~ blank c) by (apply NB; unfold peek; rewrite R; auto).
    assert (Hc : c <> 10) by (intros ->; apply Hb; unfold blank; auto).
    destruct (dispatch_first m F s0 c r R Hb) as (t & s2 & mid & -> & St & K & Mx).
    { destruct M as [C _]. apply Consumed_length in C. rewrite R in C. cbn in C. lia. }
    exists (mkToken t s0 s2), s2, ws, (c :: mid), s0. repeat (split; [first [assumption | reflexivity]|]).
    split; [exact (Step_trans _ _ _ _ _ (adv_Step _ _ _ R Hc) St)|]. auto.
Qed.

Lemma class_ok_eof m P l : class_ok m P tt_EOF l -> l = [].
Proof.
  intros H. inversion H; subst; auto; try discriminate; no_kw.
Qed.

Lemma scanAll_ind m F (R : st -> list token -> Prop) :
  (forall s t s', nextToken m F s = Some (t, s') -> ty t = tt_EOF -> R s [t]) ->
  (forall s t s' ts, nextToken m F s = Some (t, s') -> ty t <> tt_EOF -> R s' ts -> R s (t :: ts)) ->
  forall fuel s ts, scanAll m F fuel s = Some ts -> R s ts.
Proof.
  intros He Hs. induction fuel as [|f IH]; intros s ts H; [discriminate H|]. cbn in H.
  destruct (nextToken m F s) as [[t s']|] eqn:T; [|discriminate H].
  destruct (ty t =? tt_EOF) eqn:E.
  - inv H. apply N.eqb_eq in E. eapply He; eauto.
  - destruct (scanAll m F f s') as [ts'|] eqn:Rs; [|discriminate H]. inv H. apply N.eqb_neq in E. eapply Hs; eauto.
Qed.

(* fuel: a token other than EOF is not empty *)
Lemma scanAll_some m F : forall fuel s, (length (rest s) < F)%nat -> (length (rest s) < fuel)%nat -> scanAll m F fuel s <> None.
Proof.
  induction fuel as [|f IH]; intros s HF Hf; [lia|]. cbn.
  destruct (nextToken_first m F s HF) as (t & s' & ws & mid & s0 & -> & [C0 _] & _ & _ & St & _ & K & _).
  destruct (ty t =? tt_EOF) eqn:E; [discriminate|].
  apply Consumed_length in C0. apply Step_Consumed, Consumed_length in St.
  destruct mid; [apply class_ok_nil in K; apply N.eqb_neq in E; congruence|]. cbn in St.
  destruct (scanAll m F f s') eqn:R; [discriminate|]. exfalso. revert R. apply IH; lia.
Qed.

Theorem scan_fuel m l0 c0 i0 src : scan_from m l0 c0 i0 src <> None.
Proof. unfold scan_from. apply scanAll_some; cbn; lia. Qed.

Theorem scan_one_eof m l0 c0 i0 src ts : scan_from m l0 c0 i0 src = Some ts ->
  exists body e, ts = body ++ [e] /\ ty e = tt_EOF /\ Forall (fun t => ty t <> tt_EOF) body.
Proof.
  unfold scan_from.
  apply (scanAll_ind m _ (fun _ ts => exists body e, ts = body ++ [e] /\ ty e = tt_EOF /\ Forall (fun t => ty t <> tt_EOF) body)).
  - intros s t s' _ E. exists [], t. auto.
  - intros s t s' ts' _ E (body & e & -> & Ee & Fb). exists (t :: body), e. auto.
Qed.

Definition at_off (src : list N) (s : st) : Prop := exists pre, src = pre ++ rest s /\ cur s = len pre.

Lemma at_off_start src l0 c0 i0 : at_off src (mkst src 0 l0 c0 i0 true).
Proof. exists []. auto. Qed.

Lemma at_off_Consumed src s s' mid : at_off src s -> Consumed s s' mid ->
  at_off src s' /\ sub src (cur s) (cur s') = mid /\ skipn (N.to_nat (cur s)) src = mid ++ rest s' /\ cur s' <= len src.
Proof.
  intros (pre & -> & Hc) [R C]. rewrite R. split; [|split; [|split]].
  - exists (pre ++ mid). rewrite <- app_assoc, C, Hc, len_app. auto.
  - apply sub_app; lia.
  - rewrite Hc. unfold len. rewrite Nat2N.id. apply skipn_len_app.
  - rewrite C, Hc, !len_app. lia.
Qed.

Lemma token_frame m src s t s' : at_off src s -> nextToken m (S (length src)) s = Some (t, s') ->
  exists ws mid s0,
    (Move s s0 ws /\ Forall blank ws /\ indent s0 = gapd (shi s) (indent s) 0 ws) /\
    (Step s0 s' mid /\ t = mkToken (ty t) s0 s' /\ class_ok m (rest s' = []) (ty t) mid /\ maximal mid (rest s')) /\
    (at_off src s0 /\ sub src (cur s) (cur s0) = ws) /\
    (at_off src s' /\ sub src (cur s0) (cur s') = mid /\ skipn (N.to_nat (cur s0)) src = mid ++ rest s' /\ cur s' <= len src).
Proof.
  intros O T. destruct (nextToken_first m (S (length src)) s) as (t0 & s0' & ws & mid & s0 & E & M & B & I & St & Tk & K & Mx).
  { destruct O as (pre & -> & _). rewrite app_length. lia. }
  rewrite T in E. inv E. destruct (at_off_Consumed _ _ _ _ O (proj1 M)) as (O0 & G & _).
  exists ws, mid, s0. repeat (split; [tauto|]). exact (at_off_Consumed _ _ _ _ O0 (Step_Consumed _ _ _ St)).
Qed.

Lemma scanAll_tiles m src : forall fuel s ts, scanAll m (S (length src)) fuel s = Some ts -> at_off src s -> tiles src (cur s) ts.
Proof.
  assert (Head : forall s t s' r, at_off src s -> nextToken m (S (length src)) s = Some (t, s') ->
            (at_off src s' -> tiles src (cur s') r) -> tiles src (cur s) (t :: r)).
  { intros s t s' r O T Hr.
    destruct (token_frame _ _ _ _ _ O T) as (ws & mid & s0 & (M & B & _) & (St & Tk & K & _) & (O0 & G) & (O' & Bd & _ & Le)).
    destruct M as [[_ C0] _]. destruct (Step_Consumed _ _ _ St) as [_ C1].
    cbn [tiles]. rewrite Tk. cbn [tstart tend ty lit mkToken]. rewrite G, Bd.
    split; [lia|]. split; [lia|]. split; [exact Le|]. split; [exact B|].
    split; [intros NE; destruct mid; [apply class_ok_nil in K; congruence|unfold len in C1; cbn in C1; lia]|].
    split; [|auto].
    intros NI. apply N.eqb_neq in NI. rewrite NI. apply literal_mid, Step_Consumed, St. }
  apply (scanAll_ind m _ (fun s ts => at_off src s -> tiles src (cur s) ts)).
  - intros s t s' T E O. apply (Head _ _ _ _ O T). intros (pre & -> & ->).
    destruct (token_frame _ _ _ _ _ O T) as (ws & mid & s0 & _ & (_ & _ & K & Mx) & _).
    rewrite E in K. apply class_ok_eof in K. subst mid. rewrite (proj1 Mx eq_refl), app_nil_r. reflexivity.
  - intros s t s' ts T _ IH O. apply (Head _ _ _ _ O T). exact IH.
Qed.

Theorem scan_partition m l0 c0 i0 src ts : scan_from m l0 c0 i0 src = Some ts -> tiles src 0 ts.
Proof. unfold scan_from. intros H. apply (scanAll_tiles _ src) in H; [exact H|apply at_off_start]. Qed.

Lemma pos_of_PosR l0 c0 src s s' mid : at_off src s -> Consumed s s' mid -> PosR s s' mid ->
  (line s, col s) = pos_of l0 c0 src (cur s) -> (line s', col s') = pos_of l0 c0 src (cur s').
Proof.
  intros (pre & -> & Hc) [R C] P Hp. unfold PosR in P. rewrite P, Hp, C, Hc, R. unfold pos_of, pos_after, len.
  rewrite Nat2N.id, firstn_len_app, <- fold_left_app.
  replace (N.to_nat (N.of_nat (length pre) + N.of_nat (length mid))) with (length (pre ++ mid)) by (rewrite app_length; lia).
  rewrite app_assoc, firstn_len_app. reflexivity.
Qed.

Lemma scanAll_positions m l0 c0 src : forall fuel s ts, scanAll m (S (length src)) fuel s = Some ts ->
  at_off src s -> (line s, col s) = pos_of l0 c0 src (cur s) -> Forall (positioned l0 c0 src) ts.
Proof.
  assert (Head : forall s t s', at_off src s -> (line s, col s) = pos_of l0 c0 src (cur s) -> nextToken m (S (length src)) s = Some (t, s') ->
            positioned l0 c0 src t /\ at_off src s' /\ (line s', col s') = pos_of l0 c0 src (cur s')).
  { intros s t s' O P T.
    destruct (token_frame _ _ _ _ _ O T) as (ws & mid & s0 & ([C0 P0] & _) & ([[C1 P1] _] & Tk & _) & (O0 & _) & (O' & _)).
    pose proof (pos_of_PosR l0 c0 _ _ _ _ O C0 P0 P) as Q0. pose proof (pos_of_PosR l0 c0 _ _ _ _ O0 C1 P1 Q0) as Q1.
    split; [|auto]. unfold positioned. rewrite Tk. split; assumption. }
  apply (scanAll_ind m _ (fun s ts => at_off src s -> (line s, col s) = pos_of l0 c0 src (cur s) -> Forall (positioned l0 c0 src) ts)).
  - intros s t s' T _ O P. destruct (Head _ _ _ O P T) as (Ht & _). auto.
  - intros s t s' ts T _ IH O P. destruct (Head _ _ _ O P T) as (Ht & O' & P'). auto.
Qed.

Theorem scan_positions m l0 c0 i0 src ts : scan_from m l0 c0 i0 src = Some ts -> Forall (positioned l0 c0 src) ts.
Proof.
  unfold scan_from. intros H. apply (scanAll_positions _ l0 c0 src) in H; [exact H|apply at_off_start|reflexivity].
Qed.

Lemma scanAll_Forall m src (P : token -> Prop) :
  (forall s t s', at_off src s -> nextToken m (S (length src)) s = Some (t, s') -> P t) ->
  forall fuel s ts, scanAll m (S (length src)) fuel s = Some ts -> at_off src s -> Forall P ts.
Proof.
  intros HP. apply (scanAll_ind m _ (fun s ts => at_off src s -> Forall P ts)).
  - intros s t s' T _ O. constructor; [exact (HP _ _ _ O T)|constructor].
  - intros s t s' ts T _ IH O. constructor; [exact (HP _ _ _ O T)|]. apply IH.
    destruct (token_frame _ _ _ _ _ O T) as (ws & mid & s0 & _ & _ & _ & (O' & _)). exact O'.
Qed.

(* shouldIndent is on only before the first token; behind a token it is off unless the source is exhausted (then
   the gap is empty): so the gap rule adds to the depth only at `first` *)
Lemma scanAll_indents m src : forall fuel s ts, scanAll m (S (length src)) fuel s = Some ts ->
  forall first, at_off src s -> (shi s = first \/ rest s = []) -> indents src first (cur s) (indent s) ts.
Proof.
  assert (Head : forall s t s' r first, at_off src s -> (shi s = first \/ rest s = []) -> nextToken m (S (length src)) s = Some (t, s') ->
            (at_off src s' -> (shi s' = false \/ rest s' = []) -> indents src false (cur s') (indent s') r) ->
            indents src first (cur s) (indent s) (t :: r)).
  { intros s t s' r first O Hsh T Hr.
    destruct (token_frame _ _ _ _ _ O T) as (ws & mid & s0 & (M & B & I0) & (St & Tk & K & Mx) & (O0 & G) & (O' & Bd & _)).
    destruct St as [_ I]. unfold IndR in I.
    assert (I1 : indent s' = if has_lf mid then 0 else indent s0).
    { change (indent s') with (fst (indent s', shi s')). rewrite I, tok_ind_depth. reflexivity. }
    assert (S1 : shi s' = false \/ rest s' = []).
    { destruct mid as [|c mid]; [right; exact (proj1 Mx eq_refl)|].
      destruct (class_ok_last _ _ _ _ K) as [E|(l' & e & El & Sp)]; [discriminate|auto|]. left.
      change (shi s') with (snd (indent s', shi s')). rewrite I, El. apply tok_ind_last, Sp. }
    assert (D1 : indent s0 = (if has_lf ws then indent_run 0 (after_last_lf ws) else if first then indent s + indent_run 0 ws else indent s)).
    { rewrite I0, gapd_spec by auto. destruct (has_lf ws); auto. destruct Hsh as [<-|Re]; auto.
      destruct M as [[R0 _] _]. rewrite Re in R0. destruct ws; [|discriminate R0]. cbn. destruct (shi s), first; lia. }
    cbn [indents]. rewrite Tk. cbn [tstart tend tindent mkToken]. rewrite G, Bd, <- D1, <- I1. auto. }
  apply (scanAll_ind m _ (fun s ts => forall first, at_off src s -> (shi s = first \/ rest s = []) -> indents src first (cur s) (indent s) ts)).
  - intros s0 t s' T _ first O Hsh. apply (Head _ _ _ _ _ O Hsh T). cbn. auto.
  - intros s0 t s' ts' T _ IH first O Hsh. apply (Head _ _ _ _ _ O Hsh T). apply IH.
Qed.

Theorem scan_indents m l0 c0 i0 src ts : scan_from m l0 c0 i0 src = Some ts -> indents src true 0 i0 ts.
Proof.
  unfold scan_from. intros H. apply (scanAll_indents _ src _ _ _ H true); [apply at_off_start|auto].
Qed.
