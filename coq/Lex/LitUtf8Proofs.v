(* C19 — the rune functions of LitUtf8.v on encoded scalar values: encode_rune is the encoder of Lex/Utf8.v, so
   decode_rune, rune_count and decode_last_rune are computed on its utf8_seq (Utf8Proofs). *)
From Coq Require Import List NArith ZArith Bool Lia ZifyBool.
Import ListNotations.
From DDP Require Lex.Utf8 Lex.Utf8Proofs.
From DDP Require Import Lex.LitUtf8.
Import Utf8Proofs(utf8_seq).
Open Scope N_scope.

Lemma nlen_app {A} (a b : list A) : nlen (a ++ b) = nlen a + nlen b.
Proof. unfold nlen. rewrite app_length. lia. Qed.

Lemma nlen_cons {A} (a : A) (l : list A) : nlen (a :: l) = 1 + nlen l.
Proof. unfold nlen. cbn [length]. lia. Qed.

Lemma nlen_nil {A} : nlen (@nil A) = 0.
Proof. reflexivity. Qed.

Lemma skipn_nlen_app {A} (a b : list A) : skipn (N.to_nat (nlen a)) (a ++ b) = b.
Proof.
  unfold nlen. rewrite Nat2N.id. rewrite skipn_app, skipn_all, Nat.sub_diag. reflexivity.
Qed.

Lemma skipn_nlen_add_app {A} (a b : list A) (n : N) : skipn (N.to_nat (nlen a + n)) (a ++ b) = skipn (N.to_nat n) b.
Proof.
  unfold nlen. rewrite N2Nat.inj_add, Nat2N.id, skipn_app, skipn_all2 by lia.
  replace (length a + N.to_nat n - length a)%nat with (N.to_nat n) by lia. reflexivity.
Qed.

Lemma firstn_nlen_app {A} (a b : list A) : firstn (N.to_nat (nlen a)) (a ++ b) = a.
Proof.
  unfold nlen. rewrite Nat2N.id. rewrite firstn_app, firstn_all, Nat.sub_diag. cbn [firstn].
  apply app_nil_r.
Qed.


Lemma encode_rune_len (c : N) : 1 <= nlen (encode_rune c) <= 4.
Proof.
  unfold encode_rune.
  destruct (c <? 128); [cbn; lia|].
  destruct (c <? 2048); [cbn; lia|].
  destruct (_ || _); [cbn; lia|].
  destruct (c <? 65536); cbn; lia.
Qed.

Lemma encode_rune_ascii (c : N) : c < 128 -> encode_rune c = [c].
Proof. intros H. unfold encode_rune. destruct (N.ltb_spec c 128); [reflexivity|lia]. Qed.

Lemma encode_cons (c : N) (cs : list N) : encode (c :: cs) = encode_rune c ++ encode cs.
Proof. reflexivity. Qed.

Lemma encode_app (a b : list N) : encode (a ++ b) = encode a ++ encode b.
Proof. unfold encode. apply flat_map_app. Qed.

Lemma valid_cp_scalar (c : N) : valid_cp c = Utf8.scalar c.
Proof. unfold valid_cp, Utf8.scalar. lia. Qed.

Lemma encode_rune_encode1 (c : N) : encode_rune c = Utf8.encode1 c.
Proof.
  unfold encode_rune, Utf8.encode1, Utf8.scalar.
  replace (((55296 <=? c) && (c <? 57344)) || (1114112 <=? c))
    with (negb ((c <? 55296) || (57343 <? c) && (c <? 1114112))) by lia.
  reflexivity.
Qed.

Lemma encode_rune_seq (c : N) : valid_cp c = true -> utf8_seq c (encode_rune c).
Proof.
  intros Hv. rewrite valid_cp_scalar in Hv. pose proof (Utf8Proofs.encode1_seq c) as S.
  rewrite Hv in S. rewrite encode_rune_encode1. exact S.
Qed.

Lemma in_range_true lo hi b : lo <= b <= hi -> in_range lo hi b = true.
Proof. unfold in_range. lia. Qed.

Lemma seq_decode_rune c bs rest : utf8_seq c bs -> decode_rune (bs ++ rest) = (c, nlen bs).
Proof.
  intros S. destruct S; cbn [app decode_rune]; unfold is_cont.
  - replace (c <? 128) with true by lia. reflexivity.
  - replace (192 + x <? 128) with false by lia. replace (192 + x <? 194) with false by lia.
    replace (192 + x <? 224) with true by lia. rewrite in_range_true by lia. apply f_equal2; [lia | reflexivity].
  - replace (224 + x <? 128) with false by lia. replace (224 + x <? 194) with false by lia.
    replace (224 + x <? 224) with false by lia. replace (224 + x <? 240) with true by lia.
    destruct (224 + x =? 224) eqn:A; destruct (224 + x =? 237) eqn:B; do 2 (rewrite in_range_true by lia); (apply f_equal2; [lia | reflexivity]).
  - replace (240 + w <? 128) with false by lia. replace (240 + w <? 194) with false by lia.
    replace (240 + w <? 224) with false by lia. replace (240 + w <? 240) with false by lia.
    replace (240 + w <? 245) with true by lia.
    destruct (240 + w =? 240) eqn:A; destruct (240 + w =? 244) eqn:B; do 3 (rewrite in_range_true by lia); (apply f_equal2; [lia | reflexivity]).
Qed.

(* decoding what was encoded gives the code point back, with the encoded width *)
Lemma decode_rune_encode_rune (c : N) (rest : list N) :
  valid_cp c = true ->
  decode_rune (encode_rune c ++ rest) = (c, nlen (encode_rune c)).
Proof. intros Hv. apply seq_decode_rune, encode_rune_seq, Hv. Qed.


Lemma decode_rune_width (b : N) (bs : list N) : 1 <= snd (decode_rune (b :: bs)) <= nlen (b :: bs).
Proof.
  unfold decode_rune. rewrite nlen_cons.
  destruct (b <? 128); [cbn [snd]; lia|].
  destruct (b <? 194); [cbn [snd]; lia|].
  destruct (b <? 224).
  { destruct bs as [|b1 t]; [cbn [snd]; lia|]. rewrite nlen_cons.
    destruct (is_cont b1); cbn [snd]; lia. }
  destruct (b <? 240).
  { destruct bs as [|b1 [|b2 t]]; try (cbn [snd]; lia). rewrite !nlen_cons.
    destruct (_ && _); cbn [snd]; lia. }
  destruct (b <? 245); [|cbn [snd]; lia].
  destruct bs as [|b1 [|b2 [|b3 t]]]; try (cbn [snd]; lia). rewrite !nlen_cons.
  destruct (_ && _); cbn [snd]; lia.
Qed.

Lemma decode_rune_width_le (bs : list N) : snd (decode_rune bs) <= nlen bs.
Proof. destruct bs as [|b0 t]; [cbn; lia|apply decode_rune_width]. Qed.

Lemma decode_rune_width_pos (b : N) (bs : list N) : 1 <= snd (decode_rune (b :: bs)).
Proof. apply decode_rune_width. Qed.


(* one decoding step on an encoded list (the loops over a byte string test for [] before they decode) *)
Lemma decode_rune_encode (c : N) (cs : list N) : valid_cp c = true ->
  exists b t, encode (c :: cs) = b :: t /\ decode_rune (b :: t) = (c, nlen (encode_rune c)) /\
              skipn (N.to_nat (nlen (encode_rune c))) (b :: t) = encode cs.
Proof.
  intros Hc. rewrite encode_cons. pose proof (encode_rune_len c) as Hl.
  destruct (encode_rune c ++ encode cs) as [|b t] eqn:E.
  { destruct (encode_rune c); [cbn in Hl; lia|discriminate E]. }
  exists b, t. rewrite <- E. split; [reflexivity|]. split; [apply decode_rune_encode_rune; exact Hc|apply skipn_nlen_app].
Qed.

Lemma rune_count_fuel_encode (cs : list N) :
  forallb valid_cp cs = true ->
  forall fuel, (length (encode cs) <= fuel)%nat -> rune_count_fuel fuel (encode cs) = nlen cs.
Proof.
  induction cs as [|c cs IH]; intros Hv fuel Hf.
  - destruct fuel; reflexivity.
  - cbn [forallb] in Hv. apply andb_prop in Hv. destruct Hv as [Hc Hcs].
    destruct (decode_rune_encode c cs Hc) as (b & t & E & D & Sk). rewrite E in *.
    destruct fuel as [|fuel]; [cbn in Hf; lia|]. cbn [rune_count_fuel]. rewrite D, Sk, IH, nlen_cons; auto.
    rewrite <- Sk, skipn_length. pose proof (encode_rune_len c). cbn [length] in *. lia.
Qed.

Lemma rune_count_encode (cs : list N) :
  forallb valid_cp cs = true -> rune_count (encode cs) = nlen cs.
Proof. intros H. apply rune_count_fuel_encode; [exact H|lia]. Qed.

(* decode_last_rune on  encode_rune c  and on  [x] ++ encode_rune c *)

Lemma rune_start_lead b : 192 <= b -> rune_start b = true.
Proof. unfold rune_start, is_cont, in_range. lia. Qed.
Lemma rune_start_cont b : 128 <= b <= 191 -> rune_start b = false.
Proof. unfold rune_start, is_cont, in_range. lia. Qed.

Ltac dl_norm :=
  cbn; change (Pos.to_nat 4) with 4%nat; change (Pos.to_nat 3) with 3%nat; change (Pos.to_nat 2) with 2%nat;
  change (Pos.to_nat 1) with 1%nat; cbn.

Section DecodeLast.
  Opaque decode_rune N.ltb rune_start.

  Lemma dl_ascii (pre : list N) (c : N) : c < 128 -> decode_last_rune (pre ++ [c]) = (c, 1).
  Proof.
    intros Hc. unfold decode_last_rune.
    destruct (pre ++ [c]) eqn:E; [destruct pre; discriminate E|]. rewrite <- E. clear E.
    rewrite app_length. cbn [length].
    replace (Z.to_nat (Z.of_nat (length pre + 1) - 1)) with (length pre) by lia.
    rewrite nth_middle. destruct (N.ltb_spec c 128); [reflexivity|lia].
  Qed.

  (* the backward scan from the last but one byte stops on the lead byte a (with a byte in front of a four-byte
     sequence because it has reached the limit end-4 = 1) *)
  Lemma dl_multi (pre : list N) a bs c : (length pre <= 1)%nat -> (1 <= length bs <= 3)%nat ->
    rune_start a = true -> (forall b, In b (removelast bs) -> rune_start b = false) -> 128 <= last bs 0 ->
    decode_rune (a :: bs) = (c, nlen (a :: bs)) ->
    decode_last_rune (pre ++ a :: bs) = (c, nlen (a :: bs)).
  Proof.
    intros Hp Hb Ha Hc Hl D.
    destruct pre as [|p [|? ?]]; [| |cbn in Hp; lia];
      (destruct bs as [|b1 [|b2 [|b3 [|? ?]]]]; cbn [length] in Hb; try lia);
      unfold decode_last_rune; dl_norm; cbn [last] in Hl; cbn [removelast In] in Hc;
      match goal with |- context [?x <? 128] => destruct (N.ltb_spec x 128); [lia|] end; rewrite ?Hc, Ha by auto; dl_norm; rewrite D; reflexivity.
  Qed.
  Transparent decode_rune N.ltb rune_start.
End DecodeLast.

Lemma decode_last_encode (pre : list N) (c : N) :
  valid_cp c = true -> (length pre <= 1)%nat ->
  decode_last_rune (pre ++ encode_rune c) = (c, nlen (encode_rune c)).
Proof.
  intros Hv Hp. pose proof (decode_rune_encode_rune c [] Hv) as D. rewrite app_nil_r in D.
  pose proof (encode_rune_seq c Hv) as S. remember (encode_rune c) as bs. clear Heqbs Hv.
  destruct S; [apply dl_ascii; assumption | apply dl_multi ..]; try assumption; cbn [length removelast last In]; try lia.
  all: try (apply rune_start_lead; lia).
  all: intros b Hb; repeat (destruct Hb as [<-|Hb]; [apply rune_start_cont; lia|]); destruct Hb.
Qed.
