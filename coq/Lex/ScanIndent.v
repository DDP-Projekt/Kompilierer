(* C13 — indentation, specification side: the depth skipWhitespace computes over a gap (gapd) is the declarative
   rule of ScanSpec; how Indent and shouldIndent move over the characters of a token (tok_ind). Nothing here
   mentions the scanner state. *)
From Coq Require Import List NArith Bool Lia.
Import ListNotations.
From DDP Require Import Lex.ScanModel Lex.ScanSpec.
Open Scope N_scope.

(* the depth after a gap, as skipWhitespace computes it (sh = shouldIndent, d = indent, run = consecutiveSpaceCount) *)
Fixpoint gapd (sh : bool) (d run : N) (ws : list N) : N :=
  match ws with
  | [] => d
  | c :: r =>
    if c =? 10 then gapd true 0 0 r
    else if c =? 32 then (if sh && (run + 1 =? 4) then gapd sh (d + 1) 0 r else gapd sh d (run + 1) r)
    else if c =? 9 then gapd sh (if sh then d + 1 else d) 0 r
    else gapd sh d 0 r
  end.

Lemma has_lf_cons c r : has_lf (c :: r) = (c =? 10) || has_lf r.
Proof. unfold has_lf. cbn [existsb]. rewrite (N.eqb_sym 10 c). reflexivity. Qed.
Lemma has_lf_app a b : has_lf (a ++ b) = has_lf a || has_lf b.
Proof. unfold has_lf. apply existsb_app. Qed.

(* the rule, read off the gap: declarative form of gapd *)
Lemma gapd_spec : forall ws sh d run, Forall blank ws ->
  gapd sh d run ws = if has_lf ws then indent_run 0 (after_last_lf ws)
                     else if sh then d + indent_run run ws else d.
Proof.
  induction ws as [|c r IH]; intros sh d run B.
  { cbn. destruct sh; lia. }
  inversion B as [|c' r' Bc Br]; subst. cbn [gapd after_last_lf indent_run]. rewrite has_lf_cons.
  destruct (c =? 10) eqn:E10.
  { rewrite IH by auto. cbn [orb]. destruct (has_lf r); auto. }
  cbn [orb]. destruct (c =? 32) eqn:E32.
  { destruct sh; cbn [andb].
    - destruct (run + 1 =? 4); rewrite IH by auto; destruct (has_lf r); auto; lia.
    - rewrite IH by auto. destruct (has_lf r); auto. }
  destruct (c =? 9) eqn:E9.
  { rewrite IH by auto. destruct (has_lf r); auto. destruct sh; lia. }
  assert (E13 : (c =? 13) = true).
  { destruct Bc as [-> | [-> | [-> | ->]]]; try discriminate; reflexivity. }
  rewrite E13. rewrite IH by auto. destruct (has_lf r); auto.
Qed.

(* (Indent, shouldIndent) over one character of a token: a line feed resets the depth and re-arms shouldIndent
   (increaseLineBeforeAdvance), any other character keeps the depth and disarms shouldIndent unless it is a space *)
Definition tok_ind (p : N * bool) (c : N) : N * bool :=
  if c =? 10 then (0, true) else (fst p, snd p && isSpace c).

Lemma tok_ind_depth l : forall p, fst (fold_left tok_ind l p) = if has_lf l then 0 else fst p.
Proof.
  induction l as [|c l IH]; intros p; [reflexivity|]. cbn [fold_left]. rewrite IH, has_lf_cons. unfold tok_ind.
  destruct (c =? 10); cbn [orb fst]; [destruct (has_lf l)|]; reflexivity.
Qed.

Lemma tok_ind_last l c p : isSpace c = false -> snd (fold_left tok_ind (l ++ [c]) p) = false.
Proof.
  intros Sp. rewrite fold_left_app. cbn [fold_left]. unfold tok_ind. destruct (c =? 10) eqn:E.
  - apply N.eqb_eq in E. subst c. discriminate Sp.
  - cbn [snd]. rewrite Sp. apply andb_false_r.
Qed.
