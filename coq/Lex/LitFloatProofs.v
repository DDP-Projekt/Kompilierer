(* C19 — Kommazahl literals: the model's decimal-to-binary64 conversion is the correctly rounded quotient
   (round to nearest, ties to even) of the written decimal, for literals of any length. *)
From Coq Require Import List NArith ZArith Bool Lia Reals.
From Coq Require Import Floats.SpecFloat.
From Flocq Require Import Core.Core IEEE754.BinarySingleNaN.
Import ListNotations.
From DDP Require Import Lex.LitUtf8 Lex.Literals.

Local Instance prec_gt_0_53 : FLX.Prec_gt_0 53 := eq_refl.
Local Instance prec_lt_emax_53 : Prec_lt_emax 53 1024 := eq_refl.

Definition b64_round (x : R) : R := round radix2 (SpecFloat.fexp 53 1024) ZnearestE x.

Lemma F2R_int (m : positive) : F2R (Float radix2 (cond_Zopp false (Zpos m)) 0) = IZR (Zpos m).
Proof. unfold F2R. cbn [Fnum Fexp cond_Zopp bpow]. apply Rmult_1_r. Qed.

(* the quotient core: Flocq's Bdiv_correct_aux holds for arbitrary positive integers *)
Lemma dec_to_sf_correct (m d : positive) :
  let x := (IZR (Zpos m) / IZR (Zpos d))%R in
  let z := dec_to_sf m d in
  valid_binary 53 1024 z = true /\
  if Rlt_bool (Rabs (b64_round x)) (bpow radix2 1024) then
    SF2R radix2 z = b64_round x /\ is_finite_SF z = true /\ sign_SF z = false
  else z = S754_infinity false.
Proof.
  pose proof (Bdiv_correct_aux 53 1024 _ _ mode_NE false m 0 false d 0) as H.
  rewrite !F2R_int in H. cbv zeta in H. exact H.
Qed.

Lemma pow10_spec k : Zpos (pow10 k) = (10 ^ Z.of_nat k)%Z.
Proof.
  induction k as [|k IH]; [reflexivity|].
  change (pow10 (S k)) with (10 * pow10 k)%positive.
  rewrite Pos2Z.inj_mul, IH, Nat2Z.inj_succ, Z.pow_succ_r by lia. reflexivity.
Qed.

Lemma split_comma_digits ip fp : forallb is_digit ip = true -> split_comma (ip ++ 44%N :: fp) = (ip, Some fp).
Proof.
  induction ip as [|c ip IH]; intros H.
  - cbn [app split_comma]. reflexivity.
  - cbn [forallb] in H. apply andb_prop in H. destruct H as [Hc Hip].
    cbn [app split_comma]. unfold is_digit in Hc.
    destruct (N.eqb_spec c 44) as [E|E].
    + subst c. cbn in Hc. discriminate Hc.
    + rewrite (IH Hip). reflexivity.
Qed.

(* value written by  ip , fp *)
Definition dec_real (ip fp : list N) : R :=
  (IZR (Z.of_N (dec_value (ip ++ fp))) / IZR (10 ^ Z.of_nat (length fp)))%R.

Theorem parse_float_correct ip fp :
  ip <> [] -> forallb is_digit ip = true -> forallb is_digit fp = true ->
  let x := dec_real ip fp in
  if Rlt_bool (Rabs (b64_round x)) (bpow radix2 1024) then
    exists f, parse_float (ip ++ 44%N :: fp) = FOk f /\ valid_binary 53 1024 f = true /\
              SF2R radix2 f = b64_round x /\ is_finite_SF f = true /\ sign_SF f = false
  else parse_float (ip ++ 44%N :: fp) = FRange.
Proof.
  intros Hne Hip Hfp x. unfold parse_float. rewrite (split_comma_digits ip fp Hip).
  rewrite forallb_app, Hip, Hfp. cbn [andb].
  assert (Hl : (nlen (ip ++ fp) =? 0)%N = false).
  { destruct ip; [contradiction|]. reflexivity. }
  rewrite Hl. cbn [negb].
  unfold x, dec_real. destruct (dec_value (ip ++ fp)) as [|m] eqn:Ev.
  - cbn [Z.of_N]. unfold Rdiv. rewrite Rmult_0_l. unfold b64_round. rewrite round_0 by typeclasses eauto.
    rewrite Rabs_R0. rewrite Rlt_bool_true by apply bpow_gt_0.
    exists (S754_zero false). repeat split.
  - cbn [Z.of_N]. rewrite <- pow10_spec.
    pose proof (dec_to_sf_correct m (pow10 (length fp))) as H. cbv zeta in H.
    destruct H as [Hvalid H].
    destruct (Rlt_bool _ _).
    + destruct H as (HR & Hfin & Hsign).
      exists (dec_to_sf m (pow10 (length fp))).
      destruct (dec_to_sf m (pow10 (length fp))); try discriminate Hfin; repeat split; assumption.
    + rewrite H. reflexivity.
Qed.
