(* C13 — the regenerated keyword table scans to itself, and non-vacuity examples for the theorems of Props/C13.v. *)
From Coq Require Import List NArith Bool.
Import ListNotations.
From DDP Require Import Gen.Tokens Lex.Utf8 Lex.ScanModel.
Open Scope N_scope.

(* alias mode, a line feed inside <...>: the parameter ends on line 2, what follows is positioned there *)
Definition lf_alias : list N := [9; 60; 10; 62; 120].          (* "\t<\n>x" *)
Example lf_alias_tokens :
  option_map (map (fun t => (length (lit t), tindent t, (sl t, sc t), (el t, ec t)))) (scan_from Alias 1 1 0 lf_alias) =
  Some [(3%nat, 0, (1,2), (2,2)); (1%nat, 0, (2,2), (2,3)); (0%nat, 0, (2,3), (2,3))].
Proof. vm_compute. reflexivity. Qed.

(* "Wenn x größer als 1,5 ist,\n\tSchreibe \"a\\n\" [k [n]]." : keywords, identifier, float, text, nested comment, indentation *)
Definition sample : list N :=
  [87;101;110;110;32;120;32;103;114;246;223;101;114;32;97;108;115;32;49;44;53;32;105;115;116;44;10;
   9;83;99;104;114;101;105;98;101;32;34;97;92;110;34;32;91;107;32;91;110;93;93;46].
Example sample_tokens :
  option_map (map (fun t => (length (lit t), tindent t, (sl t, sc t), (el t, ec t)))) (scan Normal sample) =
  Some [(4%nat, 0, (1,1), (1,5)); (1%nat, 0, (1,6), (1,7)); (6%nat, 0, (1,8), (1,14)); (3%nat, 0, (1,15), (1,18));
        (3%nat, 0, (1,19), (1,22)); (3%nat, 0, (1,23), (1,26)); (1%nat, 0, (1,26), (1,27));
        (8%nat, 1, (2,2), (2,10)); (5%nat, 1, (2,11), (2,16)); (7%nat, 1, (2,17), (2,24)); (1%nat, 1, (2,24), (2,25));
        (0%nat, 1, (2,25), (2,25))].
Proof. vm_compute. reflexivity. Qed.
Example sample_kinds :
  option_map (map (fun t => existsb (N.eqb (ty t)) [tt_IDENTIFIER; tt_FLOAT; tt_STRING; tt_COMMENT; tt_COMMA; tt_DOT; tt_EOF])) (scan Normal sample) =
  Some [false; true; false; false; true; false; true; true; true; true; true; true].
Proof. vm_compute. reflexivity. Qed.
Definition sample_alias : list N := [100;101;114;32;60;97;62;32;42;120].       (* "der <a> *x" *)
Example sample_alias_ok : exists ts, scan_from Alias 3 7 2 sample_alias = Some ts /\
  exists t, In t ts /\ ty t = tt_ALIAS_PARAMETER /\ (sl t, sc t) = (3, 11) /\ tindent t = 2.
Proof.
  eexists. split; [vm_compute; reflexivity|].
  eexists. split; [right; left; reflexivity|]. vm_compute. auto.
Qed.
Example sample_utf8 : valid [195; 164; 226; 130; 172; 240; 159; 152; 128] = true /\ valid [237; 160; 128] = false /\ valid [192; 128] = false.
Proof. vm_compute. auto. Qed.

(* ---- the regenerated keyword table: every spelling (incl. the ASCII transliterations the table lists) is
   one word, scans to exactly its keyword token + EOF, and so does its capitalised form, unless the capitalised
   spelling is a table entry of its own (in the pinned table only mal/Mal: MAL vs COUNT_MAL) ---- *)
Definition capitalise (l : list N) : list N :=
  match l with
  | c :: r => (if ((97 <=? c) && (c <=? 122)) || (c =? 228) || (c =? 246) || (c =? 252) then c - 32 else c) :: r
  | [] => []
  end.
Definition capitalised_type (k : list N) (v : N) : N :=
  match lookup keyword_table (capitalise k) with Some v' => v' | None => v end.
Definition keyword_row_ok (kv : list N * N) : bool :=
  match scan Normal (fst kv), scan Normal (capitalise (fst kv)) with
  | Some [a; e], Some [a'; e'] =>
    (ty a =? snd kv) && list_eqb (lit a) (fst kv) && (ty e =? tt_EOF) &&
    (ty a' =? capitalised_type (fst kv) (snd kv)) && list_eqb (lit a') (capitalise (fst kv)) && (ty e' =? tt_EOF)
  | _, _ => false
  end.
Lemma keyword_table_scans : forallb keyword_row_ok keyword_table = true.
Proof. vm_compute. reflexivity. Qed.

Lemma list_eqb_eq a : forall b, list_eqb a b = true -> a = b.
Proof.
  induction a as [|x a IH]; intros [|y b] H; cbn in H; try discriminate H; auto.
  apply andb_true_iff in H. destruct H as [H1 H2]. apply N.eqb_eq in H1. f_equal; auto.
Qed.

Theorem keywords_scan k v : In (k, v) keyword_table ->
  (exists a e, scan Normal k = Some [a; e] /\ ty a = v /\ lit a = k /\ ty e = tt_EOF) /\
  (exists a e, scan Normal (capitalise k) = Some [a; e] /\ ty a = capitalised_type k v /\ lit a = capitalise k /\ ty e = tt_EOF).
Proof.
  intros I. pose proof keyword_table_scans as T. rewrite forallb_forall in T. specialize (T _ I).
  unfold keyword_row_ok in T. cbn [fst snd] in T.
  destruct (scan Normal k) as [[|a [|e [|x r]]]|]; try discriminate T.
  destruct (scan Normal (capitalise k)) as [[|a' [|e' [|x' r']]]|]; try discriminate T.
  repeat (apply andb_true_iff in T; destruct T as [T ?]).
  repeat match goal with H : (_ =? _) = true |- _ => apply N.eqb_eq in H | H : list_eqb _ _ = true |- _ => apply list_eqb_eq in H end.
  split; eauto 10.
Qed.
