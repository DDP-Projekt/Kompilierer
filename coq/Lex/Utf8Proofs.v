(* UTF-8 gate: `valid` accepts exactly the images of `encode`; decode and encode are mutually inverse
   on valid bytes / scalar values.
   All through utf8_seq c bs (bs is the sequence of c, its base-64 digits as variables): division only in encode1_seq. *)
From Coq Require Import NArith List Bool Lia ZifyBool Wf_nat.
Import ListNotations.
From DDP Require Import Lex.Utf8.
Open Scope N_scope.

(* side conditions: x = 0 -> 32 <= y and w = 0 -> 16 <= x exclude overlong forms, x = 13 -> y < 32 the surrogates,
   w = 4 -> x < 16 everything above U+10FFFF (the acceptRanges of unicode/utf8) *)
Inductive utf8_seq : N -> list N -> Prop :=
| Seq1 c : c < 128 -> utf8_seq c [c]
| Seq2 x y : 2 <= x < 32 -> y < 64 -> utf8_seq (x * 64 + y) [192 + x; 128 + y]
| Seq3 x y z : x < 16 -> y < 64 -> z < 64 -> (x = 0 -> 32 <= y) -> (x = 13 -> y < 32) ->
    utf8_seq (x * 4096 + y * 64 + z) [224 + x; 128 + y; 128 + z]
| Seq4 w x y z : w < 5 -> x < 64 -> y < 64 -> z < 64 -> (w = 0 -> 16 <= x) -> (w = 4 -> x < 16) ->
    utf8_seq (w * 262144 + x * 4096 + y * 64 + z) [240 + w; 128 + x; 128 + y; 128 + z].

Lemma b64_digits2 c : c = c / 64 * 64 + c mod 64 /\ c mod 64 < 64.
Proof. split; [rewrite N.mul_comm; apply N.div_mod; discriminate | apply N.mod_lt; discriminate]. Qed.

Lemma b64_digits3 c : c = c / 4096 * 4096 + (c / 64) mod 64 * 64 + c mod 64 /\ (c / 64) mod 64 < 64 /\ c mod 64 < 64.
Proof.
  destruct (b64_digits2 c) as [E0 H0]. destruct (b64_digits2 (c / 64)) as [E1 H1].
  rewrite N.div_div in E1 by discriminate. change (64 * 64) with 4096 in E1. lia.
Qed.

Lemma b64_digits4 c :
  c = c / 262144 * 262144 + (c / 4096) mod 64 * 4096 + (c / 64) mod 64 * 64 + c mod 64 /\
  (c / 4096) mod 64 < 64 /\ (c / 64) mod 64 < 64 /\ c mod 64 < 64.
Proof.
  destruct (b64_digits3 c) as (E0 & H1 & H0). destruct (b64_digits2 (c / 4096)) as [E2 H2].
  rewrite N.div_div in E2 by discriminate. change (4096 * 64) with 262144 in E2. lia.
Qed.

Lemma div_mod_64 x y : y < 64 -> (x * 64 + y) / 64 = x /\ (x * 64 + y) mod 64 = y.
Proof. intros H. split; [symmetry; apply (N.div_unique _ _ _ y) | symmetry; apply (N.mod_unique _ _ x)]; lia. Qed.

Lemma b64_digits3_of x y z : y < 64 -> z < 64 ->
  (x * 4096 + y * 64 + z) / 4096 = x /\ ((x * 4096 + y * 64 + z) / 64) mod 64 = y /\ (x * 4096 + y * 64 + z) mod 64 = z.
Proof.
  intros Hy Hz. replace (x * 4096 + y * 64 + z) with ((x * 64 + y) * 64 + z) by lia.
  change 4096 with (64 * 64). rewrite <- N.div_div by discriminate.
  destruct (div_mod_64 (x * 64 + y) z Hz) as [-> ->]. destruct (div_mod_64 x y Hy) as [-> ->]. auto.
Qed.

Lemma b64_digits4_of w x y z : x < 64 -> y < 64 -> z < 64 ->
  let c := w * 262144 + x * 4096 + y * 64 + z in
  c / 262144 = w /\ (c / 4096) mod 64 = x /\ (c / 64) mod 64 = y /\ c mod 64 = z.
Proof.
  intros Hx Hy Hz c. subst c.
  replace (w * 262144 + x * 4096 + y * 64 + z) with (((w * 64 + x) * 64 + y) * 64 + z) by lia.
  change 262144 with (64 * 64 * 64). change 4096 with (64 * 64). rewrite <- !N.div_div by discriminate.
  destruct (div_mod_64 ((w * 64 + x) * 64 + y) z Hz) as [-> ->]. destruct (div_mod_64 (w * 64 + x) y Hy) as [-> ->].
  destruct (div_mod_64 w x Hx) as [-> ->]. auto.
Qed.

Lemma encode1_seq c : utf8_seq (if scalar c then c else 65533) (encode1 c).
Proof.
  unfold encode1. destruct (scalar c) eqn:S; unfold scalar in S.
  - destruct (c <? 128) eqn:E1; [apply Seq1; lia|].
    destruct (c <? 2048) eqn:E2.
    { destruct (b64_digits2 c) as [E Hy]. revert E Hy. generalize (c / 64) (c mod 64). intros x y E Hy.
      rewrite E at 1. apply Seq2; lia. }
    cbn [negb]. destruct (c <? 65536) eqn:E3.
    { destruct (b64_digits3 c) as (E & Hy & Hz). revert E Hy Hz. generalize (c / 4096) ((c / 64) mod 64) (c mod 64).
      intros x y z E Hy Hz. rewrite E at 1. apply Seq3; lia. }
    destruct (b64_digits4 c) as (E & Hx & Hy & Hz). revert E Hx Hy Hz.
    generalize (c / 262144) ((c / 4096) mod 64) ((c / 64) mod 64) (c mod 64).
    intros w x y z E Hx Hy Hz. rewrite E at 1. apply Seq4; lia.
  - replace (c <? 128) with false by lia. replace (c <? 2048) with false by lia. cbn [negb].
    apply (Seq3 15 63 61); lia.
Qed.

Lemma seq_decode c bs r : utf8_seq c bs -> decode (bs ++ r) = c :: decode r.
Proof.
  intros S. destruct S; cbn [app decode].
  - replace (c <? 128) with true by lia. reflexivity.
  - replace (192 + x <? 128) with false by lia. replace (192 + x <? 224) with true by lia. f_equal. lia.
  - replace (224 + x <? 128) with false by lia. replace (224 + x <? 224) with false by lia.
    replace (224 + x <? 240) with true by lia. f_equal. lia.
  - replace (240 + w <? 128) with false by lia. replace (240 + w <? 224) with false by lia.
    replace (240 + w <? 240) with false by lia. f_equal. lia.
Qed.

Lemma inr_iff lo hi b : inr lo hi b = true <-> lo <= b <= hi.
Proof. unfold inr. lia. Qed.
Lemma inr_true lo hi b : lo <= b <= hi -> inr lo hi b = true.
Proof. apply inr_iff. Qed.
Lemma inr_false lo hi b : b < lo \/ hi < b -> inr lo hi b = false.
Proof. unfold inr. lia. Qed.

Lemma ok3_iff b0 b1 : inr 224 239 b0 = true ->
  (ok3 b0 b1 = true <-> 128 <= b1 <= 191 /\ (b0 = 224 -> 160 <= b1) /\ (b0 = 237 -> b1 <= 159)).
Proof.
  unfold ok3, cont, inr. intros H. destruct (b0 =? 224) eqn:A; [lia|]. destruct (b0 =? 237) eqn:B; lia.
Qed.
Lemma ok4_iff b0 b1 :
  ok4 b0 b1 = true <-> 240 <= b0 <= 244 /\ 128 <= b1 <= 191 /\ (b0 = 240 -> 144 <= b1) /\ (b0 = 244 -> b1 <= 143).
Proof.
  unfold ok4, cont, inr. destruct (b0 =? 240) eqn:A; [lia|]. destruct (b0 =? 244) eqn:B; lia.
Qed.

Lemma seq_valid c bs r : utf8_seq c bs -> valid (bs ++ r) = valid r.
Proof.
  intros S. destruct S; cbn [app valid].
  - replace (c <? 128) with true by lia. reflexivity.
  - replace (192 + x <? 128) with false by lia. unfold cont. rewrite !inr_true by lia. reflexivity.
  - replace (224 + x <? 128) with false by lia. rewrite inr_false by lia. rewrite (inr_true 224) by lia.
    replace (ok3 (224 + x) (128 + y)) with true by (symmetry; apply ok3_iff; [apply inr_true|]; lia).
    unfold cont. rewrite inr_true by lia. reflexivity.
  - replace (240 + w <? 128) with false by lia. rewrite !inr_false by lia.
    replace (ok4 (240 + w) (128 + x)) with true by (symmetry; apply ok4_iff; lia).
    unfold cont. rewrite !inr_true by lia. reflexivity.
Qed.

Lemma seq_scalar c bs : utf8_seq c bs -> scalar c = true.
Proof. intros S. unfold scalar. destruct S; lia. Qed.

Lemma seq_encode1 c bs : utf8_seq c bs -> encode1 c = bs.
Proof.
  intros S. unfold encode1. rewrite (seq_scalar _ _ S). cbn [negb]. destruct S.
  - replace (c <? 128) with true by lia. reflexivity.
  - destruct (div_mod_64 x y) as [-> ->]; auto.
    replace (x * 64 + y <? 128) with false by lia. replace (x * 64 + y <? 2048) with true by lia. reflexivity.
  - destruct (b64_digits3_of x y z) as (-> & -> & ->); auto. set (c := x * 4096 + y * 64 + z).
    replace (c <? 128) with false by lia. replace (c <? 2048) with false by lia. replace (c <? 65536) with true by lia.
    reflexivity.
  - destruct (b64_digits4_of w x y z) as (-> & -> & -> & ->); auto. set (c := w * 262144 + x * 4096 + y * 64 + z).
    replace (c <? 128) with false by lia. replace (c <? 2048) with false by lia. replace (c <? 65536) with false by lia.
    reflexivity.
Qed.

Lemma valid_cons b0 r0 : valid (b0 :: r0) = true ->
  exists c bs r, b0 :: r0 = bs ++ r /\ utf8_seq c bs /\ valid r = true.
Proof.
  cbn [valid]. intros V.
  destruct (b0 <? 128) eqn:E1.
  { exists b0, [b0], r0. split; [reflexivity|]. split; [apply Seq1; lia|exact V]. }
  destruct r0 as [|b1 r1]; [discriminate V|].
  destruct (inr 194 223 b0) eqn:E2.
  { apply andb_true_iff in V. destruct V as [V1 V]. apply inr_iff in E2. apply inr_iff in V1.
    pose proof (Seq2 (b0 - 192) (b1 - 128)) as S.
    replace (192 + (b0 - 192)) with b0 in S by lia. replace (128 + (b1 - 128)) with b1 in S by lia.
    eexists _, [b0; b1], r1. split; [reflexivity|]. split; [apply S; lia|exact V]. }
  destruct r1 as [|b2 r2]; [discriminate V|].
  destruct (inr 224 239 b0) eqn:E3.
  { apply andb_true_iff in V. destruct V as [V V3]. apply andb_true_iff in V. destruct V as [V1 V2].
    apply (ok3_iff _ _ E3) in V1. apply inr_iff in E3. apply inr_iff in V2. clear E1 E2.
    pose proof (Seq3 (b0 - 224) (b1 - 128) (b2 - 128)) as S.
    replace (224 + (b0 - 224)) with b0 in S by lia. replace (128 + (b1 - 128)) with b1 in S by lia.
    replace (128 + (b2 - 128)) with b2 in S by lia.
    eexists _, [b0; b1; b2], r2. split; [reflexivity|]. split; [apply S; lia|exact V3]. }
  destruct r2 as [|b3 r3]; [discriminate V|].
  apply andb_true_iff in V. destruct V as [V V4]. apply andb_true_iff in V. destruct V as [V V3].
  apply andb_true_iff in V. destruct V as [V1 V2]. apply ok4_iff in V1. apply inr_iff in V2. apply inr_iff in V3.
  clear E1 E2 E3.
  pose proof (Seq4 (b0 - 240) (b1 - 128) (b2 - 128) (b3 - 128)) as S.
  replace (240 + (b0 - 240)) with b0 in S by lia. replace (128 + (b1 - 128)) with b1 in S by lia.
  replace (128 + (b2 - 128)) with b2 in S by lia. replace (128 + (b3 - 128)) with b3 in S by lia.
  eexists _, [b0; b1; b2; b3], r3. split; [reflexivity|]. split; [apply S; lia|exact V4].
Qed.

(* ---- valid bytes are the encoding of their decoding ---- *)
Lemma valid_encode_decode bs : valid bs = true -> encode (decode bs) = bs.
Proof.
  induction bs as [bs IH] using (induction_ltof1 _ (@length N)). unfold ltof in IH. intros V.
  destruct bs as [|b0 r0]; [reflexivity|].
  destruct (valid_cons _ _ V) as (c & s & r & E & S & Vr). rewrite E, (seq_decode _ _ _ S).
  cbn [encode flat_map]. fold (encode (decode r)). rewrite (seq_encode1 _ _ S). f_equal. apply IH; [|exact Vr].
  rewrite E, app_length. destruct S; cbn [length]; lia.
Qed.

(* ---- every encoding is valid ---- *)
Lemma valid_encode1_app c r : valid (encode1 c ++ r) = valid r.
Proof. apply (seq_valid _ _ _ (encode1_seq c)). Qed.

Lemma valid_encode cps : valid (encode cps) = true.
Proof. induction cps as [|c r IH]; [reflexivity|]. cbn [encode flat_map]. rewrite valid_encode1_app. exact IH. Qed.

Theorem utf8_gate bs : valid bs = true <-> exists cps, encode cps = bs.
Proof.
  split.
  - intros V. exists (decode bs). apply valid_encode_decode; auto.
  - intros [cps <-]. apply valid_encode.
Qed.

(* ---- decoding undoes encoding on scalar values ---- *)
Lemma decode_encode1_app c r : scalar c = true -> decode (encode1 c ++ r) = c :: decode r.
Proof. intros S. pose proof (encode1_seq c) as Q. rewrite S in Q. apply (seq_decode _ _ _ Q). Qed.

Theorem decode_encode cps : forallb scalar cps = true -> decode (encode cps) = cps.
Proof.
  induction cps as [|c r IH]; [reflexivity|]. cbn [forallb encode flat_map]. intros H. apply andb_true_iff in H. destruct H as [S H].
  rewrite decode_encode1_app; auto. f_equal. auto.
Qed.
