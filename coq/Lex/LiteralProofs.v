(* C19 — proofs about the literal model (texts, characters, integers). Floats: LitFloatProofs.v *)
From Coq Require Import List NArith ZArith Bool Lia ZifyBool Wf_nat.
Import ListNotations.
From DDP Require Import Lex.LitUtf8 Lex.LitUtf8Proofs Gen.LitEscapes Lex.Literals.
Open Scope N_scope.

Lemma forallb_cons {A} (f : A -> bool) a l : forallb f (a :: l) = true -> f a = true /\ forallb f l = true.
Proof. cbn [forallb]. intros H. apply andb_prop in H. exact H. Qed.

Lemma forallb_app_inv {A} (f : A -> bool) a b : forallb f (a ++ b) = true -> forallb f a = true /\ forallb f b = true.
Proof. rewrite forallb_app. intros H. apply andb_prop in H. exact H. Qed.

(* ---- the regenerated scanner/parser escape tables agree with the specification table ---- *)

Definition is_some {A} (o : option A) : bool := match o with Some _ => true | None => false end.

Lemma lookup_notin k t : ~ In k (map fst t) -> lookup k t = None.
Proof.
  induction t as [|[k' v] t IH]; intros H; [reflexivity|].
  cbn [lookup]. destruct (N.eqb_spec k k') as [E|E].
  - exfalso. apply H. left. cbn. now subst.
  - apply IH. intros Hin. apply H. right. exact Hin.
Qed.

Lemma lookup_ext {A} (f : option N -> A) (t1 t2 : list (N * N)) :
  Forall (fun k => f (lookup k t1) = f (lookup k t2)) (map fst t1 ++ map fst t2) ->
  forall e, f (lookup e t1) = f (lookup e t2).
Proof.
  intros H e. rewrite Forall_forall in H.
  destruct (in_dec N.eq_dec e (map fst t1 ++ map fst t2)) as [Hin|Hn]; [exact (H e Hin)|].
  rewrite !lookup_notin; [reflexivity| |]; intros Hin; apply Hn; apply in_or_app; auto.
Qed.

(* the parser's tables are the specification's *)
Lemma string_table_spec e : lookup e parse_string_escapes = esc_val 34 e.
Proof. unfold esc_val. revert e. apply (lookup_ext (fun o => o)). repeat constructor. Qed.

Lemma char_table_spec e : lookup e parse_char_escapes = esc_val 39 e.
Proof. unfold esc_val. revert e. apply (lookup_ext (fun o => o)). repeat constructor. Qed.

(* the scanner accepts exactly the escapes of the specification *)
Definition scan_tbl (q : N) : list (N * N) :=
  map (fun r => (r, r)) scan_escape_runes ++ (if scan_escape_quote then [(q, q)] else []).

Lemma existsb_lookup e l : existsb (N.eqb e) l = is_some (lookup e (map (fun r => (r, r)) l)).
Proof.
  induction l as [|a l IH]; [reflexivity|]. cbn [existsb map lookup].
  destruct (e =? a); [reflexivity|exact IH].
Qed.

Lemma lookup_app e t1 t2 :
  lookup e (t1 ++ t2) = match lookup e t1 with Some v => Some v | None => lookup e t2 end.
Proof.
  induction t1 as [|[k v] t1 IH]; [reflexivity|]. cbn [app lookup]. destruct (e =? k); [reflexivity|exact IH].
Qed.

Lemma scan_is_escape_tbl q e : scan_is_escape q e = is_some (lookup e (scan_tbl q)).
Proof.
  unfold scan_is_escape, scan_tbl. rewrite lookup_app, existsb_lookup.
  destruct (lookup e (map _ scan_escape_runes)); [reflexivity|]. cbn [is_some orb].
  destruct scan_escape_quote; [|reflexivity]. cbn [lookup andb]. destruct (e =? q); reflexivity.
Qed.

Lemma scan_escape_spec_string e : scan_is_escape 34 e = is_some (esc_val 34 e).
Proof. rewrite scan_is_escape_tbl. unfold esc_val. revert e. apply (lookup_ext is_some). repeat constructor. Qed.

Lemma scan_escape_spec_char e : scan_is_escape 39 e = is_some (esc_val 39 e).
Proof. rewrite scan_is_escape_tbl. unfold esc_val. revert e. apply (lookup_ext is_some). repeat constructor. Qed.

Lemma esc_val_ascii q e v : q < 128 -> esc_val q e = Some v -> v < 128.
Proof.
  intros Hq. unfold esc_val, spec_escapes. cbn [lookup].
  repeat match goal with |- context [e =? ?k] => destruct (e =? k) end;
    intros H; inversion H; subst; lia.
Qed.

Lemma esc_val_rune_error q : q < 128 -> esc_val q rune_error = None.
Proof.
  intros Hq. unfold esc_val, spec_escapes, rune_error. cbn [lookup].
  destruct (N.eqb_spec 65533 q); [lia|]. reflexivity.
Qed.

Lemma esc_val_quote q : esc_val q q <> None.
Proof.
  unfold esc_val, spec_escapes. cbn [lookup]. rewrite N.eqb_refl.
  repeat match goal with |- context [q =? ?k] => destruct (q =? k) end; discriminate.
Qed.

(* ---- what unescaping does on EVERY body: lenient translation + number of unknown escapes ---- *)

Fixpoint translate (q : N) (body : list N) : list N * N :=
  match body with
  | [] => ([], 0)
  | c :: t =>
    if c =? 92 then
      match t with
      | [] => ([92], 1)
      | e :: t' =>
        match esc_val q e with
        | Some v => let '(s, n) := translate q t' in (v :: s, n)
        | None => let '(s, n) := translate q t in (92 :: s, n + 1)
        end
      end
    else let '(s, n) := translate q t in (c :: s, n)
  end.

(* the five shapes of a body: the recursion of translate, denote, scan_lit and of the splice loop *)
Lemma esc_ind q (P : list N -> Prop) :
  P [] -> P [92] ->
  (forall e v t, esc_val q e = Some v -> P t -> P (92 :: e :: t)) ->
  (forall e t, esc_val q e = None -> P (e :: t) -> P (92 :: e :: t)) ->
  (forall c t, c <> 92 -> P t -> P (c :: t)) ->
  forall l, P l.
Proof.
  intros Hn Hb Hk Hu Hp l. induction l as [l IH] using (induction_ltof1 _ (@length N)). unfold ltof in IH.
  destruct l as [|c t]; [exact Hn|]. destruct (N.eq_dec c 92) as [->|Hc]; [|apply Hp; auto].
  destruct t as [|e t]; [exact Hb|].
  destruct (esc_val q e) eqn:E; [eapply Hk; eauto; apply IH; cbn; lia|apply Hu; auto].
Qed.

Lemma translate_known q e v t : esc_val q e = Some v ->
  translate q (92 :: e :: t) = (v :: fst (translate q t), snd (translate q t)).
Proof. intros H. cbn [translate]. change (92 =? 92) with true. cbn match. rewrite H. destruct (translate q t); reflexivity. Qed.

Lemma translate_unknown q e t : esc_val q e = None ->
  translate q (92 :: e :: t) = (92 :: fst (translate q (e :: t)), snd (translate q (e :: t)) + 1).
Proof.
  intros H. cbn [translate]. change (92 =? 92) with true. cbn match. rewrite H.
  match goal with |- (let '(s, n) := ?X in _) = _ => destruct X end. reflexivity.
Qed.

Lemma translate_plain q c t : c <> 92 ->
  translate q (c :: t) = (c :: fst (translate q t), snd (translate q t)).
Proof.
  intros H. cbn [translate]. destruct (N.eqb_spec c 92); [contradiction|]. destruct (translate q t); reflexivity.
Qed.

Lemma denote_known q e v t : esc_val q e = Some v -> denote q (92 :: e :: t) = option_map (cons v) (denote q t).
Proof. intros H. cbn [denote]. change (92 =? 92) with true. cbn match. rewrite H. reflexivity. Qed.
Lemma denote_unknown q e t : esc_val q e = None -> denote q (92 :: e :: t) = None.
Proof. intros H. cbn [denote]. change (92 =? 92) with true. cbn match. rewrite H. reflexivity. Qed.
Lemma denote_plain q c t : c <> 92 -> denote q (c :: t) = option_map (cons c) (denote q t).
Proof. intros H. cbn [denote]. destruct (N.eqb_spec c 92); [contradiction|]. reflexivity. Qed.

(* denote is translate restricted to bodies without unknown escapes *)
Lemma denote_translate q body :
  denote q body = if snd (translate q body) =? 0 then Some (fst (translate q body)) else None.
Proof.
  induction body as [| |e v t Ev IH|e t Ev IH|c t Hc IH] using (esc_ind q); try reflexivity.
  - rewrite (denote_known _ _ _ _ Ev), (translate_known _ _ _ _ Ev), IH. cbn [fst snd].
    destruct (snd (translate q t) =? 0); reflexivity.
  - rewrite (denote_unknown _ _ _ Ev), (translate_unknown _ _ _ Ev). cbn [snd].
    destruct (N.eqb_spec (snd (translate q (e :: t)) + 1) 0); [lia|reflexivity].
  - rewrite (denote_plain _ _ _ Hc), (translate_plain _ _ _ Hc), IH. cbn [fst snd].
    destruct (snd (translate q t) =? 0); reflexivity.
Qed.

Lemma denote_some q body d : denote q body = Some d -> translate q body = (d, 0).
Proof.
  rewrite denote_translate. destruct (translate q body) as [s k]. cbn [fst snd].
  destruct (N.eqb_spec k 0); intros H; inversion H; subst; reflexivity.
Qed.

Lemma denote_none_iff q body : denote q body = None <-> 0 < snd (translate q body).
Proof.
  rewrite denote_translate.
  destruct (N.eqb_spec (snd (translate q body)) 0); split; intros H; try discriminate H; try lia; reflexivity.
Qed.


(* ---- the splice loop of parseString ---- *)
Lemma decode_bs rest : decode_rune (92 :: rest) = (92, 1).
Proof. reflexivity. Qed.

(* one round at index |done| of done ++ ..., by what stands there; the bytes behind are arbitrary *)
Lemma ps_end fuel done errs : ps_loop (S fuel) done (nlen done) errs = POk done errs.
Proof. cbn [ps_loop]. rewrite N.ltb_irrefl. reflexivity. Qed.

Lemma ps_plain fuel done c rest errs : valid_cp c = true -> c <> 92 ->
  ps_loop (S fuel) (done ++ encode_rune c ++ rest) (nlen done) errs =
  ps_loop fuel ((done ++ encode_rune c) ++ rest) (nlen (done ++ encode_rune c)) errs.
Proof.
  intros Hc H92. cbn [ps_loop]. pose proof (encode_rune_len c) as Hl.
  replace (nlen done <? nlen (done ++ encode_rune c ++ rest)) with true by (rewrite !nlen_app; lia).
  rewrite skipn_nlen_app, decode_rune_encode_rune by exact Hc. destruct (N.eqb_spec c 92); [contradiction|].
  rewrite <- app_assoc, (nlen_app done). reflexivity.
Qed.

Lemma ps_backslash fuel done tl errs :
  ps_loop (S fuel) (done ++ 92 :: tl) (nlen done) errs =
  let '(seq, w2) := decode_rune tl in
  match lookup seq parse_string_escapes with
  | Some v => if nlen tl <? w2 then PPanic
              else ps_loop fuel (done ++ encode_rune v ++ skipn (N.to_nat w2) tl) (nlen (done ++ [92])) errs
  | None => ps_loop fuel (done ++ 92 :: tl) (nlen (done ++ [92])) (errs + 1)
  end.
Proof.
  cbn [ps_loop]. replace (nlen done <? nlen (done ++ 92 :: tl)) with true by (rewrite nlen_app, nlen_cons; lia).
  rewrite skipn_nlen_app, decode_bs. change (92 =? 92) with true. cbn match.
  replace (nlen (done ++ 92 :: tl) <? nlen done + 1) with false by (rewrite nlen_app, nlen_cons; lia).
  replace (nlen done + 1) with (nlen (done ++ [92])) by (rewrite nlen_app; reflexivity).
  change (done ++ 92 :: tl) with (done ++ [92] ++ tl). rewrite (app_assoc done), skipn_nlen_app.
  destruct (decode_rune tl) as [seq w2]. destruct (lookup seq parse_string_escapes) as [v|]; [|reflexivity].
  replace (nlen ((done ++ [92]) ++ tl) <? nlen (done ++ [92]) + w2) with (nlen tl <? w2) by (rewrite (nlen_app (done ++ [92])); lia).
  destruct (nlen tl <? w2); [reflexivity|]. f_equal. f_equal.
  - rewrite <- app_assoc. apply firstn_nlen_app.
  - f_equal. apply skipn_nlen_add_app.
Qed.

Lemma ps_known fuel done e v rest errs : valid_cp e = true -> esc_val 34 e = Some v ->
  ps_loop (S fuel) (done ++ 92 :: encode_rune e ++ rest) (nlen done) errs =
  ps_loop fuel ((done ++ [v]) ++ rest) (nlen (done ++ [v])) errs.
Proof.
  intros He Ev. rewrite ps_backslash, decode_rune_encode_rune, string_table_spec, Ev by exact He.
  pose proof (encode_rune_len e). replace (nlen (encode_rune e ++ rest) <? nlen (encode_rune e)) with false by (rewrite nlen_app; lia).
  rewrite skipn_nlen_app, (encode_rune_ascii v) by (apply (esc_val_ascii 34 e); [lia|exact Ev]).
  rewrite <- app_assoc, !nlen_app. reflexivity.
Qed.

Lemma ps_unknown fuel done e rest errs : valid_cp e = true -> esc_val 34 e = None ->
  ps_loop (S fuel) (done ++ 92 :: encode_rune e ++ rest) (nlen done) errs =
  ps_loop fuel ((done ++ [92]) ++ encode_rune e ++ rest) (nlen (done ++ [92])) (errs + 1).
Proof.
  intros He Ev. rewrite ps_backslash, decode_rune_encode_rune, string_table_spec, Ev by exact He. rewrite <- app_assoc. reflexivity.
Qed.

(* a trailing backslash: DecodeRuneInString("") = (RuneError, 0), which is no escape *)
Lemma ps_trailing fuel done errs :
  ps_loop (S fuel) (done ++ [92]) (nlen done) errs = ps_loop fuel (done ++ [92]) (nlen (done ++ [92])) (errs + 1).
Proof. rewrite ps_backslash. cbn [decode_rune]. rewrite string_table_spec, esc_val_rune_error by lia. reflexivity. Qed.

(* invariant: the bytes before i are final (done), the bytes from i on are the still-escaped rest *)
Lemma ps_loop_translate body : forallb valid_cp body = true ->
  forall done errs fuel, (length (encode body) < fuel)%nat ->
  ps_loop fuel (done ++ encode body) (nlen done) errs =
  POk (done ++ encode (fst (translate 34 body))) (errs + snd (translate 34 body)).
Proof.
  induction body as [| |e v t Ev IH|e t Ev IH|c t Hc IH] using (esc_ind 34); intros Hv done errs fuel Hf.
  - destruct fuel; [cbn in Hf; lia|]. cbn [encode flat_map translate fst snd]. rewrite app_nil_r, N.add_0_r. apply ps_end.
  - destruct fuel as [|[|fuel]]; try (cbn in Hf; lia). change (encode [92]) with [92].
    rewrite ps_trailing, ps_end. reflexivity.
  - apply forallb_cons in Hv. destruct Hv as [_ Hv]. apply forallb_cons in Hv. destruct Hv as [He Ht].
    rewrite !encode_cons in Hf |- *. change (encode_rune 92) with [92] in *. cbn [app length] in Hf |- *. rewrite app_length in Hf.
    destruct fuel; [lia|]. rewrite (ps_known _ _ _ _ _ _ He Ev), IH by (auto; lia).
    rewrite (translate_known _ _ _ _ Ev). cbn [fst snd]. rewrite encode_cons, <- app_assoc.
    rewrite (encode_rune_ascii v) by (apply (esc_val_ascii 34 e); [lia|exact Ev]). reflexivity.
  - apply forallb_cons in Hv. destruct Hv as [_ Hv]. pose proof Hv as Hv'. apply forallb_cons in Hv'. destruct Hv' as [He _].
    rewrite (encode_cons 92) in Hf. change (encode_rune 92) with [92] in Hf. cbn [app length] in Hf.
    destruct fuel; [lia|]. rewrite !encode_cons. change (encode_rune 92) with [92]. cbn [app].
    rewrite (ps_unknown _ _ _ _ _ He Ev), <- encode_cons, IH by (auto; lia).
    rewrite (translate_unknown _ _ _ Ev). cbn [fst snd]. rewrite (encode_cons 92). change (encode_rune 92) with [92].
    rewrite <- app_assoc. f_equal. lia.
  - apply forallb_cons in Hv. destruct Hv as [Hcv Ht]. rewrite encode_cons, app_length in Hf.
    pose proof (encode_rune_len c) as Hl. unfold nlen in Hl.
    destruct fuel; [lia|]. rewrite encode_cons, (ps_plain _ _ _ _ _ Hcv Hc), IH by (auto; lia).
    rewrite (translate_plain _ _ _ Hc). cbn [fst snd]. rewrite encode_cons, <- app_assoc. reflexivity.
Qed.

(* parse_string never panics, never runs out of fuel, and computes the lenient translation *)
Theorem parse_string_translate body :
  forallb valid_cp body = true ->
  parse_string (encode body) = POk (encode (fst (translate 34 body))) (snd (translate 34 body)).
Proof. intros Hv. unfold parse_string. apply (ps_loop_translate body Hv [] 0). lia. Qed.

Theorem parse_string_denote body d :
  forallb valid_cp body = true -> denote 34 body = Some d ->
  parse_string (encode body) = POk (encode d) 0.
Proof.
  intros Hv Hd. rewrite (parse_string_translate body Hv). rewrite (denote_some 34 body d Hd). reflexivity.
Qed.


(* ---- scan_lit: body, diagnostics = unknown escapes, gotBackslash ---- *)
Definition has_bs (l : list N) : bool := existsb (N.eqb 92) l.

Lemma scan_lit_plain q c t : c <> q -> c <> 92 ->
  scan_lit q (c :: t) =
  let '(r, n, b) := scan_lit q t in (option_map (fun br => (c :: fst br, snd br)) r, n, b).
Proof.
  intros H1 H2. cbn [scan_lit]. destruct (N.eqb_spec c q); [contradiction|].
  destruct (N.eqb_spec c 92); [contradiction|]. reflexivity.
Qed.

Lemma scan_lit_escape q e t : 92 <> q -> scan_is_escape q e = true ->
  scan_lit q (92 :: e :: t) =
  let '(r, n, _) := scan_lit q t in (option_map (fun br => (92 :: e :: fst br, snd br)) r, n, true).
Proof.
  intros H1 H2. cbn [scan_lit]. destruct (N.eqb_spec 92 q); [contradiction|].
  change (92 =? 92) with true. cbn match. rewrite H2. reflexivity.
Qed.

Lemma scan_lit_unknown q e t : 92 <> q -> scan_is_escape q e = false ->
  scan_lit q (92 :: e :: t) =
  let '(r, n, _) := scan_lit q (e :: t) in (option_map (fun br => (92 :: fst br, snd br)) r, n + 1, true).
Proof.
  intros H1 H2. cbn [scan_lit]. destruct (N.eqb_spec 92 q); [contradiction|].
  change (92 =? 92) with true. cbn match. rewrite H2. reflexivity.
Qed.

Lemma scan_lit_spec q : 92 <> q -> (forall e, scan_is_escape q e = is_some (esc_val q e)) ->
  forall src body rest k b, scan_lit q src = (Some (body, rest), k, b) ->
  src = body ++ q :: rest /\ k = snd (translate q body) /\ b = has_bs body.
Proof.
  intros Hq92 Hq src.
  induction src as [| |e v t Ev IH|e t Ev IH|c t Hc IH] using (esc_ind q); intros body rest k b H.
  - discriminate H.
  - cbn [scan_lit] in H. destruct (N.eqb_spec 92 q); [contradiction|discriminate H].
  - rewrite scan_lit_escape in H by (auto; rewrite Hq, Ev; reflexivity).
    destruct (scan_lit q t) as [[[[bd rs]|] k'] b'] eqn:S; inversion H; subst.
    destruct (IH _ _ _ _ eq_refl) as (-> & -> & _). rewrite (translate_known q e v bd Ev). repeat split.
  - rewrite scan_lit_unknown in H by (auto; rewrite Hq, Ev; reflexivity).
    destruct (scan_lit q (e :: t)) as [[[[bd rs]|] k'] b'] eqn:S; inversion H; subst.
    destruct (IH _ _ _ _ eq_refl) as (Es & -> & _).
    (* the body continues with e: it is not the quote (else the escape would be known) *)
    destruct bd as [|e' bd']; cbn [app] in Es; inversion Es; subst; [destruct (esc_val_quote q Ev)|].
    rewrite (translate_unknown q e' bd' Ev). repeat split.
  - destruct (N.eqb_spec c q) as [->|Hcq].
    { cbn [scan_lit] in H. rewrite N.eqb_refl in H. inversion H; subst. repeat split. }
    rewrite scan_lit_plain in H by assumption.
    destruct (scan_lit q t) as [[[[bd rs]|] k'] b'] eqn:S; inversion H; subst.
    destruct (IH _ _ _ _ eq_refl) as (-> & -> & ->). rewrite (translate_plain q c bd Hc).
    repeat split. cbn [has_bs existsb]. destruct (N.eqb_spec 92 c); [congruence|]. reflexivity.
Qed.

(* ---- text literals: scanner and parser together ---- *)

Theorem string_literal_spec src body rest k :
  forallb valid_cp src = true ->
  scan_string src = (Some (body, rest), k) ->
  src = body ++ 34 :: rest /\
  parse_string (encode body) = POk (encode (fst (translate 34 body))) k /\
  (k = 0 <-> denote 34 body <> None) /\
  (forall d, denote 34 body = Some d -> k = 0 /\ parse_string (encode body) = POk (encode d) 0).
Proof.
  intros Hv H. unfold scan_string in H. change scan_string_quote with 34 in H.
  destruct (scan_lit 34 src) as [[r k'] b] eqn:S. inversion H; subst r k'. clear H.
  destruct (scan_lit_spec 34 ltac:(discriminate) scan_escape_spec_string src _ _ _ _ S) as (Es & Ek & _).
  subst src. apply forallb_app_inv in Hv. destruct Hv as [Hb _].
  split; [reflexivity|]. split; [rewrite (parse_string_translate body Hb), Ek; reflexivity|].
  split.
  - pose proof (denote_none_iff 34 body) as D. rewrite <- Ek in D. split.
    + intros K Hn. apply D in Hn. lia.
    + intros Hn. destruct (N.eq_dec k 0) as [|Hk]; [assumption|]. exfalso. apply Hn. apply D. lia.
  - intros d Hd. rewrite (denote_some 34 body d Hd) in Ek. cbn [snd] in Ek. split; [exact Ek|].
    apply parse_string_denote; assumption.
Qed.

(* ---- every text can be written: escape ---- *)

Lemma escape_cp_cases q c : q = 34 \/ q = 39 ->
  (escape_cp q c = [c] /\ c <> 92 /\ c <> q) \/ (exists e, escape_cp q c = [92; e] /\ esc_val q e = Some c).
Proof.
  intros Hq. unfold escape_cp.
  destruct (N.eqb_spec c 7); [subst; right; exists 97; destruct Hq; subst; auto|].
  destruct (N.eqb_spec c 8); [subst; right; exists 98; destruct Hq; subst; auto|].
  destruct (N.eqb_spec c 10); [subst; right; exists 110; destruct Hq; subst; auto|].
  destruct (N.eqb_spec c 13); [subst; right; exists 114; destruct Hq; subst; auto|].
  destruct (N.eqb_spec c 9); [subst; right; exists 116; destruct Hq; subst; auto|].
  destruct (N.eqb_spec c 92); [subst; right; exists 92; destruct Hq; subst; auto|].
  destruct (N.eqb_spec c q); [subst; right; exists q; destruct Hq; subst; auto|].
  left. auto.
Qed.

Theorem denote_escape q s : q = 34 \/ q = 39 -> denote q (escape q s) = Some s.
Proof.
  intros Hq. induction s as [|c s IH]; [reflexivity|]. cbn [escape flat_map]. fold (escape q s).
  destruct (escape_cp_cases q c Hq) as [(-> & H92 & _)|(e & -> & Ev)]; cbn [app].
  - rewrite denote_plain, IH by exact H92. reflexivity.
  - rewrite (denote_known _ _ _ _ Ev), IH. reflexivity.
Qed.

Theorem escape_scans q s rest : q = 34 \/ q = 39 ->
  exists b, scan_lit q (escape q s ++ q :: rest) = (Some (escape q s, rest), 0, b).
Proof.
  intros Hq. assert (Hq92 : 92 <> q) by (destruct Hq; subst; discriminate).
  assert (Esc : forall e, scan_is_escape q e = is_some (esc_val q e))
    by (destruct Hq; subst; [apply scan_escape_spec_string|apply scan_escape_spec_char]).
  induction s as [|c s [b IH]].
  { exists false. cbn [escape flat_map app scan_lit]. rewrite N.eqb_refl. reflexivity. }
  cbn [escape flat_map]. fold (escape q s). rewrite <- app_assoc.
  destruct (escape_cp_cases q c Hq) as [(-> & H92 & Hcq)|(e & -> & Ev)]; cbn [app].
  - exists b. rewrite scan_lit_plain, IH by assumption. reflexivity.
  - exists true. rewrite scan_lit_escape, IH by (auto; rewrite Esc, Ev; reflexivity). reflexivity.
Qed.


(* ---- character literals ---- *)
Lemma parse_char_plain c : valid_cp c = true -> parse_char (encode [c]) = (Z.of_N c, 0).
Proof.
  intros Hc. unfold parse_char. rewrite rune_count_encode by (cbn [forallb]; rewrite Hc; reflexivity).
  change (nlen [c] =? 1) with true. cbn match. cbn [encode flat_map]. rewrite decode_rune_encode_rune by exact Hc. reflexivity.
Qed.

Lemma parse_char_escape e : valid_cp e = true ->
  parse_char (encode [92; e]) =
  match esc_val 39 e with Some v => (Z.of_N v, 0) | None => (Z.of_N e, 1) end.
Proof.
  intros He. unfold parse_char.
  rewrite rune_count_encode by (cbn [forallb]; rewrite He; reflexivity).
  change (nlen [92; e] =? 1) with false. change (nlen [92; e] =? 2) with true. cbn match.
  cbn [encode flat_map]. rewrite app_nil_r. change (encode_rune 92) with [92].
  rewrite (decode_last_encode [92] e He) by (cbn; lia). cbn [fst].
  rewrite char_table_spec. reflexivity.
Qed.

Lemma one_char_body q body : snd (translate q body) = 0 ->
  nlen body = 1 \/ (nlen body = 2 /\ has_bs body = true) ->
  (exists c, body = [c] /\ c <> 92) \/ (exists e v, body = [92; e] /\ esc_val q e = Some v).
Proof.
  intros Hn Hl. destruct body as [|x [|y [|z t]]]; rewrite ?nlen_cons in Hl; [exfalso; cbn in Hl; lia| | |exfalso; lia].
  - destruct (N.eq_dec x 92) as [->|Hx]; [discriminate Hn|eauto].
  - destruct Hl as [Hl|[_ Hb]]; [cbn in Hl; lia|].
    destruct (N.eq_dec x 92) as [->|Hx].
    + destruct (esc_val q y) eqn:Ev; [eauto|]. rewrite (translate_unknown _ _ _ Ev) in Hn. cbn [snd] in Hn. lia.
    + exfalso. cbn [has_bs existsb] in Hb. rewrite (proj2 (N.eqb_neq 92 x)), orb_false_r in Hb by congruence.
      cbn [orb] in Hb. apply N.eqb_eq in Hb. subst y. rewrite (translate_plain _ _ _ Hx) in Hn. discriminate Hn.
Qed.

(* no diagnostic means no unknown escape and, by the rune count of char(), 3 runes, or 4 with a backslash seen *)
Theorem char_literal_spec src body rest k :
  forallb valid_cp src = true ->
  scan_char src = (Some (body, rest), k) ->
  src = body ++ 39 :: rest /\
  (k = 0 -> exists c, denote 39 body = Some [c] /\ parse_char (encode body) = (Z.of_N c, 0)).
Proof.
  intros Hv H. unfold scan_char in H. change scan_char_quote with 39 in H.
  destruct (scan_lit 39 src) as [[r n] b] eqn:S. destruct r as [[bd rs]|]; [|discriminate H].
  destruct (scan_lit_spec 39 ltac:(discriminate) scan_escape_spec_char src _ _ _ _ S) as (Es & En & Eb).
  injection H as Hbd Hrs H2. subst bd rs. split; [exact Es|].
  subst src. apply forallb_app_inv in Hv. destruct Hv as [Hb _]. intros K. rewrite K in H2.
  destruct (one_char_body 39 body) as [(c & -> & Hc)|(e & v & -> & Ev)].
  - lia.
  - destruct (N.eqb_spec (nlen body + 2) 3); [left; lia|right].
    destruct (N.eqb_spec (nlen body + 2) 4); [|lia]. destruct b; [split; [lia|congruence]|lia].
  - apply forallb_cons in Hb. exists c. rewrite denote_plain by exact Hc. split; [reflexivity|apply parse_char_plain, Hb].
  - apply forallb_cons in Hb. destruct Hb as [_ Hb]. apply forallb_cons in Hb.
    exists v. rewrite (denote_known _ _ _ _ Ev), (parse_char_escape e), Ev by apply Hb. auto.
Qed.

(* ---- integer literals ---- *)
(* dec_value from an accumulator n on: what the digit loop of strconv holds after each round *)
Lemma dec_from_ge ds : forall n, n <= fold_left (fun a d => a * 10 + (d - 48)) ds n.
Proof.
  induction ds as [|d ds IH]; intros n; cbn [fold_left]; [lia|].
  specialize (IH (n * 10 + (d - 48))). lia.
Qed.

Lemma mod_once a b : b <= a < 2 * b -> a mod b = a - b.
Proof. intros H. symmetry. apply (N.mod_unique a b 1); lia. Qed.

Lemma parse_uint_loop_spec ds : forallb is_digit ds = true ->
  forall n, n < two64 ->
  parse_uint_loop n ds =
  let v := fold_left (fun a d => a * 10 + (d - 48)) ds n in if v <? two64 then NumOk v else NumRange.
Proof.
  induction ds as [|c ds IH]; intros Hd n Hn.
  { cbn [parse_uint_loop fold_left]. rewrite (proj2 (N.ltb_lt _ _) Hn). reflexivity. }
  apply forallb_cons in Hd. destruct Hd as [Hc Hds].
  cbn [parse_uint_loop fold_left]. rewrite Hc. unfold is_digit in Hc.
  pose proof (dec_from_ge ds (n * 10 + (c - 48))) as Hge.
  set (v := fold_left (fun a d => a * 10 + (d - 48)) ds (n * 10 + (c - 48))) in *. unfold cutoff64, two64 in *.
  destruct (N.leb_spec 1844674407370955162 n) as [Hcut|Hcut].
  { replace (v <? 18446744073709551616) with false by lia. reflexivity. }
  rewrite (N.mod_small (n * 10)) by lia.
  destruct (N.ltb_spec (n * 10 + (c - 48)) 18446744073709551616) as [Hfit|Hover].
  - rewrite N.mod_small by lia.
    replace ((n * 10 + (c - 48) <? n * 10) || (18446744073709551616 - 1 <? n * 10 + (c - 48))) with false by lia.
    exact (IH Hds _ Hfit).
  - rewrite mod_once by lia.
    replace ((n * 10 + (c - 48) - 18446744073709551616 <? n * 10) || (18446744073709551616 - 1 <? n * 10 + (c - 48) - 18446744073709551616)) with true by lia.
    replace (v <? 18446744073709551616) with false by lia. reflexivity.
Qed.

Theorem parse_int_spec ds :
  ds <> [] -> forallb is_digit ds = true ->
  parse_int ds = if dec_value ds <? two63 then NumOk (dec_value ds) else NumRange.
Proof.
  intros Hne Hd. unfold parse_int. destruct ds as [|c ds]; [contradiction|].
  rewrite (parse_uint_loop_spec (c :: ds) Hd 0) by (unfold two64; lia).
  fold (dec_value (c :: ds)). cbv zeta.
  unfold two64, two63.
  destruct (N.ltb_spec (dec_value (c :: ds)) 18446744073709551616);
    destruct (N.ltb_spec (dec_value (c :: ds)) 9223372036854775808); try lia.
  - destruct (N.leb_spec 9223372036854775808 (dec_value (c :: ds))); [lia|reflexivity].
  - destruct (N.leb_spec 9223372036854775808 (dec_value (c :: ds))); [reflexivity|lia].
  - reflexivity.
Qed.

Theorem parse_int_lit_spec ds :
  ds <> [] -> forallb is_digit ds = true ->
  parse_int_lit ds = if dec_value ds <? two63 then (dec_value ds, 0) else (0, 1).
Proof.
  intros Hne Hd. unfold parse_int_lit. rewrite (parse_int_spec ds Hne Hd).
  destruct (dec_value ds <? two63); reflexivity.
Qed.

(* signed literals: -digits is accepted exactly down to -2^63 *)
Theorem negate_int_lit_spec ds :
  ds <> [] -> forallb is_digit ds = true ->
  negate_int_lit ds = if dec_value ds <=? two63 then ((- Z.of_N (dec_value ds))%Z, 0) else (0%Z, 1).
Proof.
  intros Hne Hd. unfold negate_int_lit. rewrite (parse_int_lit_spec ds Hne Hd).
  unfold parse_int_go. change (45 =? 43) with false. change (45 =? 45) with true. cbn match.
  destruct ds as [|c ds]; [contradiction|].
  rewrite (parse_uint_loop_spec (c :: ds) Hd 0) by (unfold two64; lia).
  fold (dec_value (c :: ds)). cbv zeta.
  set (v := dec_value (c :: ds)). unfold two64, two63. cbn [negb andb].
  destruct (N.ltb_spec v 18446744073709551616) as [H64|H64].
  - destruct (N.ltb_spec 9223372036854775808 v) as [Hgt|Hle].
    + destruct (N.ltb_spec v 9223372036854775808); [lia|].
      destruct (N.leb_spec v 9223372036854775808); [lia|]. reflexivity.
    + destruct (N.leb_spec v 9223372036854775808); [|lia].
      destruct (Z.eqb_spec (- Z.of_N v) (-9223372036854775808)) as [E|E].
      * reflexivity.
      * destruct (N.ltb_spec v 9223372036854775808); [reflexivity|lia].
  - destruct (N.ltb_spec v 9223372036854775808); [lia|].
    destruct (N.leb_spec v 9223372036854775808); [lia|]. reflexivity.
Qed.

(* ---- quote trimming, rune iteration ---- *)
Lemma lit_body_quotes q body : lit_body q (q :: body ++ [q]) = body.
Proof.
  unfold lit_body, trim_suffix1. change (q :: body ++ [q]) with ((q :: body) ++ [q]).
  rewrite rev_app_distr. cbn [rev app]. rewrite N.eqb_refl.
  rewrite rev_app_distr, rev_involutive. cbn [rev app trim_prefix1]. rewrite N.eqb_refl. reflexivity.
Qed.

Lemma decode_all_encode cs : forallb valid_cp cs = true -> decode_all (encode cs) = cs.
Proof.
  intros Hv. unfold decode_all.
  assert (G : forall fuel, (length (encode cs) <= fuel)%nat -> decode_all_fuel fuel (encode cs) = cs); [|apply G; lia].
  induction cs as [|c cs IH]; intros fuel Hf.
  - destruct fuel; reflexivity.
  - apply forallb_cons in Hv. destruct Hv as [Hc Hcs].
    destruct (decode_rune_encode c cs Hc) as (b & t & E & D & Sk). rewrite E in *.
    destruct fuel as [|fuel]; [cbn in Hf; lia|]. cbn [decode_all_fuel]. rewrite D, Sk, IH; auto.
    rewrite <- Sk, skipn_length. pose proof (encode_rune_len c). cbn [length] in *. lia.
Qed.
