(* C13 — facts about the lexical rules of ScanSpec alone (character classes, class_ok, maximal); nothing here
   mentions the scanner state. *)
From Coq Require Import List NArith Bool Lia.
Import ListNotations.
From DDP Require Import Gen.Tokens Lex.ScanModel Lex.ScanSpec.
Open Scope N_scope.

Ltac inv H := inversion H; subst; clear H.

Lemma isSpace_blank c : isSpace c = true <-> blank c.
Proof. unfold isSpace, blank. rewrite !orb_true_iff, !N.eqb_eq. tauto. Qed.

Lemma alnum_not_space c : isAlphaNumeric c = true -> isSpace c = false.
Proof.
  intros A. destruct (isSpace c) eqn:Sp; [|reflexivity]. apply isSpace_blank in Sp.
  destruct Sp as [-> | [-> | [-> | ->]]]; discriminate A.
Qed.

Lemma depth_after_last : forall l d, depth_after d l = Some 0 -> (d = 0 /\ l = []) \/ exists l', l = l' ++ [93].
Proof.
  induction l as [|c l IH]; intros d H; cbn [depth_after] in H.
  - left. inversion H. auto.
  - right. destruct (d =? 0) eqn:D0; [discriminate H|]. apply N.eqb_neq in D0.
    destruct (IH _ H) as [[E ->] | [l' ->]]; [|exists (c :: l'); reflexivity].
    exists []. destruct (c =? 91); [lia|]. destruct (c =? 93) eqn:E93; [|lia]. apply N.eqb_eq in E93. subst c. reflexivity.
Qed.

Definition ends_unspaced (l : list N) : Prop := exists l' e, l = l' ++ [e] /\ isSpace e = false.

Lemma ends_unspaced_all l : l <> [] -> Forall (fun c => isAlphaNumeric c = true) l -> ends_unspaced l.
Proof.
  intros N F. destruct (exists_last N) as (l' & e & ->). exists l', e. split; [reflexivity|].
  apply Forall_app in F. destruct F as [_ F]. inversion F; subst. apply alnum_not_space; assumption.
Qed.

Lemma ends_unspaced_app a b : ends_unspaced b -> ends_unspaced (a ++ b).
Proof. intros (l' & e & -> & Sp). exists (a ++ l'), e. rewrite app_assoc. auto. Qed.

Lemma digits_alnum l : Forall (fun c => isDigit c = true) l -> Forall (fun c => isAlphaNumeric c = true) l.
Proof. apply Forall_impl. intros c D. unfold isAlphaNumeric. rewrite D. apply orb_true_r. Qed.

Lemma class_ok_last m (P : Prop) k l : class_ok m P k l -> l <> [] -> P \/ ends_unspaced l.
Proof.
  intros K NE. destruct K as [ | l [N D] | a b _ [N D] | l W _ | l v W _ | l Q | l Q | | b d Dd [-> | HP] | b | | | | | | | | | c _ _ B];
    try (left; assumption); right.
  - congruence.
  - apply ends_unspaced_all; auto using digits_alnum.
  - apply ends_unspaced_app. change (44 :: b) with ([44] ++ b). apply ends_unspaced_app, ends_unspaced_all; auto using digits_alnum.
  - destruct W as (c & r & -> & A & AN). apply ends_unspaced_all; [discriminate|]. constructor; [unfold isAlphaNumeric; rewrite A|]; auto.
  - destruct W as (c & r & -> & A & AN). apply ends_unspaced_all; [discriminate|]. constructor; [unfold isAlphaNumeric; rewrite A|]; auto.
  - destruct Q as (b & -> & _). exists (34 :: b), 34. auto.
  - destruct Q as (b & -> & _). exists (39 :: b), 39. auto.
  - destruct (depth_after_last _ _ Dd) as [[E _] | [b' ->]]; [discriminate E|]. exists (91 :: b'), 93. auto.
  - exists (60 :: b), 62. auto.
  - exists [], 45. auto.
  - exists [], 46. auto.
  - exists [46; 46], 46. auto.
  - exists [], 44. auto.
  - exists [], 58. auto.
  - exists [], 40. auto.
  - exists [], 41. auto.
  - exists [], c. split; [reflexivity|]. destruct (isSpace c) eqn:Sp; [|reflexivity]. apply isSpace_blank in Sp. contradiction.
Qed.

Lemma class_ok_mono m (P Q : Prop) t l : (P -> Q) -> class_ok m P t l -> class_ok m Q t l.
Proof. intros PQ H. inversion H; subst; try (econstructor; eauto; fail). eapply K_comment; eauto. tauto. Qed.

Lemma class_ok_nil m P ty : class_ok m P ty [] -> ty = tt_EOF.
Proof.
  intros H.
  inversion H as [ | l0 D | a b Da Db | l0 W K | l0 v W K | l0 Q | l0 Q | q b Hq Ho HP | b d Dd X | b Hm Nn | b Hm Nn HP
                 | | | | | | | | c0 A1 A2 A3 A4 A5 ]; subst; auto; exfalso.
  - destruct D as [N _]. congruence.
  - destruct a; discriminate.
  - destruct W as (x & r & E & _). discriminate E.
  - destruct W as (x & r & E & _). discriminate E.
  - destruct Q as (b & E & _). discriminate E.
  - destruct Q as (b & E & _). discriminate E.
Qed.

Lemma alpha_not_digit c : isAlpha c = true -> isDigit c = true -> False.
Proof.
  unfold isAlpha, isDigit. intros Al Dg.
  apply andb_true_iff in Dg. destruct Dg as [D1 D2]. apply N.leb_le in D1. apply N.leb_le in D2.
  repeat (apply orb_true_iff in Al; destruct Al as [Al|Al]);
    try (apply andb_true_iff in Al; destruct Al as [A1 A2]; apply N.leb_le in A1; apply N.leb_le in A2; lia);
    apply N.eqb_eq in Al; lia.
Qed.

Lemma maximal_nil : maximal [] [].
Proof.
  split; [reflexivity|]. split; [discriminate|]. split; [discriminate|]. split; [intros [N _]; congruence|discriminate].
Qed.
Lemma maximal_word c l t : isAlpha c = true -> hd_sat t isAlphaNumeric = false -> maximal (c :: l) t.
Proof.
  intros A X. split; [discriminate|]. split; [auto|].
  split; [intros c' r E D; inv E; destruct (alpha_not_digit _ A D)|].
  split; [intros [_ F]; inv F; destruct (alpha_not_digit c A); assumption|].
  intros E. inv E. discriminate A.
Qed.
Lemma maximal_number c l t : isDigit c = true -> hd_sat t isDigit = false ->
  (Forall (fun c => isDigit c = true) l -> forall d t', t = 44 :: d :: t' -> isDigit d = false) -> maximal (c :: l) t.
Proof.
  intros D X N44. split; [discriminate|].
  split; [intros c' r E A; inv E; destruct (alpha_not_digit _ A D)|]. split; [auto|].
  split; [intros [_ F]; inv F; eauto|]. intros E. inv E. discriminate D.
Qed.
Lemma maximal_other c l t : isAlpha c = false -> isDigit c = false ->
  (c = 46 -> l = [] -> forall t', t <> 46 :: 46 :: t') -> maximal (c :: l) t.
Proof.
  intros A D P. split; [discriminate|]. split; [intros c' r E; inv E; congruence|]. split; [intros c' r E; inv E; congruence|].
  split; [intros [_ F]; inv F; congruence|]. intros E. inv E. auto.
Qed.
