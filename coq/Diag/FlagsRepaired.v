(* C07 for the `repaired` configuration of Diag/Flags.v (the three repairs present, as in /repo since 9334089, 89505cd and 4012465):
   the equivalence "some module Faulty <-> an error-level diagnostic was delivered" holds for
   EVERY well-bracketed trace, without hypotheses. *)
From Coq Require Import List Bool.
Import ListNotations.
From DDP Require Import Diag.Flags Diag.FlagsProofs.

Lemma iff_delivered_repaired : forall tr s,
  complete repaired tr s ->
  (any_faulty s = true <-> delivered_error s = true) /\ (root_faulty s = true <-> delivered_error s = true).
Proof. intros tr s C. apply (faulty_iff_delivered_cfg repaired tr s C); left; reflexivity. Qed.

(* the repaired compiler refuses exactly the runs with a delivered error, whatever --module-linken says *)
Lemma refused_repaired : forall tr s lm, complete repaired tr s -> (refused repaired lm s = true <-> delivered_error s = true).
Proof.
  intros tr s lm C. destruct (iff_delivered_repaired tr s C) as [FA FR]. unfold refused. simpl.
  rewrite orb_true_iff, andb_true_iff. tauto.
Qed.

(* non-vacuity: the two witnesses that refute the pinned configuration are complete runs here too *)
Example repaired_discarded_instantiation : exists s,
  complete repaired trace_discarded_instantiation s /\ any_faulty s = false /\ delivered_error s = false.
Proof.
  assert (H : observe repaired trace_discarded_instantiation = Some (true, false, false, false, true)) by (vm_compute; reflexivity).
  apply observe_complete in H. destruct H as [s [C [A [_ [D _]]]]]. exists s. auto.
Qed.

Example repaired_root_scanner_error : exists s,
  complete repaired trace_root_scanner_error s /\ any_faulty s = true /\ delivered_error s = true /\
  artifact (compile repaired false true s) = false.
Proof.
  assert (H : observe repaired trace_root_scanner_error = Some (true, true, true, true, true)) by (vm_compute; reflexivity).
  apply observe_complete in H. destruct H as [s [C [A [R [D _]]]]]. exists s.
  split; [exact C|]. split; [exact A|]. split; [exact D|]. apply (refused_repaired _ s false C) in D. rewrite artifact_compile, D. reflexivity.
Qed.
