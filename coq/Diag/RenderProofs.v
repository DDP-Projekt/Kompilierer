(* C07, range half: the excerpt renderer indexes safely exactly for ranges that lie in the text. *)
From Coq Require Import List NArith Bool Lia.
Import ListNotations.
From DDP Require Import Diag.Render.
Local Open Scope N_scope.

Lemma usub1_pos : forall x, 1 <= x -> usub1 x = x - 1.
Proof. intros x H. unfold usub1. destruct (N.eqb_spec x 0); [lia | reflexivity]. Qed.

Lemma usub1_zero : usub1 0 = two64 - 1.
Proof. reflexivity. Qed.

Lemma nth_error_below : forall (l : list N) i j x, nth_error l i = Some x -> (j <= i)%nat -> exists y, nth_error l j = Some y.
Proof.
  intros l i j x H Hle. assert (Hlt : (j < length l)%nat).
  { assert (i < length l)%nat by (apply nth_error_Some; congruence). lia. }
  destruct (nth_error l j) eqn:E; [eauto|]. apply nth_error_None in E. lia.
Qed.

Lemma forallb_seq : forall (f : nat -> bool) n, forallb f (seq 0 n) = true <-> forall k, (k < n)%nat -> f k = true.
Proof.
  intros f n. rewrite forallb_forall. split.
  - intros H k Hk. apply H. apply in_seq. lia.
  - intros H k Hk. apply in_seq in Hk. apply H. lia.
Qed.

Section Proofs.
  Variable slack : N -> N.

  (* a degenerate range (zero value, or End.Line before Start.Line) makes the loop run zero times:
     `Start.Line - 1` underflows to 2^64-1, which is not below End.Line *)
  Lemma render_degenerate : forall sf lines r,
    wf_range r -> sl r = 0 \/ el r < sl r ->
    render_ok slack sf lines r = true /\ excerpt_lines r = 0.
  Proof.
    intros sf lines r [W1 [W2 [W3 W4]]] D. unfold render_ok, excerpt_lines.
    assert (E : el r - usub1 (sl r) = 0).
    { destruct D as [D | D].
      - rewrite D, usub1_zero. lia.
      - rewrite usub1_pos by lia. lia. }
    rewrite E. simpl. split; [destruct (negb sf); reflexivity | reflexivity].
  Qed.

  Lemma render_ok_fast_eq : forall sf lines r, render_ok_fast slack sf lines r = render_ok slack sf lines r.
  Proof.
    intros sf lines r. unfold render_ok_fast. destruct sf; cbn [negb]; [|reflexivity].
    destruct ((usub1 (sl r) <? el r) && (N.of_nat (length lines) <? el r)) eqn:E; [|reflexivity].
    apply andb_true_iff in E. destruct E as [E1 E2]. apply N.ltb_lt in E1. apply N.ltb_lt in E2.
    unfold render_ok. cbn [negb]. symmetry. destruct (forallb _ _) eqn:F; [|reflexivity].
    rewrite forallb_seq in F.
    set (start := usub1 (sl r)) in *.
    set (bad := N.max start (N.of_nat (length lines))).
    assert (Hk : (N.to_nat (bad - start) < N.to_nat (el r - start))%nat) by (unfold bad; lia).
    specialize (F _ Hk). unfold line_ok in F.
    replace (start + N.of_nat (N.to_nat (bad - start))) with bad in F by (unfold bad; lia).
    assert (Hn : nth_error lines (N.to_nat bad) = None) by (apply nth_error_None; unfold bad; lia).
    rewrite Hn in F. discriminate F.
  Qed.

  Lemma render_other_file : forall lines r, render_ok slack false lines r = true.
  Proof. reflexivity. Qed.

  (* the loop, indexed by line numbers *)
  Lemma render_ok_iff : forall lines r,
    render_ok slack true lines r = true <-> forall i, usub1 (sl r) <= i -> i < el r -> line_ok slack lines r i = true.
  Proof.
    intros lines r. unfold render_ok. cbn [negb]. rewrite forallb_seq. set (start := usub1 (sl r)). split; intros H.
    - intros i H1 H2. replace i with (start + N.of_nat (N.to_nat (i - start))) by lia. apply H. lia.
    - intros k Hk. apply H; lia.
  Qed.

  Lemma slice_ok_iff : forall len lo hi,
    slice_ok slack len lo hi = true <-> match hi with None => lo <= len | Some h => lo <= h /\ h <= len + slack len end.
  Proof. intros len lo [h|]; unfold slice_ok; rewrite ?andb_true_iff, !N.leb_le; tauto. Qed.

  (* x - 1 on a uint stays below a bound that is itself below 2^64 - 1 only if it did not wrap *)
  Lemma usub1_le : forall x b, b + 1 < two64 -> (usub1 x <= b <-> 1 <= x /\ x <= b + 1).
  Proof. intros x b Hb. unfold usub1. destruct (N.eqb_spec x 0); lia. Qed.

  (* what one iteration needs of its line: the first line, the last of several, the lines between *)
  Lemma line_ok_iff : forall lines r i, 1 <= sl r -> sl r <= el r -> wf_lines slack lines ->
    (line_ok slack lines r i = true <->
     exists len, nth_error lines (N.to_nat i) = Some len /\
       (i = sl r - 1 -> 1 <= sc r /\ sc r <= len + 1 /\
                         (sl r = el r -> 1 <= ec r /\ sc r <= ec r /\ ec r <= len + slack len + 1)) /\
       (i <> sl r - 1 -> el r - 1 <= i -> 1 <= ec r /\ ec r <= len + slack len + 1)).
  Proof.
    intros lines r i S1 S2 WL. unfold line_ok. rewrite (usub1_pos (sl r)), (usub1_pos (el r)) by lia.
    destruct (nth_error lines (N.to_nat i)) as [len|] eqn:E; [|split; [discriminate|intros [len [H _]]; discriminate]].
    assert (B : len + slack len + 1 < two64).
    { unfold wf_lines in WL. rewrite Forall_forall in WL. apply WL. eapply nth_error_In; eauto. }
    assert (Hsc : usub1 (sc r) <= len + slack len /\ usub1 (sc r) <= len <-> 1 <= sc r /\ sc r <= len + 1).
    { rewrite !usub1_le by lia. lia. }
    split.
    - intros H. exists len. split; [reflexivity|].
      destruct (N.eqb_spec i (sl r - 1)) as [Ei|Ni]; (split; [intros Hi|intros Hi He]; try contradiction).
      + rewrite !andb_true_iff, !slice_ok_iff in H. destruct H as [[[_ H1] H2] H3].
        destruct (proj1 Hsc (conj H1 H2)) as [C1 C2]. split; [exact C1|split; [exact C2|]]. intros Eq.
        apply N.eqb_eq in Eq. rewrite Eq, slice_ok_iff, (usub1_pos (sc r)) in H3 by exact C1.
        destruct H3 as [H3 H4]. apply usub1_le in H4; [|lia]. rewrite usub1_pos in H3 by lia. clear - H3 H4 C1. lia.
      + destruct (N.ltb_spec i (el r - 1)); [lia|]. rewrite slice_ok_iff in H. apply usub1_le; [lia|tauto].
    - intros [len' [E' [H1 H2]]]. injection E' as <-.
      destruct (N.eqb_spec i (sl r - 1)) as [Ei|Ni].
      + destruct (H1 Ei) as [C1 [C2 C3]]. rewrite !andb_true_iff, !slice_ok_iff.
        split; [split; [split; [lia|]|]; apply Hsc; auto|].
        destruct (N.eqb_spec (sl r) (el r)) as [Eq|]; [|reflexivity].
        destruct (C3 Eq) as [D1 [D2 D3]]. rewrite slice_ok_iff, !usub1_pos by assumption. clear - D1 D2 D3 C1. lia.
      + destruct (N.ltb_spec i (el r - 1)); [reflexivity|]. rewrite slice_ok_iff. split; [lia|].
        apply usub1_le; [lia|]. apply H2; [exact Ni|lia].
  Qed.

  Lemma render_total_iff_in_text_slack : forall lines r,
    wf_lines slack lines -> 1 <= sl r -> sl r <= el r ->
    (render_ok slack true lines r = true <-> in_text_slack slack lines r).
  Proof.
    intros lines r WL S1 S2. rewrite render_ok_iff, (usub1_pos (sl r)) by exact S1.
    unfold in_text_slack, pos_in, pos_le. split.
    - (* safe indexing forces the range into the text: look at the first and at the last iteration *)
      intros H.
      destruct (proj1 (line_ok_iff lines r (sl r - 1) S1 S2 WL) (H (sl r - 1) ltac:(lia) ltac:(lia))) as [len0 [E0 [F0 _]]].
      destruct (proj1 (line_ok_iff lines r (el r - 1) S1 S2 WL) (H (el r - 1) ltac:(lia) ltac:(lia))) as [len1 [E1 [F1 L1]]].
      destruct (F0 eq_refl) as [C1 [C2 C3]].
      split; [split; [exact S1|exists len0; split; [exact E0|lia]]|].
      destruct (N.eq_dec (sl r) (el r)) as [Eq|Ne].
      + destruct (C3 Eq) as [D1 [D2 D3]]. rewrite <- Eq. split; [|lia]. split; [exact S1|]. exists len0. split; [exact E0|lia].
      + destruct L1 as [D1 D2]; [lia|lia|]. split; [|lia]. split; [lia|]. exists len1. split; [exact E1|lia].
    - (* a range in the text is indexed safely *)
      intros [[_ [len0 [E0 [SC1 SC2]]]] [[_ [len1 [E1 [EC1 EC2]]]] PL]] i Hi1 Hi2.
      apply (line_ok_iff lines r i S1 S2 WL).
      destruct (nth_error_below lines (N.to_nat (el r - 1)) (N.to_nat i) len1 E1 ltac:(lia)) as [len Elen].
      exists len. split; [exact Elen|]. split.
      + intros ->. rewrite E0 in Elen. injection Elen as <-. split; [exact SC1|split; [lia|]].
        intros Eq. rewrite Eq, E1 in E0. injection E0 as <-. lia.
      + intros _ Hl. assert (i = el r - 1) by lia. subst i. rewrite E1 in Elen. injection Elen as <-. lia.
  Qed.

  Lemma in_text_in_text_slack : forall lines r, in_text lines r -> in_text_slack slack lines r.
  Proof.
    intros lines r [P1 [[L [len [E [C1 C2]]]] PL]]. split; [exact P1|]. split; [|exact PL].
    split; [exact L|]. exists len. repeat split; try assumption. lia.
  Qed.

  Lemma in_text_lines_ordered : forall lines r, in_text lines r -> 1 <= sl r /\ sl r <= el r.
  Proof. intros lines r [[L _] [_ PL]]. split; [exact L|]. destruct PL as [PL | [PL _]]; lia. Qed.

End Proofs.

(* without excess capacity the renderer is total exactly on the ranges inside the text *)
Lemma render_total_iff_in_text : forall lines r,
  wf_range r -> wf_lines (fun _ => 0) lines -> 1 <= sl r -> sl r <= el r ->
  (render_ok (fun _ => 0) true lines r = true <-> in_text lines r).
Proof.
  intros lines r _ WL S1 S2. rewrite render_total_iff_in_text_slack by assumption. reflexivity.
Qed.

(* token.NewRange over two in-text ranges whose outer ends are ordered *)
Lemma newrange_ends_ordered : forall lines a b,
  in_text lines a -> in_text lines b -> pos_le (sl a) (sc a) (el b) (ec b) -> in_text lines (new_range a b).
Proof.
  intros lines a b [PA [_ _]] [_ [PB _]] PL. unfold in_text, new_range. cbn [sl sc el ec]. auto.
Qed.

Lemma pos_le_trans : forall l1 c1 l2 c2 l3 c3, pos_le l1 c1 l2 c2 -> pos_le l2 c2 l3 c3 -> pos_le l1 c1 l3 c3.
Proof. unfold pos_le. intros. lia. Qed.

(* two tokens in stream order (begin starts no later than end starts) *)
Lemma newrange_monotone : forall lines a b,
  in_text lines a -> in_text lines b -> pos_le (sl a) (sc a) (sl b) (sc b) -> in_text lines (new_range a b).
Proof.
  intros lines a b IA IB PL. apply newrange_ends_ordered; try assumption.
  destruct IB as [_ [_ PB]]. eapply pos_le_trans; eauto.
Qed.

(* non-vacuity: text "ab\ncde" ; range (1,2)-(2,3) is rendered, (1,2)-(2,5) and the zero range are not in the text *)
Example render_example_ok : render_ok (fun _ => 0) true [2; 3] (mkRange 1 2 2 3) = true /\ in_text [2; 3] (mkRange 1 2 2 3).
Proof.
  split; [reflexivity|]. unfold in_text, pos_in, pos_le; cbn. repeat split; try lia.
  - exists 2. repeat split; lia.
  - exists 3. repeat split; lia.
Qed.
Example render_example_bad : render_ok (fun _ => 0) true [2; 3] (mkRange 1 2 2 5) = false.
Proof. reflexivity. Qed.
Example render_example_zero : render_ok (fun _ => 0) true [2; 3] (mkRange 0 0 0 0) = true /\ excerpt_lines (mkRange 0 0 0 0) = 0.
Proof. split; reflexivity. Qed.
