(* C07: warnings alone never fail a compilation. Along a run without an error-capable event no
   error-level diagnostic is held anywhere in the state and no resolver or typechecker marks a module;
   the rest is the invariant of FlagsProofs. *)
From Coq Require Import List Bool NArith.
Import ListNotations.
From DDP Require Import Diag.Flags Diag.FlagsProofs.

Definition dwarn (e : diag) : Prop := diag_is_err e = false.
Definition owarn (o : option diag) : Prop := match o with Some e => dwarn e | None => True end.
Definition arg_warn (a : arg) : Prop := Forall dwarn (a_bag a) /\ Forall dwarn (a_cand a).
Record ctx_warn (c : ctx) : Prop := mkCw {
  cw_spec : match c_spec c with Some o => owarn o | None => True end;
  cw_pending : owarn (c_pending c);
  cw_bag : Forall dwarn (c_bag c);
  cw_cand : Forall dwarn (c_cand c);
  cw_args : Forall arg_warn (c_args c)
}.

Record Wn (g : glob) (st : list ctx) : Prop := mkWn {
  wn_delivered : Forall dwarn (g_delivered g);
  wn_not_stale : g_stale g = false;
  wn_frames : Forall ctx_warn st
}.

Lemma wn_top : forall g c r, Wn g (c :: r) -> ctx_warn c.
Proof. intros g c r W. exact (Forall_inv (wn_frames _ _ W)). Qed.

Lemma wn_set_top : forall g c c' r, Wn g (c :: r) -> ctx_warn c' -> Wn g (c' :: r).
Proof. intros g c c' r [D T S] H. constructor; try assumption. constructor; [exact H | exact (Forall_inv_tail S)]. Qed.

Lemma ctx_warn_new : forall k m ws sv, ctx_warn (new_ctx k m ws sv).
Proof. intros. constructor; simpl; auto. Qed.

Lemma ctx_warn_set_cur_panic : forall b c, ctx_warn c -> ctx_warn (set_cur_panic b c).
Proof.
  intros b c [H1 H2 H3 H4 H5]. unfold set_cur_panic. destruct (c_args c) as [|a ar] eqn:A.
  - constructor; simpl; rewrite ?A; auto.
  - constructor; simpl; auto. constructor; [exact (Forall_inv H5) | exact (Forall_inv_tail H5)].
Qed.

Lemma ctx_warn_set_cur_cand : forall l c, ctx_warn c -> Forall dwarn l -> ctx_warn (set_cur_cand l c).
Proof.
  intros l c [H1 H2 H3 H4 H5] L. unfold set_cur_cand. destruct (c_args c) as [|a ar] eqn:A.
  - constructor; simpl; rewrite ?A; auto.
  - constructor; simpl; auto. constructor; [split; [exact (proj1 (Forall_inv H5)) | exact L] | exact (Forall_inv_tail H5)].
Qed.

Lemma cur_cand_warn : forall c, ctx_warn c -> Forall dwarn (cur_cand c).
Proof.
  intros c [H1 H2 H3 H4 H5]. unfold cur_cand. destruct (c_args c) as [|a ar]; [assumption|].
  exact (proj2 (Forall_inv H5)).
Qed.

Lemma wn_emit_parser : forall e c g r, Wn g (c :: r) -> dwarn e ->
  Wn (snd (emit_parser e c g)) (fst (emit_parser e c g) :: r).
Proof.
  intros e c g r W D. unfold emit_parser, emit_base. pose proof (wn_top _ _ _ W) as [H1 H2 H3 H4 H5].
  destruct (c_args c) as [|a ar] eqn:A; [destruct (c_spec c) eqn:S; [|destruct (c_kind c)]|]; simpl.
  - apply (wn_set_top g c); [exact W|]. constructor; simpl; rewrite ?A; auto.
  - destruct W as [WD WT WS]. unfold dwarn in D. constructor; simpl; auto.
  - apply (wn_set_top g c); [exact W|]. constructor; simpl; rewrite ?A, ?S; auto.
  - apply (wn_set_top g c); [exact W|]. constructor; simpl; auto.
    constructor; [|exact (Forall_inv_tail H5)]. destruct (Forall_inv H5) as [B C]. split; simpl; auto.
Qed.

Lemma wn_err_val : forall e c g r, Wn g (c :: r) -> dwarn e ->
  Wn (snd (err_val e c g)) (fst (err_val e c g) :: r).
Proof.
  intros e c g r W D. unfold err_val. destruct (cur_panic c); [exact W|].
  apply wn_emit_parser; [|exact D]. apply (wn_set_top g c); [exact W|]. apply ctx_warn_set_cur_panic. eapply wn_top; eauto.
Qed.

Lemma wn_replay : forall l c g r, Wn g (c :: r) -> Forall dwarn l ->
  Wn (snd (replay l c g)) (fst (replay l c g) :: r).
Proof.
  induction l as [|e l IH]; intros c g r W L; simpl; [exact W|].
  pose proof (wn_emit_parser e c g r W (Forall_inv L)) as W1.
  destruct (emit_parser e c g) as [c1 g1]. exact (IH _ _ _ W1 (Forall_inv_tail L)).
Qed.

Lemma wn_init : Wn (s_g init) (s_stack init).
Proof. constructor; simpl; auto. constructor; [apply ctx_warn_new | constructor]. Qed.

Lemma step_wn : forall cfg s ev s', Wn (s_g s) (s_stack s) -> warn_only ev = true -> step cfg s ev = Some s' ->
  Wn (s_g s') (s_stack s').
Proof.
  intros cfg [g st] ev s' W WO Hs. unfold step in Hs. cbn [s_g s_stack] in *. destruct st as [|c rest]; [discriminate|].
  pose proof (wn_top _ _ _ W) as CW. pose proof CW as [H1 H2 H3 H4 H5].
  (* a frame that differs from c in fields that hold no diagnostic *)
  assert (Same : forall c', c_spec c' = c_spec c -> c_pending c' = c_pending c -> c_bag c' = c_bag c ->
                            c_cand c' = c_cand c -> c_args c' = c_args c -> Wn g (c' :: rest)).
  { intros c' E1 E2 E3 E4 E5. apply (wn_set_top g c); [exact W|]. constructor; rewrite ?E1, ?E2, ?E3, ?E4, ?E5; assumption. }
  destruct ev; simpl in WO; try discriminate WO.
  - (* EErr *)
    destruct o; try discriminate WO; destruct l; try discriminate WO.
    + destruct (c_kind c); [|discriminate]. injection Hs as <-. destruct W as [WD WT WS].
      constructor; simpl; auto. constructor; [reflexivity | assumption].
    + injection Hs as <-. apply wn_err_val; [exact W | reflexivity].
  - (* EDirect *)
    destruct l; try discriminate WO. injection Hs as <-. apply wn_emit_parser; [exact W | reflexivity].
  - (* ESync *)
    injection Hs as <-. apply (wn_set_top g c); [exact W|]. apply ctx_warn_set_cur_panic. exact CW.
  - (* ESpecBegin *)
    destruct (c_args c) eqn:A; [|discriminate]. destruct (c_spec c) eqn:S; [discriminate|].
    injection Hs as <-. apply (wn_set_top g c); [exact W|]. constructor; simpl; rewrite ?A; auto.
  - (* ESpecEnd *)
    destruct (c_args c) eqn:A; [|discriminate]. destruct (c_spec c) as [slot|] eqn:S; [|discriminate].
    injection Hs as <-. apply (wn_set_top g c); [exact W|]. constructor; simpl; rewrite ?A; auto.
  - (* EReraise *)
    destruct (c_args c) eqn:A; [|discriminate]. destruct (c_pending c) as [e|] eqn:P; [|discriminate].
    injection Hs as <-. apply wn_err_val; [|exact H2].
    apply (wn_set_top g c); [exact W|]. constructor; simpl; rewrite ?A; auto.
  - (* ESilentBegin *)
    injection Hs as <-. apply Same; reflexivity.
  - (* ESilentEnd *)
    destruct (c_silent c) as [|[[h f] p] sl]; [discriminate|]. injection Hs as <-. cbn [fst snd].
    destruct (Same (set_panic p (set_silent sl h c))) as [WD WT WS]; try reflexivity. constructor; assumption.
  - (* EArgBegin *)
    injection Hs as <-. apply (wn_set_top g c); [exact W|]. constructor; simpl; auto.
    constructor; [split; constructor | assumption].
  - (* EArgEnd *)
    destruct (c_args c) as [|a ar] eqn:A; [discriminate|]. injection Hs as <-.
    apply (wn_set_top g c); [exact W|]. destruct (Forall_inv H5) as [B C].
    assert (CW1 : ctx_warn (set_args ar c)) by (constructor; simpl; auto; exact (Forall_inv_tail H5)).
    apply ctx_warn_set_cur_cand; [exact CW1|]. apply Forall_app. split; [exact B | apply cur_cand_warn; exact CW1].
  - (* ECandDrop *)
    injection Hs as <-. apply (wn_set_top g c); [exact W|]. apply ctx_warn_set_cur_cand; [exact CW | constructor].
  - (* ECandReplay *)
    injection Hs as <-. apply wn_replay.
    + apply (wn_set_top g c); [exact W|]. apply ctx_warn_set_cur_cand; [exact CW | constructor].
    + apply Forall_rev. apply cur_cand_warn. exact CW.
  - (* EInstBegin *)
    destruct (mem d (g_seen g)); [|discriminate]. injection Hs as <-.
    destruct W as [WD WT WS]. constructor; try assumption. constructor; [apply ctx_warn_new | assumption].
  - (* EInstEnd *)
    destruct (c_kind c); [discriminate|]. destruct (c_args c); [|discriminate].
    destruct (c_spec c); [discriminate|]. destruct (c_silent c); [|discriminate].
    destruct rest as [|p rest']; [discriminate|]. injection Hs as <-. cbn [s_g s_stack].
    destruct W as [WD WT WS]. pose proof (Forall_inv (Forall_inv_tail WS)) as CP.
    constructor; try (destruct (cfg_inst_restores cfg); assumption).
    constructor; [|exact (Forall_inv_tail (Forall_inv_tail WS))].
    destruct keep; [|exact CP]. apply ctx_warn_set_cur_cand; [exact CP|].
    apply Forall_app. split; [exact H3 | apply cur_cand_warn; exact CP].
  - (* EImportBegin *)
    destruct (c_kind c); [|discriminate]. destruct (c_args c); [|discriminate].
    destruct (c_spec c); [discriminate|]. destruct (mem m (g_seen g)); [discriminate|].
    injection Hs as <-. destruct W as [WD WT WS]. constructor; simpl; try assumption.
    constructor; [apply ctx_warn_new | assumption].
  - (* EFinish *)
    destruct (c_kind c); [|discriminate]. destruct (c_args c); [|discriminate].
    destruct (c_spec c); [discriminate|]. destruct (c_silent c); [|discriminate].
    injection Hs as <-. destruct W as [WD WT WS]. constructor; simpl; try assumption. exact (Forall_inv_tail WS).
Qed.

Lemma warnings_never_fail : forall cfg tr s lm,
  complete cfg tr s -> forallb warn_only tr = true ->
  any_faulty s = false /\ delivered_error s = false /\
  exit_status (compile cfg lm true s) = 0 /\ artifact (compile cfg lm true s) = true.
Proof.
  intros cfg tr s lm C A. pose proof C as [R E].
  pose proof (run_preserves cfg (fun s => Wn (s_g s) (s_stack s)) warn_only (step_wn cfg) tr init s wn_init A R) as [WD WT _].
  assert (DE : delivered_error s = false).
  { unfold delivered_error. apply not_true_is_false. intros H. apply existsb_exists in H. destruct H as [e [Hin H]].
    rewrite Forall_forall in WD. specialize (WD e Hin). unfold dwarn in WD. congruence. }
  assert (AF : any_faulty s = false).
  { apply not_true_is_false. intros H. rewrite (faulty_imp_delivered_cfg cfg tr s C (or_intror WT) H) in DE. discriminate DE. }
  assert (RF : root_faulty s = false).
  { apply not_true_is_false. intros H. rewrite (root_faulty_imp_any cfg tr s C H) in AF. discriminate AF. }
  split; [exact AF|]. split; [exact DE|]. unfold compile. rewrite AF, RF, !andb_false_r. split; reflexivity.
Qed.

(* non-vacuity: a run with a warning (the `...` statement) in the root and in an imported module *)
Definition trace_warnings : list event :=
  [ EDirect OParser LWarn 2022%N; EImportBegin 1; EDirect OParser LWarn 2022%N; EFinish; EFinish ].

Lemma warnings_never_fail_nonvacuous :
  forallb warn_only trace_warnings = true /\
  exists s, complete pinned trace_warnings s /\ length (delivered s) = 2.
Proof.
  split; [reflexivity|].
  destruct (run pinned init trace_warnings) as [s|] eqn:E; [|vm_compute in E; discriminate E].
  exists s. vm_compute in E. inversion E; subst. split; [split; reflexivity | reflexivity].
Qed.
