(* Proofs about the flag machine of Diag/Flags.v (C07): one invariant for every configuration of the
   machine, from which the statements about the pinned and the repaired code are read off. *)
From Coq Require Import List Bool Arith NArith.
Import ListNotations.
From DDP Require Import Diag.Flags.

Lemma mem_In : forall m l, mem m l = true <-> In m l.
Proof.
  intros m l. unfold mem. rewrite existsb_exists. split.
  - intros [x [Hin Heq]]. apply Nat.eqb_eq in Heq. subst. exact Hin.
  - intros Hin. exists m. split; [exact Hin | apply Nat.eqb_refl].
Qed.

Lemma mark_mono : forall ws f m, f m = true -> mark ws f m = true.
Proof. intros ws f m H. unfold mark. destruct (mem m ws); auto. Qed.

Lemma mark_true : forall ws f m, mark ws f m = true -> mem m ws = true \/ f m = true.
Proof. intros ws f m H. unfold mark in H. destruct (mem m ws); auto. Qed.

Lemma mark_mem : forall ws f m, mem m ws = true -> mark ws f m = true.
Proof. intros ws f m H. unfold mark. rewrite H. reflexivity. Qed.

Lemma upd_same : forall f m v, upd f m v m = v.
Proof. intros. unfold upd. rewrite Nat.eqb_refl. reflexivity. Qed.

Lemma upd_other : forall f m v x, x <> m -> upd f m v x = f x.
Proof. intros f m v x H. unfold upd. apply Nat.eqb_neq in H. rewrite H. reflexivity. Qed.

Lemma upd_true_mono : forall f m x, f x = true -> upd f m true x = true.
Proof. intros f m x H. unfold upd. destruct (x =? m); [reflexivity | exact H]. Qed.

Definition same_frame (c c' : ctx) : Prop :=
  c_kind c' = c_kind c /\ c_mod c' = c_mod c /\ c_wraps c' = c_wraps c /\ c_silent c' = c_silent c.

Lemma sf_set_cand : forall b c, same_frame c (set_cand b c).
Proof. intros. repeat split. Qed.

(* what no handler call changes of the frame it runs in *)
Definition keeps (c c' : ctx) : Prop := same_frame c c' /\ c_saved c' = c_saved c.

Lemma keeps_refl : forall c, keeps c c.
Proof. intros c. repeat split. Qed.

Lemma keeps_trans : forall a b c, keeps a b -> keeps b c -> keeps a c.
Proof.
  intros a b c [[H1 [H2 [H3 H4]]] H5] [[G1 [G2 [G3 G4]]] G5]. repeat split; congruence.
Qed.

Lemma keeps_set_cur_panic : forall b c, keeps c (set_cur_panic b c).
Proof. intros. unfold set_cur_panic. destruct (c_args c); repeat split. Qed.

Lemma keeps_set_cur_cand : forall l c, keeps c (set_cur_cand l c).
Proof. intros. unfold set_cur_cand. destruct (c_args c); repeat split. Qed.

(* deliveries to the user's handler through the wrapper chain ws *)
Inductive deliv (ws : list nat) : glob -> glob -> Prop :=
| d_refl : forall g, deliv ws g g
| d_step : forall g e g', deliv ws (to_user ws e g) g' -> deliv ws g g'.

Lemma deliv_trans : forall ws g1 g2 g3, deliv ws g1 g2 -> deliv ws g2 g3 -> deliv ws g1 g3.
Proof.
  intros ws g1 g2 g3 H. induction H as [g | g e g' H IH]; intro H2; [exact H2|].
  eapply d_step. apply IH. exact H2.
Qed.

(* what a handler call can do: the frame is kept; a collecting parser changes nothing global, a
   main parser delivers through its own wrapper chain *)
Definition effect (c : ctx) (g : glob) (c' : ctx) (g' : glob) : Prop :=
  keeps c c' /\ (g' = g \/ (c_kind c = KMain /\ deliv (c_wraps c) g g')).

Lemma effect_keeps : forall c g c', keeps c c' -> effect c g c' g.
Proof. intros. split; [assumption | left; reflexivity]. Qed.

Lemma effect_trans : forall c1 g1 c2 g2 c3 g3, effect c1 g1 c2 g2 -> effect c2 g2 c3 g3 -> effect c1 g1 c3 g3.
Proof.
  intros c1 g1 c2 g2 c3 g3 [S1 E1] [S2 E2]. split; [eapply keeps_trans; eauto|].
  destruct S1 as [[K1 [_ [W1 _]]] _]. rewrite K1, W1 in E2.
  destruct E1 as [-> | [K E1]]; [exact E2|]. right. split; [exact K|].
  destruct E2 as [-> | [_ E2]]; [exact E1 | eapply deliv_trans; eauto].
Qed.

Lemma emit_base_effect : forall e c g, effect c g (fst (emit_base e c g)) (snd (emit_base e c g)).
Proof.
  intros e c g. unfold emit_base. destruct (c_kind c) eqn:K; simpl.
  - split; [apply keeps_refl|]. right. split; [exact K|]. eapply d_step, d_refl.
  - apply effect_keeps. repeat split.
Qed.

Lemma emit_parser_effect : forall e c g, effect c g (fst (emit_parser e c g)) (snd (emit_parser e c g)).
Proof.
  intros e c g. unfold emit_parser. destruct (c_args c) as [|a r].
  - destruct (c_spec c); [apply effect_keeps; repeat split | apply emit_base_effect].
  - apply effect_keeps. repeat split.
Qed.

Lemma err_val_effect : forall e c g, effect c g (fst (err_val e c g)) (snd (err_val e c g)).
Proof.
  intros e c g. unfold err_val. destruct (cur_panic c).
  - apply effect_keeps, keeps_refl.
  - eapply effect_trans; [apply effect_keeps, (keeps_set_cur_panic true) | apply emit_parser_effect].
Qed.

Lemma replay_effect : forall l c g, effect c g (fst (replay l c g)) (snd (replay l c g)).
Proof.
  induction l as [|e r IH]; intros c g; simpl.
  - apply effect_keeps, keeps_refl.
  - pose proof (emit_parser_effect e c g) as H. destruct (emit_parser e c g) as [c1 g1].
    eapply effect_trans; [exact H | apply IH].
Qed.

(* the events that only run handlers in the top frame *)
Definition handler_event (ev : event) : bool :=
  match ev with
  | EErr OParser _ _ | EDirect _ _ _ | ESync | ESpecBegin | ESpecEnd | EReraise
  | EArgBegin | EArgEnd | ECandDrop | ECandReplay | ECandWrap _ => true
  | _ => false
  end.

Lemma step_handler : forall cfg g c rest ev s',
  handler_event ev = true -> step cfg (mkSt g (c :: rest)) ev = Some s' ->
  exists c' g', s' = mkSt g' (c' :: rest) /\ effect c g c' g'.
Proof.
  intros cfg g c rest ev s' Hev Hs. unfold step in Hs. cbn [s_stack s_g] in Hs.
  assert (R : forall cg : ctx * glob, effect c g (fst cg) (snd cg) -> Some (mkSt (snd cg) (fst cg :: rest)) = Some s' ->
              exists c' g', s' = mkSt g' (c' :: rest) /\ effect c g c' g').
  { intros cg E H. injection H as <-. eauto. }
  destruct ev; try discriminate Hev.
  - (* EErr OParser *) destruct o; try discriminate Hev. exact (R _ (err_val_effect _ _ _) Hs).
  - (* EDirect *) exact (R _ (emit_parser_effect _ _ _) Hs).
  - (* ESync *) exact (R (_, _) (effect_keeps _ _ _ (keeps_set_cur_panic _ _)) Hs).
  - (* ESpecBegin *) destruct (c_args c); [|discriminate]. destruct (c_spec c); [discriminate|].
    refine (R (_, _) (effect_keeps _ _ _ _) Hs). repeat split.
  - (* ESpecEnd *) destruct (c_args c); [|discriminate]. destruct (c_spec c); [|discriminate].
    refine (R (_, _) (effect_keeps _ _ _ _) Hs). repeat split.
  - (* EReraise *) destruct (c_args c); [|discriminate]. destruct (c_pending c); [|discriminate].
    refine (R _ (effect_trans _ _ (set_pending None c) g _ _ (effect_keeps _ _ _ _) (err_val_effect _ _ _)) Hs). repeat split.
  - (* EArgBegin *) refine (R (_, _) (effect_keeps _ _ _ _) Hs). repeat split.
  - (* EArgEnd *) destruct (c_args c) as [|a r] eqn:A; [discriminate|].
    refine (R (_, _) (effect_keeps _ _ _ _) Hs).
    eapply keeps_trans; [|apply keeps_set_cur_cand]. repeat split.
  - (* ECandDrop *) exact (R (_, _) (effect_keeps _ _ _ (keeps_set_cur_cand _ _)) Hs).
  - (* ECandReplay *) exact (R _ (effect_trans _ _ _ g _ _ (effect_keeps _ _ _ (keeps_set_cur_cand [] c)) (replay_effect _ _ _)) Hs).
  - (* ECandWrap *) exact (R _ (effect_trans _ _ _ g _ _ (effect_keeps _ _ _ (keeps_set_cur_cand [] c)) (err_val_effect _ _ _)) Hs).
Qed.

(* a property of states that every admissible step (of the events `ok`) preserves holds along a run *)
Lemma run_preserves : forall cfg (P : state -> Prop) (ok : event -> bool),
  (forall s ev s', P s -> ok ev = true -> step cfg s ev = Some s' -> P s') ->
  forall tr s s', P s -> forallb ok tr = true -> run cfg s tr = Some s' -> P s'.
Proof.
  intros cfg P ok Hstep. induction tr as [|ev r IH]; intros s s' Hp A H; simpl in *.
  - injection H as <-. exact Hp.
  - apply andb_true_iff in A. destruct A as [A1 A2].
    destruct (step cfg s ev) as [s1|] eqn:E; [|discriminate]. exact (IH _ _ (Hstep _ _ _ Hp A1 E) A2 H).
Qed.

(* own module first, then the importers down to the root *)
Definition wraps_ok (c : ctx) : Prop :=
  c_kind c = KMain -> exists t, c_wraps c = c_mod c :: t /\ ((t = [] /\ c_mod c = 0) \/ In 0 t).

Fixpoint bottom_root (st : list ctx) : Prop :=
  match st with
  | [] => True
  | c :: r => match r with [] => c_kind c = KMain /\ c_mod c = 0 | _ => bottom_root r end
  end.

Lemma bottom_root_tail : forall c p r, bottom_root (c :: p :: r) -> bottom_root (p :: r).
Proof. intros c p r H. exact H. Qed.

(* delivered_error, on the global part of the state *)
Definition has_err (g : glob) : bool := existsb diag_is_err (g_delivered g).

Definition is_inst_of (m : nat) (c : ctx) : Prop := c_kind c = KInst /\ c_mod c = m.

Lemma wraps_ok_mem0 : forall c, wraps_ok c -> c_kind c = KMain -> In 0 (c_wraps c).
Proof.
  intros c H K. destruct (H K) as [t [E [[_ M] | T]]]; rewrite E; [left; exact M | right; exact T].
Qed.

Lemma inprogress_tail : forall c r m, In m (inprogress r) -> In m (inprogress (c :: r)).
Proof. intros c r m H. simpl. destruct (c_kind c); [right|]; assumption. Qed.

(* g' has at least the marks of g that can justify a Faulty flag *)
Definition grows (g g' : glob) : Prop :=
  (forall m, g_errored g m = true -> g_errored g' m = true) /\
  (forall m, g_scanerr g m = true -> g_scanerr g' m = true) /\
  (g_stale g = true -> g_stale g' = true).

Section Invariant.
  Variable cfg : config.

  (* why a module may currently carry Faulty = true: its parser or its scanner reported an error to the
     user; its Parse has not returned yet; or a resolver/typechecker of an instantiation flagged it - which
     the repaired code undoes when the instantiation returns, and the pinned code never does *)
  Definition justified (g : glob) (st : list ctx) (m : nat) : Prop :=
    g_errored g m = true \/ g_scanerr g m = true \/ In m (inprogress st) \/
    (if cfg_inst_restores cfg then Exists (is_inst_of m) st else g_stale g = true).

  (* the Faulty values a frame has saved (EvaluateSilent; the start of an instantiation) are justified by
     the frames below it, so that they stay so whatever is pushed and popped above *)
  Fixpoint frames_ok (g : glob) (st : list ctx) : Prop :=
    match st with
    | [] => True
    | c :: r =>
        (c_kind c = KInst -> c_saved c = true -> justified g r (c_mod c)) /\
        Forall (fun hfp : bool * bool * bool => snd (fst hfp) = true -> justified g (c :: r) (c_mod c)) (c_silent c) /\
        frames_ok g r
    end.

  Record Inv (g : glob) (st : list ctx) : Prop := mkInv {
    inv_wraps : Forall wraps_ok st;
    inv_marks_delivered : forall m, g_errored g m = true \/ g_scanerr g m = true -> has_err g = true;
    inv_delivered_root : has_err g = true -> g_errored g 0 = true \/ (g_rootscan g = true /\ g_scanerr g 0 = true);
    inv_bottom : bottom_root st;
    inv_root_final : st = [] -> g_faulty g 0 = g_errored g 0 || (cfg_scan_counts cfg && g_scanerr g 0);
    inv_root_seen : In 0 (g_seen g);
    inv_faulty_justified : forall m, g_faulty g m = true -> justified g st m;
    inv_frames : frames_ok g st
  }.

  Lemma justified_grows : forall g g' st m, grows g g' -> justified g st m -> justified g' st m.
  Proof.
    intros g g' st m [G1 [G2 G3]] [H | [H | [H | H]]]; unfold justified; auto.
    do 3 right. destruct (cfg_inst_restores cfg); auto.
  Qed.

  Lemma frames_ok_grows : forall g g' st, grows g g' -> frames_ok g st -> frames_ok g' st.
  Proof.
    intros g g' st G. induction st as [|c r IH]; simpl; [auto|]. intros [H1 [H2 H3]].
    split; [|split; [|auto]].
    - intros K S. eapply justified_grows; eauto.
    - eapply Forall_impl; [|exact H2]. intros a Ha S. eapply justified_grows; eauto.
  Qed.

  Lemma justified_same_top : forall g c c' r m,
    c_kind c' = c_kind c -> c_mod c' = c_mod c -> justified g (c :: r) m -> justified g (c' :: r) m.
  Proof.
    intros g c c' r m K M [H | [H | [H | H]]]; unfold justified; auto.
    - right; right; left. simpl in *. rewrite K, M. exact H.
    - do 3 right. destruct (cfg_inst_restores cfg); [|exact H].
      apply Exists_cons in H. apply Exists_cons. destruct H as [H | H]; [left | right; exact H].
      unfold is_inst_of in *. rewrite K, M. exact H.
  Qed.

  Lemma justified_push : forall g c r m, justified g r m -> justified g (c :: r) m.
  Proof.
    intros g c r m [H | [H | [H | H]]]; unfold justified; auto.
    - right; right; left. apply inprogress_tail. exact H.
    - do 3 right. destruct (cfg_inst_restores cfg); [apply Exists_cons_tl|]; exact H.
  Qed.

  (* popping a frame keeps the justification of every module but the one a main parser was parsing and,
     where instantiations restore the flag, the one an instantiation ran on *)
  Lemma justified_pop : forall g c r m,
    (c_kind c = KMain -> c_mod c <> m) -> (c_kind c = KInst -> cfg_inst_restores cfg = true -> c_mod c <> m) ->
    justified g (c :: r) m -> justified g r m.
  Proof.
    intros g c r m HM HI [H | [H | [H | H]]]; unfold justified; auto.
    - right; right; left. simpl in H. destruct (c_kind c); [|exact H].
      destruct H as [H | H]; [exfalso; exact (HM eq_refl H) | exact H].
    - do 3 right. destruct (cfg_inst_restores cfg); [|exact H].
      apply Exists_cons in H. destruct H as [[K M] | H]; [exfalso; exact (HI K eq_refl M) | exact H].
  Qed.

  (* the module of the top frame, once its resolver or typechecker has marked it *)
  Lemma justified_top_marked : forall g c r, justified (mark_faulty (inprogress (c :: r)) (c_mod c) g) (c :: r) (c_mod c).
  Proof.
    intros g c r. unfold justified. destruct (c_kind c) eqn:K.
    - right; right; left. simpl. rewrite K. left. reflexivity.
    - destruct (cfg_inst_restores cfg).
      + do 3 right. apply Exists_cons_hd. split; [exact K | reflexivity].
      + destruct (mem (c_mod c) (inprogress (c :: r))) eqn:Hm.
        * right; right; left. apply mem_In. exact Hm.
        * do 3 right. cbn [mark_faulty g_stale]. rewrite Hm. apply orb_true_r.
  Qed.

  (* replacing the top frame by one of the same kind, module, wrappers and saved flag, whose silent stack
     holds justified values only *)
  Lemma inv_replace_top : forall g c c' r,
    Inv g (c :: r) -> c_kind c' = c_kind c -> c_mod c' = c_mod c -> c_wraps c' = c_wraps c -> c_saved c' = c_saved c ->
    Forall (fun hfp : bool * bool * bool => snd (fst hfp) = true -> justified g (c :: r) (c_mod c)) (c_silent c') ->
    Inv g (c' :: r).
  Proof.
    intros g c c' r I K M W S L. destruct I as [Hwraps Hmarks Hroot Hbottom Hfinal Hseen Hfaulty Hframes]. constructor; try assumption.
    - inversion Hwraps; subst. constructor; [|assumption]. unfold wraps_ok in *. rewrite K, M, W. assumption.
    - simpl in *. destruct r; [rewrite K, M|]; assumption.
    - discriminate.
    - intros m Hm. apply (justified_same_top g c); auto.
    - simpl in *. rewrite K, M, S. destruct Hframes as [H1 [_ H3]]. split; [exact H1|split; [|exact H3]].
      eapply Forall_impl; [|exact L]. intros a Ha Hs. apply (justified_same_top g c); auto.
  Qed.

  Lemma inv_keeps : forall g c c' r, Inv g (c :: r) -> keeps c c' -> Inv g (c' :: r).
  Proof.
    intros g c c' r I [[K [M [W L]]] S]. apply (inv_replace_top g c); auto.
    rewrite L. exact (proj1 (proj2 (inv_frames _ _ I))).
  Qed.

  (* a change of the global state under an unchanged stack *)
  Lemma inv_glob : forall g g' c r,
    Inv g (c :: r) -> grows g g' ->
    (forall m, g_errored g' m = true \/ g_scanerr g' m = true -> has_err g' = true) ->
    (has_err g' = true -> g_errored g' 0 = true \/ (g_rootscan g' = true /\ g_scanerr g' 0 = true)) ->
    In 0 (g_seen g') -> (forall m, g_faulty g' m = true -> justified g' (c :: r) m) -> Inv g' (c :: r).
  Proof.
    intros g g' c r I G HB HC HS HF. destruct I as [Hwraps Hmarks Hroot Hbottom Hfinal Hseen Hfaulty Hframes]. constructor; try assumption.
    - discriminate.
    - eapply frames_ok_grows; eauto.
  Qed.

  Lemma inv_to_user : forall g c r ws e, Inv g (c :: r) -> In 0 ws -> Inv (to_user ws e g) (c :: r).
  Proof.
    intros g c r ws e I W.
    assert (G : grows g (to_user ws e g)).
    { split; [|split; auto]. intros m H. simpl. destruct (diag_is_err e); [apply mark_mono|]; exact H. }
    apply (inv_glob g); try assumption.
    - change (has_err (to_user ws e g)) with (diag_is_err e || has_err g).
      intros m Hm. destruct (diag_is_err e) eqn:De; [reflexivity|]. apply (inv_marks_delivered _ _ I m). simpl in Hm. rewrite De in Hm. exact Hm.
    - change (has_err (to_user ws e g)) with (diag_is_err e || has_err g). simpl. destruct (diag_is_err e); simpl.
      + intros _. left. apply mark_mem, mem_In, W.
      + exact (inv_delivered_root _ _ I).
    - exact (inv_root_seen _ _ I).
    - intros m Hm. apply (justified_grows g); [exact G|]. exact (inv_faulty_justified _ _ I m Hm).
  Qed.

  Lemma inv_effect : forall g c r c' g', Inv g (c :: r) -> effect c g c' g' -> Inv g' (c' :: r).
  Proof.
    intros g c r c' g' I [KP E]. apply (inv_keeps g' c); [|exact KP].
    destruct E as [-> | [K E]]; [exact I|].
    assert (W : In 0 (c_wraps c)) by (apply wraps_ok_mem0; [exact (Forall_inv (inv_wraps _ _ I)) | exact K]).
    clear KP. induction E as [g | g e g' _ IH]; [exact I|]. apply IH. apply inv_to_user; assumption.
  Qed.

  (* a flag written under an unchanged stack *)
  Lemma inv_faulty : forall g g' c r,
    Inv g (c :: r) -> grows g g' -> g_errored g' = g_errored g -> g_scanerr g' = g_scanerr g ->
    g_delivered g' = g_delivered g -> g_rootscan g' = g_rootscan g -> g_seen g' = g_seen g ->
    (forall m, g_faulty g' m = true -> g_faulty g m = true \/ justified g' (c :: r) m) -> Inv g' (c :: r).
  Proof.
    intros g g' c r I G E1 E2 E3 E4 E5 HF. apply (inv_glob g); try assumption; unfold has_err; rewrite ?E1, ?E2, ?E3, ?E4, ?E5.
    - exact (inv_marks_delivered _ _ I).
    - exact (inv_delivered_root _ _ I).
    - exact (inv_root_seen _ _ I).
    - intros m Hm. destruct (HF m Hm) as [H | H]; [|exact H]. apply (justified_grows g); [exact G|]. exact (inv_faulty_justified _ _ I m H).
  Qed.

  Lemma inv_mark_faulty : forall g c r, Inv g (c :: r) -> Inv (mark_faulty (inprogress (c :: r)) (c_mod c) g) (c :: r).
  Proof.
    intros g c r I. apply (inv_faulty g); try reflexivity; [exact I| |].
    - repeat split; auto. simpl. intros ->. reflexivity.
    - intros m Hm. cbn [mark_faulty g_faulty] in Hm. destruct (Nat.eq_dec m (c_mod c)) as [-> | NE].
      + right. apply justified_top_marked.
      + left. rewrite upd_other in Hm by exact NE. exact Hm.
  Qed.

  Lemma rt_err_inv : forall o e g c r,
    Inv g (c :: r) ->
    Inv (snd (rt_err o e (inprogress (c :: r)) c g)) (fst (rt_err o e (inprogress (c :: r)) c g) :: r).
  Proof.
    intros o e g c r I. unfold rt_err.
    pose proof (inv_mark_faulty g c r I) as I1.
    set (g1 := mark_faulty (inprogress (c :: r)) (c_mod c) g) in *.
    destruct (c_panic c); [exact I1|].
    assert (Hp : Inv g1 (set_panic true c :: r)) by (apply (inv_keeps g1 c); [exact I1 | repeat split]).
    assert (Hb : Inv (snd (emit_base e (set_panic true c) g1)) (fst (emit_base e (set_panic true c) g1) :: r)).
    { eapply inv_effect; [exact Hp | apply emit_base_effect]. }
    destruct o; try exact Hb. destruct (c_rtempty c); [exact Hp | exact Hb].
  Qed.
End Invariant.

Lemma inv_init : forall cfg, Inv cfg (s_g init) (s_stack init).
Proof.
  intros cfg. unfold init; simpl. constructor; simpl; try discriminate; auto.
  - constructor; [|constructor]. intros _. exists []. auto.
  - intros m [H | H]; discriminate H.
  - split; [intros K; discriminate K | split; [constructor | exact I]].
Qed.

Lemma step_inv : forall cfg s ev s', Inv cfg (s_g s) (s_stack s) -> step cfg s ev = Some s' -> Inv cfg (s_g s') (s_stack s').
Proof.
  intros cfg [g st] ev s' I Hs. cbn [s_g s_stack] in I. destruct st as [|c rest]; [discriminate|].
  destruct (handler_event ev) eqn:Hev.
  { destruct (step_handler _ _ _ _ _ _ Hev Hs) as [c' [g' [-> E]]]. exact (inv_effect cfg _ _ _ _ _ I E). }
  unfold step in Hs. cbn [s_g s_stack] in Hs.
  pose proof (Forall_inv (inv_wraps _ _ _ I)) as HA.
  destruct ev; try discriminate Hev.
  - (* EErr *)
    destruct o; try discriminate Hev.
    + (* the module's scanner: delivery through the importers' wrappers, then the module's own mark *)
      destruct (c_kind c) eqn:K; [|discriminate]. injection Hs as <-. cbn [s_g s_stack].
      generalize (mkDiag OScanner l (c_mod c) code). intros e.
      destruct (HA K) as [t [W T]]. unfold scan_err. rewrite W. cbn [tl].
      assert (Ht : t = [] \/ In 0 t) by tauto.
      apply (inv_glob cfg g); try assumption.
      * split; [|split; auto]; simpl; intros m H.
        -- destruct (diag_is_err e); [apply mark_mono|]; exact H.
        -- destruct (diag_is_err e); [apply upd_true_mono|]; exact H.
      * change (has_err _) with (diag_is_err e || has_err g). simpl. intros m Hm.
        destruct (diag_is_err e); [reflexivity|]. exact (inv_marks_delivered _ _ _ I m Hm).
      * change (has_err _) with (diag_is_err e || has_err g). simpl. destruct (diag_is_err e); simpl.
        -- intros _. destruct T as [[-> M] | T].
           ++ right. rewrite M, upd_same, orb_true_r. auto.
           ++ left. apply mark_mem, mem_In, T.
        -- rewrite orb_false_r. exact (inv_delivered_root _ _ _ I).
      * exact (inv_root_seen _ _ _ I).
      * intros m Hm. apply (justified_grows cfg g); [|exact (inv_faulty_justified _ _ _ I m Hm)].
        split; [|split; auto]; simpl; intros x H.
        -- destruct (diag_is_err e); [apply mark_mono|]; exact H.
        -- destruct (diag_is_err e); [apply upd_true_mono|]; exact H.
    + injection Hs as <-. apply rt_err_inv. exact I.
    + injection Hs as <-. apply rt_err_inv. exact I.
  - (* EMarkBad *)
    injection Hs as <-. apply inv_mark_faulty. exact I.
  - (* ESilentBegin: the saved flag is justified now *)
    injection Hs as <-. cbn [s_g s_stack fst snd]. apply (inv_replace_top cfg g c); try reflexivity; [exact I|].
    constructor; [exact (inv_faulty_justified _ _ _ I (c_mod c)) | exact (proj1 (proj2 (inv_frames _ _ _ I)))].
  - (* ESilentEnd: and still is when it is written back *)
    destruct (c_silent c) as [|[[h f] p] sl] eqn:SL; [discriminate|]. injection Hs as <-. cbn [s_g s_stack fst snd].
    pose proof (proj1 (proj2 (inv_frames _ _ _ I))) as HL. rewrite SL in HL.
    apply (inv_replace_top cfg _ c); try reflexivity; [|exact (Forall_inv_tail HL)].
    apply (inv_faulty cfg g); try reflexivity; [exact I | repeat split; auto |].
    intros m Hm. cbn [set_faulty g_faulty] in Hm. destruct (Nat.eq_dec m (c_mod c)) as [-> | NE].
    + right. rewrite upd_same in Hm. exact (Forall_inv HL Hm).
    + left. rewrite upd_other in Hm by exact NE. exact Hm.
  - (* EInstBegin *)
    destruct (mem d (g_seen g)); [|discriminate]. injection Hs as <-. cbn [s_g s_stack].
    destruct I as [Hwraps Hmarks Hroot Hbottom Hfinal Hseen Hfaulty Hframes]. constructor; try assumption.
    + constructor; [|assumption]. intros K. discriminate K.
    + discriminate.
    + intros m Hm. apply justified_push. apply Hfaulty. exact Hm.
    + split; [|split; [constructor | exact Hframes]]. intros _ Sv. apply Hfaulty. exact Sv.
  - (* EInstEnd: the flag of the declaring module is restored (repaired code) or stays (pinned code) *)
    destruct (c_kind c) eqn:K; [discriminate|]. destruct (c_args c); [|discriminate].
    destruct (c_spec c); [discriminate|]. destruct (c_silent c); [|discriminate].
    destruct rest as [|p rest']; [discriminate|]. injection Hs as <-. cbn [s_g s_stack].
    apply (inv_keeps cfg _ p); [|destruct keep; [apply keeps_set_cur_cand | apply keeps_refl]].
    assert (HF : forall m, g_faulty (if cfg_inst_restores cfg then set_faulty (upd (g_faulty g) (c_mod c) (c_saved c)) g else g) m = true ->
                           justified cfg g (p :: rest') m).
    { intros m. destruct (Nat.eq_dec (c_mod c) m) as [<- | NE].
      - destruct (cfg_inst_restores cfg) eqn:R; cbn [set_faulty g_faulty]; [rewrite upd_same|]; intros Hm.
        + exact (proj1 (inv_frames _ _ _ I) K Hm).
        + apply (justified_pop cfg g c); [rewrite K; discriminate | rewrite R; discriminate | exact (inv_faulty_justified _ _ _ I _ Hm)].
      - intros Hm. apply (justified_pop cfg g c); [rewrite K; discriminate | intros _ _; exact NE |]. apply (inv_faulty_justified _ _ _ I).
        destruct (cfg_inst_restores cfg); [|exact Hm]. cbn [set_faulty g_faulty] in Hm. rewrite upd_other in Hm by auto. exact Hm. }
    destruct I as [Hwraps Hmarks Hroot Hbottom Hfinal Hseen Hfaulty Hframes]. constructor; try (destruct (cfg_inst_restores cfg); assumption).
    + exact (Forall_inv_tail Hwraps).
    + discriminate.
    + apply (frames_ok_grows cfg g); [destruct (cfg_inst_restores cfg); repeat split; auto | exact (proj2 (proj2 Hframes))].
  - (* EImportBegin *)
    destruct (c_kind c) eqn:K; [|discriminate]. destruct (c_args c); [|discriminate].
    destruct (c_spec c); [discriminate|]. destruct (mem m (g_seen g)); [discriminate|].
    injection Hs as <-. cbn [s_g s_stack].
    destruct I as [Hwraps Hmarks Hroot Hbottom Hfinal Hseen Hfaulty Hframes]. constructor; try assumption.
    + constructor; [|assumption]. intros _. exists (c_wraps c). split; [reflexivity|]. right. exact (wraps_ok_mem0 c HA K).
    + discriminate.
    + right. exact Hseen.
    + intros x Hx. apply justified_push. exact (Hfaulty x Hx).
    + split; [intros Kn; discriminate Kn | split; [constructor|]]. apply (frames_ok_grows cfg g); [repeat split; auto | exact Hframes].
  - (* EFinish *)
    destruct (c_kind c) eqn:K; [|discriminate]. destruct (c_args c); [|discriminate].
    destruct (c_spec c); [discriminate|]. destruct (c_silent c); [|discriminate].
    injection Hs as <-. cbn [s_g s_stack].
    destruct I as [Hwraps Hmarks Hroot Hbottom Hfinal Hseen Hfaulty Hframes]. constructor; cbn [g_errored g_scanerr g_faulty g_seen g_rootscan]; try assumption.
    + exact (Forall_inv_tail Hwraps).
    + simpl in Hbottom. destruct rest; [exact I | exact Hbottom].
    + intros ->. destruct Hbottom as [_ M0]. rewrite M0. apply upd_same.
    + intros x Hx. destruct (Nat.eq_dec x (c_mod c)) as [-> | NE].
      * rewrite upd_same in Hx. apply orb_true_iff in Hx. destruct Hx as [Hx | Hx]; [left; exact Hx|].
        apply andb_true_iff in Hx. right; left. exact (proj2 Hx).
      * rewrite upd_other in Hx by exact NE.
        apply (justified_pop cfg g c); [intros _; auto | rewrite K; discriminate | exact (Hfaulty x Hx)].
    + apply (frames_ok_grows cfg g); [repeat split; auto | exact (proj2 (proj2 Hframes))].
Qed.

Lemma complete_inv : forall cfg tr s, complete cfg tr s -> Inv cfg (s_g s) [].
Proof.
  intros cfg tr s [H E]. rewrite <- E.
  refine (run_preserves cfg (fun s => Inv cfg (s_g s) (s_stack s)) (fun _ => true) _ tr init s (inv_init cfg) _ H).
  - intros s0 ev s1 I _. apply step_inv. exact I.
  - clear. induction tr; auto.
Qed.

Lemma any_faulty_true : forall s, any_faulty s = true <-> exists m, In m (g_seen (s_g s)) /\ g_faulty (s_g s) m = true.
Proof. intros s. unfold any_faulty. apply existsb_exists. Qed.

(* For every configuration: a module is flagged only if an error-level diagnostic reached the user, unless
   the flag is one that a discarded instantiation left behind (which needs code that does not restore it) *)
Theorem faulty_imp_delivered_cfg : forall cfg tr s,
  complete cfg tr s -> cfg_inst_restores cfg = true \/ no_stale_flag s -> any_faulty s = true -> delivered_error s = true.
Proof.
  intros cfg tr s C NS AF. pose proof (complete_inv cfg tr s C) as I.
  apply any_faulty_true in AF. destruct AF as [m [_ Fm]].
  destruct (inv_faulty_justified _ _ _ I m Fm) as [H | [H | [[] | H]]].
  - exact (inv_marks_delivered _ _ _ I m (or_introl H)).
  - exact (inv_marks_delivered _ _ _ I m (or_intror H)).
  - destruct NS as [R | NS]; [rewrite R in H; inversion H|].
    destruct (cfg_inst_restores cfg); [inversion H|]. unfold no_stale_flag in NS. congruence.
Qed.

(* ... and every error-level diagnostic marks the root, unless it came from the root's own scanner and the
   code does not count scanner errors *)
Theorem delivered_imp_root_faulty_cfg : forall cfg tr s,
  complete cfg tr s -> cfg_scan_counts cfg = true \/ no_root_scanner_error s -> delivered_error s = true -> root_faulty s = true.
Proof.
  intros cfg tr s C NR DE. pose proof (complete_inv cfg tr s C) as I.
  unfold root_faulty. rewrite (inv_root_final _ _ _ I eq_refl).
  destruct (inv_delivered_root _ _ _ I DE) as [H | [H1 H2]]; [rewrite H; reflexivity|].
  destruct NR as [Sc | NR]; [rewrite Sc, H2; apply orb_true_r|].
  unfold no_root_scanner_error in NR. congruence.
Qed.

Lemma root_faulty_imp_any : forall cfg tr s, complete cfg tr s -> root_faulty s = true -> any_faulty s = true.
Proof.
  intros cfg tr s C RF. apply any_faulty_true. exists 0. split; [|exact RF]. exact (inv_root_seen _ _ _ (complete_inv cfg tr s C)).
Qed.

Theorem faulty_iff_delivered_cfg : forall cfg tr s,
  complete cfg tr s -> cfg_inst_restores cfg = true \/ no_stale_flag s ->
  cfg_scan_counts cfg = true \/ no_root_scanner_error s ->
  (any_faulty s = true <-> delivered_error s = true) /\ (root_faulty s = true <-> delivered_error s = true).
Proof.
  intros cfg tr s C NS NR.
  pose proof (faulty_imp_delivered_cfg cfg tr s C NS) as H1.
  pose proof (delivered_imp_root_faulty_cfg cfg tr s C NR) as H2.
  pose proof (root_faulty_imp_any cfg tr s C) as H3. tauto.
Qed.

Lemma root_faulty_iff_delivered_partial : forall tr s,
  complete pinned tr s -> no_stale_flag s -> no_root_scanner_error s ->
  (root_faulty s = true <-> delivered_error s = true).
Proof. intros tr s C NS NR. exact (proj2 (faulty_iff_delivered_cfg pinned tr s C (or_intror NS) (or_intror NR))). Qed.

(* any_faulty is "the root or some imported module" *)
Lemma any_faulty_split : forall s,
  any_faulty s = true <->
  (In 0 (g_seen (s_g s)) /\ root_faulty s = true) \/
  (exists m, m <> 0 /\ In m (g_seen (s_g s)) /\ g_faulty (s_g s) m = true).
Proof.
  intros s. rewrite any_faulty_true. split.
  - intros [m [Hin Hf]]. destruct (Nat.eq_dec m 0) as [E | NE].
    + subst. left. split; assumption.
    + right. exists m. repeat split; assumption.
  - intros [[Hin Hf] | [m [_ [Hin Hf]]]]; [exists 0 | exists m]; split; assumption.
Qed.

Definition observe (cfg : config) (tr : list event) : option (bool * bool * bool * bool * bool) :=
  match run cfg init tr with
  | Some s => Some (match s_stack s with [] => true | _ => false end, any_faulty s, root_faulty s, delivered_error s,
                    g_stale (s_g s) || g_rootscan (s_g s))
  | None => None
  end.

Lemma observe_complete : forall cfg tr b1 b2 b3 b4,
  observe cfg tr = Some (true, b1, b2, b3, b4) ->
  exists s, complete cfg tr s /\ any_faulty s = b1 /\ root_faulty s = b2 /\ delivered_error s = b3 /\
            g_stale (s_g s) || g_rootscan (s_g s) = b4.
Proof.
  intros cfg tr b1 b2 b3 b4 H. unfold observe in H. destruct (run cfg init tr) as [s|] eqn:E; [|discriminate H].
  exists s. injection H as H1 <- <- <- <-. repeat split; try reflexivity.
  - exact E.
  - destruct (s_stack s); [reflexivity | discriminate H1].
Qed.

(* flag without diagnostic: the discarded instantiation of an imported generic *)
Lemma faulty_iff_delivered_refuted : exists tr s,
  complete pinned tr s /\ any_faulty s = true /\ root_faulty s = false /\ delivered_error s = false.
Proof.
  exists trace_discarded_instantiation.
  assert (H : observe pinned trace_discarded_instantiation = Some (true, true, false, false, true)) by (vm_compute; reflexivity).
  apply observe_complete in H. destruct H as [s [C [A [R [D _]]]]]. exists s. auto.
Qed.

(* diagnostic without flag: an error of the root's scanner *)
Lemma delivered_imp_faulty_refuted : exists tr s,
  complete pinned tr s /\ delivered_error s = true /\ any_faulty s = false.
Proof.
  exists trace_root_scanner_error.
  assert (H : observe pinned trace_root_scanner_error = Some (true, false, false, true, true)) by (vm_compute; reflexivity).
  apply observe_complete in H. destruct H as [s [C [A [R [D _]]]]]. exists s. auto.
Qed.

(* compiler.Compile refuses to generate code *)
Definition refused (cfg : config) (link_modules : bool) (s : state) : bool :=
  (link_modules && any_faulty s) || (cfg_nolink_checks cfg && root_faulty s).

Lemma compile_refused : forall cfg lm cg s,
  compile cfg lm cg s = if refused cfg lm s then Refused else if cg then Object else CodegenFailed.
Proof. reflexivity. Qed.

Lemma exit_status_compile : forall cfg lm cg s,
  exit_status (compile cfg lm cg s) <> 0 <-> refused cfg lm s = true \/ cg = false.
Proof. intros cfg lm cg s. rewrite compile_refused. destruct (refused cfg lm s), cg; simpl; intuition congruence. Qed.

Lemma artifact_compile : forall cfg lm cg s, artifact (compile cfg lm cg s) = negb (refused cfg lm s) && cg.
Proof. intros cfg lm cg s. rewrite compile_refused. destruct (refused cfg lm s), cg; reflexivity. Qed.

Lemma refused_pinned : forall s, refused pinned true s = any_faulty s.
Proof. intros s. unfold refused. simpl. apply orb_false_r. Qed.

(* a delivered error, and yet exit status 0 and an object file *)
Lemma delivered_yet_compiled : exists tr s,
  complete pinned tr s /\ delivered_error s = true /\ compile pinned true true s = Object.
Proof.
  destruct delivered_imp_faulty_refuted as [tr [s [C [D A]]]]. exists tr, s. split; [exact C|]. split; [exact D|].
  unfold compile. rewrite A. reflexivity.
Qed.

(* non-vacuity of the partial theorems: a type error inside an imported module *)
Definition trace_import_type_error : list event :=
  [ EImportBegin 1; EErr OChecker LError 3001%N; ESync; EFinish; EFinish ].

Example partial_nonvacuous : exists s,
  complete pinned trace_import_type_error s /\ no_stale_flag s /\ no_root_scanner_error s /\
  any_faulty s = true /\ root_faulty s = true /\ delivered_error s = true /\
  exit_status (compile pinned true true s) = 1 /\ artifact (compile pinned true true s) = false.
Proof.
  assert (H : observe pinned trace_import_type_error = Some (true, true, true, true, false)) by (vm_compute; reflexivity).
  apply observe_complete in H. destruct H as [s [C [A [R [D G]]]]]. exists s.
  apply orb_false_iff in G. destruct G as [G1 G2].
  split; [exact C|]. split; [exact G1|]. split; [exact G2|]. split; [exact A|]. split; [exact R|]. split; [exact D|].
  unfold compile; rewrite A; split; reflexivity.
Qed.

(* a clean run: nothing delivered, nothing flagged, object produced *)
Example clean_run : exists s, complete pinned [EImportBegin 1; EFinish; EFinish] s /\
  any_faulty s = false /\ delivered_error s = false /\ exit_status (compile pinned true true s) = 0.
Proof.
  assert (H : observe pinned [EImportBegin 1; EFinish; EFinish] = Some (true, false, false, false, false)) by (vm_compute; reflexivity).
  apply observe_complete in H. destruct H as [s [C [A [R [D G]]]]]. exists s.
  split; [exact C|]. split; [exact A|]. split; [exact D|]. unfold compile; rewrite A; reflexivity.
Qed.
