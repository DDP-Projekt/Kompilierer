(* Rt/StrOps.v — every text operation of the runtime, run on representations of
   texts, computes the corresponding operation on code-point lists and returns a representation:
   the representation invariant, the byte-level operations, indexing and replacement. *)
From Coq Require Import List ZArith Bool Lia ZifyBool.
Import ListNotations.
From DDP Require Import Rt.Str Rt.StrSpec Rt.StrBase Rt.StrUtf8.
Open Scope Z_scope.

Definition rres (r : res ddpstring) (e : res (list Z)) : Prop :=
  match r, e with
  | Ok s, Ok cs => repr s cs
  | Err, Err => True
  | _, _ => False
  end.

Lemma rres_eq r r' e : r = r' -> rres r' e -> rres r e.
Proof. intros ->. trivial. Qed.

(* the block of the C string l: the bytes, one terminator, capacity = length + 1 *)
Definition cstr (l : list Z) : ddpstring := mkstr (l ++ [0]) (len l + 1).

Lemma repr_tchars s cs : repr s cs -> tchars cs.
Proof. intros [H _]. exact H. Qed.
Lemma repr_nil s : repr s [] -> s = empty_string \/ s = owned_empty.
Proof. intros [_ [[_ H]|[[_ H]|[H _]]]]; [left; exact H|right; exact H|congruence]. Qed.
Lemma repr_empty : repr empty_string [].
Proof. split; [reflexivity|left; split; reflexivity]. Qed.
Lemma repr_owned_empty : repr owned_empty [].
Proof. split; [reflexivity|right; left; split; reflexivity]. Qed.
Lemma repr_cstr cs : tchars cs -> cs <> [] -> repr (cstr (E cs)) cs.
Proof. intros T N. split; [exact T|right; right; repeat split; auto]. cbn [cstr bytes cap]. lens. reflexivity. Qed.
Lemma repr_nonempty s cs : repr s cs -> cs <> [] -> s = cstr (E cs).
Proof.
  intros [_ [[H _]|[[H _]|(_ & Hb & Hc)]]] N; try contradiction.
  destruct s as [b cp]. cbn [bytes cap] in *. subst. unfold cstr. lens. reflexivity.
Qed.

(* a represented text is the NULL text, the allocated empty text, or the block of a non-empty encoding *)
Lemma repr_case (P : ddpstring -> list Z -> Prop) :
  P empty_string [] -> P owned_empty [] ->
  (forall c cs, tchar c = true -> tchars cs -> P (cstr (E (c :: cs))) (c :: cs)) ->
  forall s cs, repr s cs -> P s cs.
Proof.
  intros P0 P1 PS s [|c cs] H.
  - destruct (repr_nil _ H) as [-> | ->]; assumption.
  - rewrite (repr_nonempty _ _ H) by discriminate. apply repr_tchars, tchars_cons in H. apply PS; apply H.
Qed.

Lemma clen_le_len_E cs : clen cs <= len (E cs).
Proof.
  induction cs as [|c cs IH]; [cbn; lia|]. rewrite E_cons, len_app, enc_len. pose proof (cp_len_pos c).
  unfold clen in *. cbn [length]. lia.
Qed.

(* ---- operations that only see a C string ------------------------------------------------------------ *)
Lemma is_null_cstr l : is_null (cstr l) = false.
Proof. unfold is_null. cbn [cstr bytes]. destruct l; reflexivity. Qed.

Lemma deep_copy_cstr l : deep_copy_string (cstr l) = Ok (cstr l).
Proof.
  unfold deep_copy_string. rewrite is_null_cstr. cbn [cstr bytes cap].
  rewrite sub_all by (lens; reflexivity). cbn [bind]. rewrite blit_alloc_all by (lens; reflexivity). reflexivity.
Qed.

Lemma from_constant_cstr l : Forall nz l -> l <> [] -> string_from_constant (l ++ [0]) = Ok (cstr l).
Proof.
  intros Hl N. unfold string_from_constant. rewrite c_strlen_nz by exact Hl. cbn [bind].
  assert (1 <= len l) by (destruct l; [contradiction|rewrite len_cons; pose proof (len_nonneg l); lia]). if_lia.
  rewrite sub_all by (lens; reflexivity). cbn [bind]. rewrite blit_alloc_all by (lens; reflexivity). reflexivity.
Qed.

Lemma string_empty_cstr a t : nz a -> string_empty (cstr (a :: t)) = Ok false.
Proof.
  unfold nz. intros Ha. unfold string_empty. rewrite is_null_cstr. cbn [cstr bytes cap app].
  pose proof (len_nonneg (a :: t)). if_lia. change (rd (a :: t ++ [0]) 0) with (Ok a). cbn [bind]. f_equal. lia.
Qed.

Lemma utf8_strlen_cstr cs : tchars cs -> utf8_strlen (E cs ++ [0]) = Ok (clen cs).
Proof.
  intros T. rewrite <- (utf8_strlen_E cs [] T). destruct (E cs ++ [0]) eqn:Q; [|reflexivity].
  destruct (E cs); discriminate Q.
Qed.

Lemma from_constant_repr cs : tchars cs -> rres (string_from_constant (E cs ++ [0])) (Ok cs).
Proof.
  intros T. destruct cs as [|c cs]; [apply repr_empty|].
  pose proof (proj1 (proj1 (tchars_cons _ _) T)) as Hc.
  rewrite from_constant_cstr; [apply repr_cstr; [exact T|discriminate]|apply E_bytes, T|].
  destruct (E_nonempty c cs Hc) as (a & t & -> & _). discriminate.
Qed.

Lemma deep_copy_repr s cs : repr s cs -> deep_copy_string s = Ok s.
Proof. revert s cs. apply repr_case; [reflexivity|reflexivity|intros; apply deep_copy_cstr]. Qed.

Lemma string_empty_repr s cs : repr s cs -> string_empty s = Ok (match cs with [] => true | _ => false end).
Proof.
  revert s cs. apply repr_case; [reflexivity|reflexivity|]. intros c cs Hc _.
  destruct (E_nonempty c cs Hc) as (a & t & -> & Ha). apply string_empty_cstr, Ha.
Qed.

Lemma utf8_strlen_repr s cs : repr s cs -> utf8_strlen (bytes s) = Ok (clen cs).
Proof.
  revert s cs. apply repr_case; [reflexivity|reflexivity|]. intros c cs Hc T.
  apply utf8_strlen_cstr, tchars_cons. split; assumption.
Qed.

Lemma string_length_repr s cs : repr s cs -> string_length s = Ok (clen cs).
Proof.
  intros H. unfold string_length. rewrite (string_empty_repr _ _ H). cbn [bind].
  destruct cs; [reflexivity|]. apply utf8_strlen_repr, H.
Qed.

Lemma index_error_repr s cs A : repr s cs -> @index_error s A = Err.
Proof. intros H. unfold index_error. rewrite (utf8_strlen_repr _ _ H). reflexivity. Qed.

Lemma ddp_strlen_repr s cs : repr s cs -> ddp_strlen s = Ok (len (E cs)).
Proof.
  revert s cs. apply repr_case; [reflexivity|reflexivity|]. intros c cs Hc T.
  unfold ddp_strlen. rewrite is_null_cstr. apply c_strlen_nz, E_bytes, tchars_cons. split; assumption.
Qed.

Lemma print_text_repr s cs : repr s cs -> print_text s = Ok (E cs).
Proof.
  revert s cs. apply repr_case; [reflexivity|reflexivity|]. intros c cs Hc T.
  unfold print_text. rewrite is_null_cstr. apply c_string_nz, E_bytes, tchars_cons. split; assumption.
Qed.

(* ---- the index loop ------------------------------------------------------------------------------------
   ddp_string_index and ddp_replace_char_in_string begin with the same text: the two range tests, the walk
   to the index-th character and the test for the terminator.  [located s index k] is that text with the
   rest as a continuation of the byte offset and the pointer found (string_index_located, replace_located). *)
Definition located {A} (s : ddpstring) (index : Z) (k : Z -> list Z -> res A) : res A :=
  if index <? 1 then Err
  else if (cap s <? index) || (cap s <=? 1) then index_error s
  else i <- index_walk (bytes s) 0 (Z.to_nat (index - 1)) ;;
       b <- rd (bytes s) i ;;
       if b =? 0 then index_error s else p <- ptr (bytes s) i ;; k i p.

Lemma string_index_located dec s i :
  string_index dec s i =
  located s i (fun _ p => '(n, out) <- utf8_string_to_char dec p ;; match out with Some c => Ok c | None => Undef end).
Proof. reflexivity. Qed.

(* what ddp_replace_char_in_string does at the offset i / pointer p of the character found *)
Definition replace_at (enc : Z -> option (list Z)) (s : ddpstring) (ch i : Z) (p : list Z) : res ddpstring :=
  let blk := bytes s in
  oldLen <- utf8_num_bytes p ;;
  '(newLen, newChar) <- text_char_to_bytes enc ch ;;
  if newLen =? 0 then Err
  else if oldLen =? newLen then
    b1 <- blit blk i newChar ;; Ok (mkstr b1 (cap s))
  else if newLen <? oldLen then
    b1 <- blit blk i newChar ;;
    tl <- sub b1 (i + oldLen) (cap s - i - oldLen) ;;
    b2 <- blit b1 (i + newLen) tl ;;
    let newCap := cap s - oldLen + newLen in
    Ok (mkstr (realloc b2 newCap) newCap)
  else
    let newCap := cap s - oldLen + newLen in
    pre <- sub blk 0 i ;;
    n1 <- blit (alloc newCap) 0 pre ;;
    n2 <- blit n1 i newChar ;;
    tl <- sub blk (i + oldLen) (cap s - i - oldLen) ;;
    n3 <- blit n2 (i + newLen) tl ;;
    Ok (mkstr n3 newCap).
Lemma replace_located enc s ch i : replace_char_in_string enc s ch i = located s i (replace_at enc s ch).
Proof. reflexivity. Qed.

Lemma located_repr {A} s cs i (k : Z -> list Z -> res A) : repr s cs ->
  located s i k =
  if (1 <=? i) && (i <=? clen cs)
  then k (len (E (firstn (Z.to_nat (i - 1)) cs))) (E (skipn (Z.to_nat (i - 1)) cs) ++ [0])
  else Err.
Proof.
  intros H. unfold located. destruct (i <? 1) eqn:I1; [if_lia; reflexivity|].
  revert s cs H. apply repr_case.
  - cbn [empty_string cap]. unfold clen. cbn [length]. repeat if_lia. reflexivity.
  - cbn [owned_empty cap]. unfold clen. cbn [length]. repeat if_lia. reflexivity.
  - intros c cs Hc Tcs. assert (T : tchars (c :: cs)) by (apply tchars_cons; split; assumption).
    pose proof (len_E_pos c cs Hc) as Hpos. pose proof (len_nonneg (E cs)). pose proof (clen_le_len_E (c :: cs)) as Hle.
    remember (c :: cs) as L eqn:EL. assert (NL : L <> []) by (subst L; discriminate). clear EL Hc Tcs.
    remember (Z.to_nat (i - 1)) as n eqn:En. cbn [cstr cap bytes].
    destruct ((len (E L) + 1 <? i) || (len (E L) + 1 <=? 1)) eqn:G.
    { rewrite (index_error_repr _ L) by (apply repr_cstr; assumption). if_lia. reflexivity. }
    rewrite (index_walk_E [] n [] L T : index_walk (E L ++ [0]) 0 n = Ok (len (E (firstn n L)))). cbn [bind].
    (* L = pre ++ post at position n *)
    pose proof (firstn_length n L) as Hpre. pose proof (firstn_skipn n L) as HL.
    set (pre := firstn n L) in *. set (post := skipn n L) in *. clearbody pre post. subst L.
    rewrite app_length in Hpre. rewrite E_app, <- app_assoc. destruct post as [|x rest].
    + cbn [E flat_map app length] in *. rewrite rd_at by reflexivity. cbn [bind Z.eqb].
      rewrite (index_error_repr _ pre) by (rewrite app_nil_r in *; apply repr_cstr; assumption).
      unfold clen in *. rewrite app_length in *. cbn [length] in *. if_lia. reflexivity.
    + apply tchars_app, proj2, tchars_cons, proj1 in T.
      destruct (at_char pre x rest [0] _ T eq_refl) as (a & -> & Ha & _). cbn [bind]. unfold nz in Ha. if_lia.
      rewrite ptr_at by reflexivity. cbn [bind length] in *. unfold clen in *. rewrite app_length in *. cbn [length] in *.
      if_lia. reflexivity.
Qed.

Lemma num_bytes_char_len c : tchar c = true -> utf8_num_bytes_char c = cp_len c.
Proof.
  intros H. apply tchar_range in H. unfold utf8_num_bytes_char, cp_len.
  destruct (c <? 0x80) eqn:E1; [repeat if_lia; reflexivity|].
  destruct (c <? 0x800) eqn:E2; [repeat if_lia; reflexivity|].
  destruct (c <? 0x10000) eqn:E3; repeat if_lia; reflexivity.
Qed.

Lemma split_at (l : list Z) n : (n < length l)%nat -> exists pre x rest, l = pre ++ x :: rest /\ length pre = n.
Proof. intros H. destruct (nth_split l 0 H) as (pre & rest & Hl & Hp). exists pre, (nth n l 0), rest. auto. Qed.

Lemma s_replace_at pre x rest c : s_replace (pre ++ x :: rest) c (clen pre + 1) = Ok (pre ++ c :: rest).
Proof.
  unfold s_replace, clen. rewrite app_length. cbn [length]. if_lia.
  replace (Z.to_nat (Z.of_nat (length pre) + 1 - 1)) with (length pre) by lia.
  replace (Z.to_nat (Z.of_nat (length pre) + 1)) with (length (pre ++ [x])) by (rewrite app_length; cbn [length]; lia).
  rewrite firstn_app_l. change (x :: rest) with ([x] ++ rest). rewrite app_assoc, skipn_app_l. reflexivity.
Qed.

Section WithCodec.
  Variable enc : Z -> option (list Z).
  Variable dec : list Z -> option Z.
  Hypothesis enc_ok : forall c, scalarb c = true -> enc c = Some (utf8_enc c).
  Hypothesis dec_ok : forall c, tchar c = true -> dec (utf8_enc c) = Some c.

  (* text_char_to_bytes: the encoding of a text character, 0 bytes for every other ddpchar *)
  Lemma text_char_tchar c : tchar c = true -> text_char_to_bytes enc c = Ok (cp_len c, utf8_enc c).
  Proof.
    intros H. unfold text_char_to_bytes, utf8_char_to_string. rewrite (num_bytes_char_len c H).
    pose proof (cp_len_pos c). if_lia. rewrite enc_ok, enc_len by (apply tchar_scalar, H). if_lia. cbn [bind].
    apply tchar_range in H. if_lia. reflexivity.
  Qed.
  Lemma text_char_other c : tchar c = false -> exists t, text_char_to_bytes enc c = Ok (0, t).
  Proof.
    intros H. unfold text_char_to_bytes, utf8_char_to_string.
    destruct (scalarb c) eqn:S.
    - assert (c = 0) by (unfold tchar in H; lia). subst c. cbn [utf8_num_bytes_char]. cbn.
      rewrite (enc_ok 0 eq_refl). cbn. eexists. reflexivity.
    - assert (N : utf8_num_bytes_char c = -1).
      { unfold scalarb in S. unfold utf8_num_bytes_char. destruct (c <? 0) eqn:C0; [reflexivity|].
        destruct ((0xD800 <=? c) && (c <=? 0xDFFF)) eqn:Sg; repeat if_lia; reflexivity. }
      rewrite N. cbn. eexists. reflexivity.
  Qed.

  Lemma string_index_repr s cs i : repr s cs -> string_index dec s i = s_index cs i.
  Proof.
    intros H. rewrite string_index_located, (located_repr s cs) by exact H. unfold s_index.
    destruct ((1 <=? i) && (i <=? clen cs)) eqn:G; [|reflexivity].
    assert (Hn : (Z.to_nat (i - 1) < length cs)%nat) by (unfold clen in G; lia).
    rewrite skipn_nth by exact Hn. rewrite (string_to_char_E dec dec_ok) by (apply tchars_nth; [apply (repr_tchars _ _ H)|exact Hn]).
    reflexivity.
  Qed.

  (* ---- ddp_replace_char_in_string -------------------------------------------------------------- *)
  (* At the character found the block is A ++ o ++ T (what is before, the old character, the rest with the
     terminator) and becomes A ++ nw ++ T: overwritten in place for equal widths; for a narrower character
     written in place, the rest moved down and the surplus given back; for a wider one copied into a new
     block.  Storing a ddpchar that is not a text character is a Laufzeitfehler (after the index checks). *)
  Lemma replace_char_all s cs ch i :
    repr s cs -> rres (replace_char_in_string enc s ch i) (if tchar ch then s_replace cs ch i else Err).
  Proof.
    intros H. rewrite replace_located, (located_repr s cs) by exact H. unfold replace_at. cbv zeta.
    destruct ((1 <=? i) && (i <=? clen cs)) eqn:G; [|unfold s_replace; rewrite G; destruct (tchar ch); exact I].
    destruct (split_at cs (Z.to_nat (i - 1))) as (pre & x & rest & -> & Hpre); [unfold clen in G; lia|].
    rewrite <- Hpre, firstn_app_l, skipn_app_l.
    pose proof (repr_tchars _ _ H) as T. apply tchars_app in T. destruct T as [Tpre T].
    apply tchars_cons in T. destruct T as [Hx Trest].
    rewrite num_bytes_E by exact Hx. cbn [bind].
    destruct (tchar ch) eqn:Hch; [|destruct (text_char_other ch Hch) as (tmp & ->); exact I].
    rewrite text_char_tchar by exact Hch. cbn [bind].
    replace i with (clen pre + 1) by (unfold clen; lia). rewrite s_replace_at.
    rewrite (repr_nonempty _ _ H) by (destruct pre; discriminate). cbn [cstr bytes cap].
    pose proof (cp_len_pos x) as Ho. pose proof (cp_len_pos ch) as Hn. rewrite <- enc_len in Ho, Hn.
    rewrite E_app, E_cons, <- !app_assoc, <- (enc_len x), <- (enc_len ch).
    replace (len (E pre ++ utf8_enc x ++ E rest) + 1) with (len (E pre) + len (utf8_enc x) + len (E rest ++ [0]))
      by (rewrite !len_app, len_one; lia).
    set (A := E pre). set (o := utf8_enc x) in *. set (nw := utf8_enc ch) in *. set (T := E rest ++ [0]).
    apply rres_eq with (r' := Ok (mkstr (A ++ nw ++ T) (len A + len nw + len T))).
    2:{ replace (mkstr (A ++ nw ++ T) (len A + len nw + len T)) with (cstr (E (pre ++ ch :: rest))).
        - apply repr_cstr; [|destruct pre; discriminate].
          apply tchars_app. split; [exact Tpre|]. apply tchars_cons. split; assumption.
        - unfold cstr, A, nw, T. rewrite E_app, E_cons, <- !app_assoc. f_equal. rewrite !len_app, len_one. lia. }
    assert (HT : 1 <= len T) by (unfold T; rewrite len_app, len_one; pose proof (len_nonneg (E rest)); lia).
    pose proof (len_nonneg A) as HA. clearbody A o nw T. clear - Ho Hn HT HA.
    if_lia. destruct (len o =? len nw) eqn:EQ.
    { rewrite blit_at by lia. cbn [bind]. do 2 f_equal. lia. }
    destruct (len nw <? len o) eqn:LT.
    - assert (exists o1 o2, o = o1 ++ o2 /\ len o1 = len nw) as (o1 & o2 & -> & Ho1).
      { exists (firstn (Z.to_nat (len nw)) o), (skipn (Z.to_nat (len nw)) o). split; [symmetry; apply firstn_skipn|].
        unfold len in *. rewrite firstn_length_le; lia. }
      rewrite len_app in *. pose proof (len_nonneg o2).
      rewrite <- app_assoc, blit_at by lia. cbn [bind].
      rewrite !app_assoc, sub_tail by (rewrite ?len_app; lia). cbn [bind].
      rewrite blit_gen by (rewrite ?len_app; lia). cbn [bind].
      rewrite <- len_app, to_nat_len, <- (app_assoc (A ++ nw)), firstn_app_l, (app_assoc (A ++ nw) T).
      rewrite realloc_shrink by (rewrite ?len_app; lia). do 2 f_equal. rewrite len_app. lia.
    - rewrite sub_prefix by reflexivity. cbn [bind].
      rewrite blit_fresh0 by lia. cbn [bind]. rewrite blit_fresh by lia. cbn [bind].
      rewrite (app_assoc A o), sub_tail by (rewrite ?len_app; lia). cbn [bind].
      rewrite (app_assoc A nw), blit_fresh by (rewrite ?len_app; lia). cbn [bind].
      replace (len A + len o + len T - len o + len nw - len A - len nw - len T) with 0 by lia.
      change (alloc 0) with (@nil Z). rewrite app_nil_r, <- app_assoc. do 2 f_equal. lia.
  Qed.

  Lemma replace_char_repr s cs ch i :
    repr s cs -> tchar ch = true -> rres (replace_char_in_string enc s ch i) (s_replace cs ch i).
  Proof. intros H Hch. pose proof (replace_char_all s cs ch i H) as R. rewrite Hch in R. exact R. Qed.
End WithCodec.
