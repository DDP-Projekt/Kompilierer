(* Rt/StrBase.v — byte classification, the checked memory primitives, the UTF-8
   encoding and the concrete codec (round trip for every scalar value by range lemmas), texts and
   their encoding [E], completeness and soundness of [decode]. *)
From Coq Require Import List ZArith Bool Lia ZifyBool.
Import ListNotations.
From DDP Require Import Rt.Str Rt.StrSpec.
Open Scope Z_scope.

(* replaces one [if] whose condition lia decides by the branch taken *)
Ltac if_lia :=
  match goal with
  | |- context [if ?c then ?x else ?y] =>
    first [ replace (if c then x else y) with x by (replace c with true by lia; reflexivity)
          | replace (if c then x else y) with y by (replace c with false by lia; reflexivity) ]
  end.

(* ---- a property of all 256 bytes, checked by counting through them ------------------------------ *)
Fixpoint all_from (P : Z -> bool) (n : nat) (b : Z) : bool :=
  match n with O => true | S n' => P b && all_from P n' (b + 1) end.
Lemma all_from_spec P n : forall b0, all_from P n b0 = true -> forall b, b0 <= b < b0 + Z.of_nat n -> P b = true.
Proof.
  induction n as [|n IH]; intros b0 H b Hb; [lia|]. cbn [all_from] in H. apply andb_true_iff in H.
  destruct (Z.eq_dec b b0) as [->|]; [apply H|]. apply (IH (b0 + 1)); [apply H|lia].
Qed.
Lemma byte_cases (P : Z -> bool) : all_from P 256 0 = true -> forall b, 0 <= b < 256 -> P b = true.
Proof. intros H b Hb. apply (all_from_spec P 256 0 H). lia. Qed.

Lemma byte_class b : 0 <= b < 256 ->
  (Z.land b 0x80 =? 0) = (b <? 0x80) /\
  (Z.land b 0xe0 =? 0xc0) = ((0xC0 <=? b) && (b <? 0xE0)) /\
  (Z.land b 0xf0 =? 0xe0) = ((0xE0 <=? b) && (b <? 0xF0)) /\
  (Z.land b 0xf8 =? 0xf0) = ((0xF0 <=? b) && (b <? 0xF8)) /\
  utf8_is_continuation b = contb b /\
  (b < 0xF8 -> utf8_indicated_num_bytes b = Z.of_nat (lead_len b)).
Proof.
  intros H.
  assert (Q : eqb (Z.land b 0x80 =? 0) (b <? 0x80) &&
              (eqb (Z.land b 0xe0 =? 0xc0) ((0xC0 <=? b) && (b <? 0xE0)) &&
              (eqb (Z.land b 0xf0 =? 0xe0) ((0xE0 <=? b) && (b <? 0xF0)) &&
              (eqb (Z.land b 0xf8 =? 0xf0) ((0xF0 <=? b) && (b <? 0xF8)) &&
              (eqb (utf8_is_continuation b) (contb b) &&
              ((0xF8 <=? b) || (utf8_indicated_num_bytes b =? Z.of_nat (lead_len b))))))) = true).
  { revert b H. apply byte_cases. vm_compute. reflexivity. }
  repeat (apply andb_true_iff in Q; destruct Q as [?%eqb_prop Q]).
  repeat split; try assumption.
  intros Hb. apply orb_true_iff in Q. destruct Q as [Q|Q]; [clear -Q Hb; lia|apply Z.eqb_eq, Q].
Qed.

(* ---- lists and the checked memory primitives ------------------------------------------------------
   Offsets are hypotheses [off = len a], so that a call site need not bring them into that shape. *)
Lemma len_app a b : len (a ++ b) = len a + len b.
Proof. unfold len. rewrite app_length. lia. Qed.
Lemma len_cons x l : len (x :: l) = 1 + len l.
Proof. unfold len. cbn [length]. lia. Qed.
Lemma len_nil : len [] = 0.
Proof. reflexivity. Qed.
Lemma len_one x : len [x] = 1.
Proof. reflexivity. Qed.
Lemma len_nonneg l : 0 <= len l.
Proof. unfold len. lia. Qed.
Lemma to_nat_len l : Z.to_nat (len l) = length l.
Proof. unfold len. lia. Qed.

Lemma skipn_nth (l : list Z) n : (n < length l)%nat -> skipn n l = nth n l 0 :: skipn (S n) l.
Proof. revert n. induction l as [|x l IH]; intros [|n] H; cbn [length] in H; try lia; [reflexivity|]. apply IH. lia. Qed.
Lemma firstn_app_l (a b : list Z) : firstn (length a) (a ++ b) = a.
Proof. rewrite firstn_app, Nat.sub_diag, firstn_all. apply app_nil_r. Qed.
Lemma skipn_app_l (a b : list Z) : skipn (length a) (a ++ b) = b.
Proof. rewrite skipn_app, Nat.sub_diag, skipn_all. reflexivity. Qed.

Lemma rd_at a x b off : off = len a -> rd (a ++ x :: b) off = Ok x.
Proof.
  intros ->. unfold rd. pose proof (len_nonneg a). if_lia.
  rewrite to_nat_len, nth_error_app2, Nat.sub_diag by lia. reflexivity.
Qed.

Lemma ptr_at a b off : off = len a -> ptr (a ++ b) off = Ok b.
Proof.
  intros ->. unfold ptr. pose proof (len_nonneg a). pose proof (len_nonneg b). rewrite len_app. if_lia.
  rewrite to_nat_len, skipn_app_l. reflexivity.
Qed.

Lemma sub_at a b c off n : off = len a -> n = len b -> sub (a ++ b ++ c) off n = Ok b.
Proof.
  intros -> ->. unfold sub. pose proof (len_nonneg a). pose proof (len_nonneg b). pose proof (len_nonneg c).
  rewrite !len_app. if_lia. rewrite !to_nat_len, skipn_app_l, firstn_app_l. reflexivity.
Qed.
Lemma sub_prefix b c n : n = len b -> sub (b ++ c) 0 n = Ok b.
Proof. exact (sub_at [] b c 0 n eq_refl). Qed.
Lemma sub_tail a b off n : off = len a -> n = len b -> sub (a ++ b) off n = Ok b.
Proof. intros Ho Hn. rewrite <- (app_nil_r b) at 1. exact (sub_at a b [] off n Ho Hn). Qed.
Lemma sub_all b n : n = len b -> sub b 0 n = Ok b.
Proof. exact (sub_tail [] b 0 n eq_refl). Qed.

Lemma blit_at a b c d off : off = len a -> len d = len b -> blit (a ++ b ++ c) off d = Ok (a ++ d ++ c).
Proof.
  intros -> Hd. unfold blit. pose proof (len_nonneg a). pose proof (len_nonneg b). pose proof (len_nonneg c).
  rewrite !len_app. if_lia. rewrite Hd, <- len_app, !to_nat_len, firstn_app_l, (app_assoc a b c), skipn_app_l. reflexivity.
Qed.

Lemma blit_prefix b c d : len d = len b -> blit (b ++ c) 0 d = Ok (d ++ c).
Proof. exact (blit_at [] b c d 0 eq_refl). Qed.
Lemma blit_tail a b d off : off = len a -> len d = len b -> blit (a ++ b) off d = Ok (a ++ d).
Proof. intros Ho Hd. rewrite <- (app_nil_r b), <- (app_nil_r (a ++ d)), <- app_assoc. exact (blit_at a b [] d off Ho Hd). Qed.
Lemma blit_gen l off d : 0 <= off -> off + len d <= len l ->
  blit l off d = Ok (firstn (Z.to_nat off) l ++ d ++ skipn (Z.to_nat (off + len d)) l).
Proof. intros H1 H2. unfold blit. if_lia. reflexivity. Qed.

Lemma alloc_add n m : 0 <= n -> 0 <= m -> alloc (n + m) = alloc n ++ alloc m.
Proof. intros. unfold alloc. rewrite Z2Nat.inj_add by lia. apply repeat_app. Qed.
Lemma len_alloc n : 0 <= n -> len (alloc n) = n.
Proof. intros. unfold alloc, len. rewrite repeat_length. lia. Qed.

(* writing d at the start of the still unwritten part of a fresh block *)
Lemma blit_fresh a n d off : off = len a -> len d <= n ->
  blit (a ++ alloc n) off d = Ok (a ++ d ++ alloc (n - len d)).
Proof.
  intros Ho Hn. pose proof (len_nonneg d).
  replace n with (len d + (n - len d)) at 1 by lia.
  rewrite alloc_add by lia. apply blit_at; [exact Ho|]. symmetry. apply len_alloc. lia.
Qed.
Lemma blit_fresh0 n d : len d <= n -> blit (alloc n) 0 d = Ok (d ++ alloc (n - len d)).
Proof. exact (blit_fresh [] n d 0 eq_refl). Qed.

Lemma blit_alloc_all d n : n = len d -> blit (alloc n) 0 d = Ok d.
Proof.
  intros ->. rewrite blit_fresh0, Z.sub_diag by lia. change (alloc 0) with (@nil Z). rewrite app_nil_r. reflexivity.
Qed.

Lemma realloc_grow l n : len l <= n -> realloc l n = l ++ alloc (n - len l).
Proof.
  intros. unfold realloc, alloc. rewrite firstn_all2 by (unfold len in *; lia).
  f_equal. f_equal. unfold len in *. lia.
Qed.
(* giving back the tail of a block *)
Lemma realloc_shrink a j n : n = len a -> realloc (a ++ j) n = a.
Proof.
  intros ->. unfold realloc. rewrite to_nat_len, firstn_app_l.
  replace (length a - length (a ++ j))%nat with 0%nat by (rewrite app_length; lia). apply app_nil_r.
Qed.

Lemma list_eqb_eq a b : list_eqb a b = true <-> a = b.
Proof.
  revert b. induction a as [|x a IH]; destruct b as [|y b]; cbn [list_eqb]; try (split; congruence).
  rewrite andb_true_iff, IH, Z.eqb_eq. split; [intros [-> ->]; reflexivity|intros [= -> ->]; auto].
Qed.
Lemma list_eqb_refl a : list_eqb a a = true.
Proof. apply list_eqb_eq. reflexivity. Qed.

(* ---- the encoding ----------------------------------------------------------------------------------
   [enc_of v bs]: bs is a UTF-8 sequence (no overlong form; up to 0x1FFFFF like the concrete decoder)
   and v is the value its payload bits spell.  The encoder produces such a sequence, the decoder accepts
   exactly these, and a value has only one: the codec lemmas below need no further arithmetic. *)
Inductive enc_of (v : Z) : list Z -> Prop :=
| enc1 : 0 <= v < 0x80 -> enc_of v [v]
| enc2 a b : v = (a - 0xC0) * 64 + (b - 0x80) -> 0xC2 <= a < 0xE0 -> 0x80 <= b < 0xC0 -> enc_of v [a; b]
| enc3 a b c : v = (a - 0xE0) * 4096 + (b - 0x80) * 64 + (c - 0x80) ->
    0xE0 <= a < 0xF0 -> 0x80 <= b < 0xC0 -> 0x80 <= c < 0xC0 -> 0x800 <= v -> enc_of v [a; b; c]
| enc4 a b c d : v = (a - 0xF0) * 262144 + (b - 0x80) * 4096 + (c - 0x80) * 64 + (d - 0x80) ->
    0xF0 <= a < 0xF8 -> 0x80 <= b < 0xC0 -> 0x80 <= c < 0xC0 -> 0x80 <= d < 0xC0 -> 0x10000 <= v ->
    enc_of v [a; b; c; d].

Lemma utf8_enc_of c : 0 <= c < 0x200000 -> enc_of c (utf8_enc c).
Proof.
  intros H. unfold utf8_enc.
  destruct (c <? 0x80) eqn:E1; [constructor; lia|].
  destruct (c <? 0x800) eqn:E2; [constructor; Z.div_mod_to_equations; lia|].
  destruct (c <? 0x10000) eqn:E3; constructor; Z.div_mod_to_equations; lia.
Qed.

Lemma enc_of_inj v bs bs' : enc_of v bs -> enc_of v bs' -> bs = bs'.
Proof. intros [] []; try (exfalso; lia); repeat f_equal; lia. Qed.

Lemma glibc_dec_enc_of bs v : glibc_dec bs = Some v <-> enc_of v bs /\ ~ 0xD800 <= v <= 0xDFFF.
Proof.
  split.
  - unfold glibc_dec, contb. intros D.
    destruct bs as [|a [|b [|c [|d [|? ?]]]]]; try discriminate D;
      (destruct (_ && _) eqn:G in D; [|discriminate D]); cbv zeta in D;
      try (destruct (_ || _) eqn:G2 in D; [discriminate D|]); try (destruct (_ <? _) eqn:G2 in D; [discriminate D|]);
      injection D as <-; (split; [constructor|]); lia.
  - intros [[] N]; cbn [glibc_dec]; unfold contb; cbv zeta; repeat if_lia; f_equal; lia.
Qed.

Lemma tchar_range c : tchar c = true <-> (1 <= c < 0xD800 \/ 0xE000 <= c <= 0x10FFFF).
Proof. unfold tchar, scalarb. lia. Qed.
Lemma tchar_scalar c : tchar c = true -> scalarb c = true.
Proof. unfold tchar. lia. Qed.

(* the concrete codec round-trips every scalar value *)
Lemma glibc_enc_scalar c : scalarb c = true -> glibc_enc c = Some (utf8_enc c).
Proof. intros H. unfold scalarb in H. unfold glibc_enc. repeat if_lia. reflexivity. Qed.

Lemma glibc_dec_enc c : scalarb c = true -> glibc_dec (utf8_enc c) = Some c.
Proof.
  intros H. unfold scalarb in H. apply glibc_dec_enc_of. split; [apply utf8_enc_of|]; lia.
Qed.

(* whatever decodes to a text character is its encoding *)
Lemma dec_sound bs c : glibc_dec bs = Some c -> tchar c = true -> bs = utf8_enc c.
Proof.
  intros D T. apply tchar_range in T. apply glibc_dec_enc_of in D.
  apply (enc_of_inj c); [apply D|apply utf8_enc_of; lia].
Qed.

Lemma enc_len c : len (utf8_enc c) = cp_len c.
Proof.
  unfold utf8_enc, cp_len.
  destruct (c <? 0x80); [reflexivity|]. destruct (c <? 0x800); [reflexivity|].
  destruct (c <? 0x10000); reflexivity.
Qed.
Lemma cp_len_pos c : 1 <= cp_len c <= 4.
Proof. unfold cp_len. destruct (c <? 0x80), (c <? 0x800), (c <? 0x10000); lia. Qed.

Ltac lens := rewrite ?len_app, ?len_one, ?len_nil.

Definition nz (b : Z) : Prop := 1 <= b < 256.

Lemma enc_bytes c : tchar c = true -> Forall nz (utf8_enc c).
Proof.
  intros H. apply tchar_range in H.
  destruct (utf8_enc_of c) as [| | |]; [lia|..]; repeat constructor; unfold nz; lia.
Qed.

(* the lead byte announces the length *)
Lemma enc_head c : tchar c = true ->
  exists a t, utf8_enc c = a :: t /\ nz a /\ lead_len a = length (utf8_enc c) /\ utf8_indicated_num_bytes a = cp_len c.
Proof.
  intros H. apply tchar_range in H.
  assert (L : exists a t, utf8_enc c = a :: t /\ nz a /\ a < 0xF8 /\ lead_len a = length (utf8_enc c)).
  { destruct (utf8_enc_of c) as [| | |]; [lia|..]; eexists; eexists; (split; [reflexivity|]);
      unfold nz, lead_len; cbn [length]; repeat if_lia; repeat split; lia. }
  destruct L as (a & t & Ht & Ha & Ha8 & Hl). exists a, t. split; [exact Ht|]. split; [exact Ha|]. split; [exact Hl|].
  destruct (byte_class a) as (_ & _ & _ & _ & _ & Hi); [unfold nz in Ha; lia|].
  rewrite Hi, Hl, <- enc_len by exact Ha8. reflexivity.
Qed.

Definition tchars (cs : list Z) : Prop := forallb tchar cs = true.

Lemma tchars_cons c cs : tchars (c :: cs) <-> tchar c = true /\ tchars cs.
Proof. unfold tchars. cbn [forallb]. apply andb_true_iff. Qed.
Lemma tchars_app a b : tchars (a ++ b) <-> tchars a /\ tchars b.
Proof. unfold tchars. rewrite forallb_app. apply andb_true_iff. Qed.
Lemma tchars_nil : tchars [].
Proof. reflexivity. Qed.

Lemma tchars_nth cs n : tchars cs -> (n < length cs)%nat -> tchar (nth n cs 0) = true.
Proof. intros T H. unfold tchars in T. rewrite forallb_forall in T. apply T, nth_In, H. Qed.

Lemma E_app a b : E (a ++ b) = E a ++ E b.
Proof. apply flat_map_app. Qed.
Lemma E_cons c cs : E (c :: cs) = utf8_enc c ++ E cs.
Proof. reflexivity. Qed.
Lemma E_one c : E [c] = utf8_enc c.
Proof. cbn. apply app_nil_r. Qed.

Lemma E_bytes cs : tchars cs -> Forall nz (E cs).
Proof.
  induction cs as [|c cs IH]; intros H; [constructor|].
  apply tchars_cons in H. rewrite E_cons. apply Forall_app. split; [apply enc_bytes|apply IH]; apply H.
Qed.

Lemma E_nonempty c cs : tchar c = true -> exists a t, E (c :: cs) = a :: t /\ nz a.
Proof.
  intros H. destruct (enc_head c H) as (a & t & Ht & Ha & _).
  exists a, (t ++ E cs). rewrite E_cons, Ht. split; [reflexivity|exact Ha].
Qed.

Lemma len_E_pos c cs : tchar c = true -> len (E cs) < len (E (c :: cs)).
Proof. intros _. rewrite E_cons, len_app, enc_len. pose proof (cp_len_pos c). lia. Qed.

(* completeness: decoding the encoding of a text gives the text back *)
Lemma decode_all_E cs : forall fuel, tchars cs -> (length (E cs) <= fuel)%nat -> decode_all fuel (E cs) = Some cs.
Proof.
  induction cs as [|c cs IH]; intros fuel H Hf; [destruct fuel; reflexivity|].
  apply tchars_cons in H. destruct H as [Hc Hcs].
  destruct (enc_head c Hc) as (a & t & Ht & _ & Hl & _).
  rewrite E_cons, app_length in *. rewrite Ht in Hl, Hf. destruct fuel as [|f]; [cbn [length] in Hf; lia|].
  rewrite Ht at 1. cbn [app decode_all]. rewrite Hl. cbn [length].
  change (S (length t)) with (length (a :: t)). change (a :: t ++ E cs) with ((a :: t) ++ E cs).
  rewrite firstn_app_l, skipn_app_l, <- Ht, (glibc_dec_enc c (tchar_scalar c Hc)), Hc, (IH f Hcs) by (cbn [length] in Hf; lia).
  reflexivity.
Qed.
Lemma decode_E cs : tchars cs -> decode (E cs) = Some cs.
Proof. intros. apply decode_all_E; auto. Qed.

Lemma E_inj a b : tchars a -> tchars b -> E a = E b -> a = b.
Proof.
  intros Ha Hb H. pose proof (decode_E a Ha) as Da. rewrite H, (decode_E b Hb) in Da. congruence.
Qed.

(* soundness: whatever decodes is the encoding of the result *)
Lemma decode_all_sound : forall fuel l cs, decode_all fuel l = Some cs -> l = E cs /\ tchars cs.
Proof.
  induction fuel as [|f IH]; intros l cs D.
  - destruct l; cbn in D; [injection D as <-; split; reflexivity|discriminate D].
  - destruct l as [|a t]; [cbn in D; injection D as <-; split; reflexivity|].
    cbn [decode_all] in D.
    destruct (lead_len a) as [|n] eqn:L; [discriminate D|].
    destruct (glibc_dec (firstn (S n) (a :: t))) as [c|] eqn:G; [|discriminate D].
    destruct (tchar c) eqn:T; [|discriminate D].
    destruct (decode_all f (skipn (S n) (a :: t))) as [r|] eqn:R; [|discriminate D].
    injection D as <-. destruct (IH _ _ R) as [Hr Tr].
    apply dec_sound in G; [|exact T]. split.
    + rewrite E_cons, <- G, <- Hr. symmetry. apply firstn_skipn.
    + apply tchars_cons. split; assumption.
Qed.
Lemma decode_sound l cs : decode l = Some cs -> l = E cs /\ tchars cs.
Proof. apply decode_all_sound. Qed.
