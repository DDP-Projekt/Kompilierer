(* Rt/StrBounds.v — composition of C12 with C06: on every well-formed text the byte-level operations of
   the runtime model (Rt/Str.v) decide their domain exactly as the code-point-level statements of
   Rt/Bounds.v (text_index, text_replace, text_slice) and return the same values.  C06's hypotheses
   "cap >= length + 1; cap 0 or 1 for the empty text" are consequences of [repr]. *)
From Coq Require Import List ZArith Bool Lia ZifyBool.
Import ListNotations.
From DDP Require Import Rt.Str Rt.StrSpec Rt.StrOps Rt.StrOps2 Rt.Bounds Rt.BoundsProofs.
Open Scope Z_scope.

Definition of_option {A} (o : option A) : res A := match o with Some a => Ok a | None => Err end.
Definition of_slice (r : slice_result Z) : res (list Z) := match r with SliceOk l => Ok l | SliceError => Err end.

(* the capacity hypotheses of Props/C06.v follow from the representation invariant *)
Lemma repr_cap_bounds s cs : repr s cs ->
  (cs <> [] -> Z.of_nat (length cs) + 1 <= cap s) /\ (cs = [] -> cap s = 0 \/ cap s = 1).
Proof.
  revert s cs. apply repr_case; [split; [congruence|left; reflexivity]|split; [congruence|right; reflexivity]|].
  intros c cs _ _. split; [intros _|discriminate]. cbn [cstr cap]. pose proof (clen_le_len_E (c :: cs)). unfold clen in *. lia.
Qed.

Lemma repr_cap_hyps s cs : repr s cs ->
  (cs <> [] -> Z.of_nat (length cs) + 1 <= cap s) /\ (cs = [] -> 0 <= cap s <= 1).
Proof. intros H. destruct (repr_cap_bounds s cs H) as [Hne Hemp]. split; [exact Hne|]. intros E0. destruct (Hemp E0); lia. Qed.

Lemma set_nth_split (l : list Z) n v : (n < length l)%nat -> set_nth l n v = firstn n l ++ v :: skipn (S n) l.
Proof. revert n. induction l as [|x l IH]; intros [|n] H; cbn in *; try lia; auto. f_equal. apply IH. lia. Qed.

Lemma s_index_text_index s cs i : repr s cs -> s_index cs i = of_option (text_index (cap s) cs i).
Proof.
  intros H. destruct (repr_cap_hyps _ _ H) as [Hne Hemp]. rewrite text_index_normal by assumption.
  unfold s_index, clen. destruct ((1 <=? i) && (i <=? Z.of_nat (length cs))) eqn:G; [|reflexivity].
  rewrite (nth_error_nth' cs 0) by lia. reflexivity.
Qed.

Lemma s_replace_text_replace s cs i c : repr s cs -> s_replace cs c i = of_option (text_replace (cap s) cs i c).
Proof.
  intros H. destruct (repr_cap_hyps _ _ H) as [Hne Hemp]. rewrite text_replace_normal by assumption.
  unfold s_replace, clen. destruct ((1 <=? i) && (i <=? Z.of_nat (length cs))) eqn:G; [|reflexivity].
  cbn [of_option]. rewrite set_nth_split by lia. replace (S (Z.to_nat (i - 1))) with (Z.to_nat i) by lia. reflexivity.
Qed.

Lemma s_slice_text_slice cs i j : s_slice cs i j = of_slice (text_slice cs i j).
Proof.
  unfold s_slice, text_slice. destruct cs as [|c cs]; [reflexivity|].
  replace (Z.of_nat (length (c :: cs)) <=? 0) with false by (cbn [length]; lia).
  unfold clen. rewrite !clamp_minmax, !clampZ_minmax. cbv zeta.
  destruct (_ <? _); reflexivity.
Qed.

Lemma slice_matches_bounds s cs i j : repr s cs -> rres (string_slice s i j) (of_slice (text_slice cs i j)).
Proof. intros H. rewrite <- s_slice_text_slice. apply string_slice_repr, H. Qed.
