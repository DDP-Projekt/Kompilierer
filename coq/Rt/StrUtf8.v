(* Rt/StrUtf8.v — what the functions of utf8.c and the walking loops of operators.c /
   compiler.go compute on a block that holds the encoding of a text followed by a terminator. *)
From Coq Require Import List ZArith Bool Lia ZifyBool.
Import ListNotations.
From DDP Require Import Rt.Str Rt.StrSpec Rt.StrBase.
Open Scope Z_scope.

Lemma c_strlen_nz l j : Forall nz l -> c_strlen (l ++ 0 :: j) = Ok (len l).
Proof.
  induction 1 as [|b l Hb Hl IH]; [reflexivity|].
  cbn [app c_strlen]. unfold nz in Hb. if_lia. rewrite IH. cbn [bind]. rewrite len_cons. f_equal. lia.
Qed.
Lemma c_string_nz l j : Forall nz l -> c_string (l ++ 0 :: j) = Ok l.
Proof.
  induction 1 as [|b l Hb Hl IH]; [reflexivity|].
  cbn [app c_string]. unfold nz in Hb. if_lia. rewrite IH. reflexivity.
Qed.

(* ---- utf8_strlen: continuation bytes are not counted ------------------------------------------------ *)
Lemma strlen_cont b r : 0x80 <= b < 0xC0 -> utf8_strlen_ptr (b :: r) = utf8_strlen_ptr r.
Proof.
  intros H. cbn [utf8_strlen_ptr]. if_lia.
  destruct (byte_class b) as (_ & _ & _ & _ & -> & _); [lia|]. unfold contb.
  destruct (utf8_strlen_ptr r); cbn [bind]; try if_lia; reflexivity.
Qed.
Lemma strlen_lead a r : nz a -> ~ 0x80 <= a < 0xC0 ->
  utf8_strlen_ptr (a :: r) = n <- utf8_strlen_ptr r ;; Ok (n + 1).
Proof.
  unfold nz. intros H N. cbn [utf8_strlen_ptr]. if_lia.
  destruct (byte_class a) as (_ & _ & _ & _ & -> & _); [lia|]. unfold contb.
  destruct (utf8_strlen_ptr r); cbn [bind]; try if_lia; reflexivity.
Qed.

Lemma utf8_strlen_enc c r : tchar c = true ->
  utf8_strlen_ptr (utf8_enc c ++ r) = n <- utf8_strlen_ptr r ;; Ok (n + 1).
Proof.
  intros H. apply tchar_range in H.
  destruct (utf8_enc_of c) as [| | |]; [lia|..]; cbn [app];
    rewrite strlen_lead, ?strlen_cont by (unfold nz; lia); reflexivity.
Qed.

Lemma utf8_strlen_E cs j : tchars cs -> utf8_strlen_ptr (E cs ++ 0 :: j) = Ok (clen cs).
Proof.
  induction cs as [|c cs IH]; intros H; [reflexivity|].
  apply tchars_cons in H. destruct H as [Hc Hcs].
  rewrite E_cons, <- app_assoc, utf8_strlen_enc, IH by assumption. cbn [bind]. unfold clen. cbn [length]. f_equal. lia.
Qed.

Lemma andr_ok x y : andr (Ok x) (Ok y) = Ok (x && y).
Proof. destruct x; reflexivity. Qed.

Lemma is_single a l : 0 <= a < 256 -> utf8_is_single_byte (a :: l) = Ok (a <? 0x80).
Proof.
  intros Ha. unfold utf8_is_single_byte. change (rd (a :: l) 0) with (Ok a). cbn [bind].
  destruct (byte_class a Ha) as (-> & _). reflexivity.
Qed.
Lemma is_double a b l : 0 <= a < 256 -> 0 <= b < 256 ->
  utf8_is_double_byte (a :: b :: l) = Ok ((0xC0 <=? a) && (a <? 0xE0) && contb b).
Proof.
  intros Ha Hb. unfold utf8_is_double_byte.
  change (rd (a :: b :: l) 0) with (Ok a). change (rd (a :: b :: l) 1) with (Ok b). cbn [bind].
  destruct (byte_class a Ha) as (_ & -> & _). destruct (byte_class b Hb) as (_ & _ & _ & _ & -> & _).
  apply andr_ok.
Qed.
Lemma is_triple a b c l : 0 <= a < 256 -> 0 <= b < 256 -> 0 <= c < 256 ->
  utf8_is_triple_byte (a :: b :: c :: l) = Ok ((0xE0 <=? a) && (a <? 0xF0) && (contb b && contb c)).
Proof.
  intros Ha Hb Hc. unfold utf8_is_triple_byte.
  change (rd (a :: b :: c :: l) 0) with (Ok a). change (rd (a :: b :: c :: l) 1) with (Ok b).
  change (rd (a :: b :: c :: l) 2) with (Ok c). cbn [bind].
  destruct (byte_class a Ha) as (_ & _ & -> & _). destruct (byte_class b Hb) as (_ & _ & _ & _ & -> & _).
  destruct (byte_class c Hc) as (_ & _ & _ & _ & -> & _). rewrite !andr_ok. reflexivity.
Qed.
Lemma is_quadruple a b c d l : 0 <= a < 256 -> 0 <= b < 256 -> 0 <= c < 256 -> 0 <= d < 256 ->
  utf8_is_quadruple_byte (a :: b :: c :: d :: l) =
  Ok ((0xF0 <=? a) && (a <? 0xF8) && (contb b && (contb c && contb d))).
Proof.
  intros Ha Hb Hc Hd. unfold utf8_is_quadruple_byte.
  change (rd (a :: b :: c :: d :: l) 0) with (Ok a). change (rd (a :: b :: c :: d :: l) 1) with (Ok b).
  change (rd (a :: b :: c :: d :: l) 2) with (Ok c). change (rd (a :: b :: c :: d :: l) 3) with (Ok d). cbn [bind].
  destruct (byte_class a Ha) as (_ & _ & _ & -> & _). destruct (byte_class b Hb) as (_ & _ & _ & _ & -> & _).
  destruct (byte_class c Hc) as (_ & _ & _ & _ & -> & _). destruct (byte_class d Hd) as (_ & _ & _ & _ & -> & _).
  rewrite !andr_ok. reflexivity.
Qed.

(* the bytes counted before the classification: all of a sequence of up to four non-zero bytes *)
Lemma nb_len_nz bs r : Forall nz bs -> In 0 r -> forall k, k + len bs <= 4 ->
  exists m, nb_len (bs ++ r) k = Ok m /\ k + len bs <= m.
Proof.
  intros Hbs Hin. induction Hbs as [|b bs Hb _ IH]; intros k Hk.
  - cbn [app]. rewrite len_nil. clear Hk. revert k.
    induction r as [|b r IH]; intros k; [destruct Hin|].
    cbn [nb_len]. destruct (b =? 0) eqn:B; [exists k; split; [reflexivity|lia]|].
    destruct (k <? 4) eqn:K; [|exists k; split; [reflexivity|lia]].
    destruct Hin as [->|Hin]; [discriminate B|].
    destruct (IH Hin (k + 1)) as (m & Hm & Hle). exists m. split; [exact Hm|lia].
  - rewrite len_cons in *. pose proof (len_nonneg bs). cbn [app nb_len]. unfold nz in Hb. repeat if_lia.
    destruct (IH (k + 1)) as (m & Hm & Hle); [lia|]. exists m. split; [exact Hm|lia].
Qed.

Lemma num_bytes_enc c r : tchar c = true -> In 0 r -> utf8_num_bytes (utf8_enc c ++ r) = Ok (cp_len c).
Proof.
  intros Hc Hin. pose proof (cp_len_pos c) as Hl. rewrite <- enc_len in *.
  destruct (nb_len_nz _ r (enc_bytes c Hc) Hin 0) as (m & Hm & Hle); [lia|].
  apply tchar_range in Hc. revert Hm Hle. clear Hl.
  destruct (utf8_enc_of c) as [| | |]; [lia|..]; cbn [app]; intros Hm Hle; unfold utf8_num_bytes; rewrite Hm; cbn [bind];
    rewrite ?is_single, ?is_double, ?is_triple, ?is_quadruple by lia; rewrite ?andr_ok; cbn [bind];
    unfold contb; cbn [len length Z.of_nat Pos.of_succ_nat Pos.succ] in Hle; repeat if_lia; reflexivity.
Qed.

Lemma in0_term l j : In 0 (l ++ 0 :: j).
Proof. apply in_or_app. right. left. reflexivity. Qed.

Lemma num_bytes_E c cs j : tchar c = true -> utf8_num_bytes (E (c :: cs) ++ 0 :: j) = Ok (cp_len c).
Proof. intros Hc. rewrite E_cons, <- app_assoc. apply num_bytes_enc; [exact Hc|apply in0_term]. Qed.

(* ---- a cursor inside the encoding of a text --------------------------------------------------------- *)
(* at a character: the lead byte is there, it is not the terminator and announces the width *)
Lemma at_char pre c post r off : tchar c = true -> off = len (E pre) ->
  exists a, rd (E pre ++ E (c :: post) ++ r) off = Ok a /\ nz a /\ utf8_indicated_num_bytes a = cp_len c.
Proof.
  intros Hc Ho. destruct (enc_head c Hc) as (a & t & Ht & Ha & _ & Hi). exists a.
  rewrite E_cons, Ht. cbn [app]. split; [apply rd_at, Ho|split; assumption].
Qed.

Lemma E_shift pre c post r : E pre ++ E (c :: post) ++ r = E (pre ++ [c]) ++ E post ++ r.
Proof. rewrite E_app, E_one, (E_cons c post), <- !app_assoc. reflexivity. Qed.
Lemma len_E_snoc pre c : len (E (pre ++ [c])) = len (E pre) + cp_len c.
Proof. rewrite E_app, E_one, len_app, enc_len. reflexivity. Qed.

(* the index loop of ddp_string_index / ddp_replace_char_in_string: k characters forward, or to the
   terminator *)
Lemma index_walk_E j : forall k pre post, tchars post ->
  index_walk (E pre ++ E post ++ 0 :: j) (len (E pre)) k = Ok (len (E (pre ++ firstn k post))).
Proof.
  induction k as [|k IH]; intros pre [|c post] Hp; cbn [index_walk firstn]; rewrite ?app_nil_r.
  - cbn [E flat_map app]. rewrite rd_at; reflexivity.
  - apply tchars_cons in Hp. destruct (at_char pre c post (0 :: j) _ (proj1 Hp) eq_refl) as (a & -> & _). reflexivity.
  - cbn [E flat_map app]. rewrite rd_at; reflexivity.
  - apply tchars_cons in Hp. destruct Hp as [Hc Hp].
    destruct (at_char pre c post (0 :: j) _ Hc eq_refl) as (a & -> & Ha & _). cbn [bind]. unfold nz in Ha. if_lia.
    rewrite ptr_at by reflexivity. cbn [bind]. rewrite num_bytes_E by exact Hc. cbn [bind].
    rewrite E_shift, <- len_E_snoc, IH, <- app_assoc by exact Hp. reflexivity.
Qed.

(* the loops of ddp_string_slice walk by utf8_indicated_num_bytes of the lead byte: n characters
   forward inside the text, counting from cnt to tgt *)
Lemma slice_walk_E j : forall n pre post fuel i cnt tgt,
  tchars post -> (n < length post)%nat -> (n < fuel)%nat ->
  i = len (E pre) -> cnt = clen pre -> tgt = clen pre + Z.of_nat n ->
  slice_walk (E pre ++ E post ++ 0 :: j) i cnt tgt fuel = Ok (len (E (pre ++ firstn n post)), tgt).
Proof.
  induction n as [|n IH]; intros pre [|c post] [|fuel] i cnt tgt Hp Hn Hf -> -> ->; cbn [length] in Hn; try lia;
    apply tchars_cons in Hp; destruct Hp as [Hc Hp]; cbn [slice_walk firstn];
    destruct (at_char pre c post (0 :: j) _ Hc eq_refl) as (a & -> & Ha & Hi); cbn [bind]; unfold nz in Ha; if_lia.
  - rewrite app_nil_r. repeat f_equal. lia.
  - rewrite Hi, E_shift, <- len_E_snoc.
    rewrite (IH (pre ++ [c]) post) by (trivial; unfold clen; rewrite ?app_length; cbn [length]; lia).
    rewrite <- app_assoc. reflexivity.
Qed.

Section WithDec.
  Variable dec : list Z -> option Z.
  Hypothesis dec_ok : forall c, tchar c = true -> dec (utf8_enc c) = Some c.

  Lemma string_to_char_E c cs j :
    tchar c = true -> utf8_string_to_char dec (E (c :: cs) ++ 0 :: j) = Ok (cp_len c, Some c).
  Proof.
    intros Hc. unfold utf8_string_to_char. rewrite num_bytes_E by exact Hc. cbn [bind].
    pose proof (cp_len_pos c). if_lia.
    rewrite E_cons, <- app_assoc, <- enc_len, to_nat_len, firstn_app_l, dec_ok by exact Hc. reflexivity.
  Qed.

  (* the loop the compiler emits for `Für jeden Buchstaben b in t` *)
  Lemma iter_loop_E : forall post pre fuel e, tchars post -> (length post < fuel)%nat -> e = len (E (pre ++ post)) ->
    iter_loop dec (E pre ++ E post ++ [0]) (len (E pre)) e fuel = Ok post.
  Proof.
    induction post as [|c post IH]; intros pre [|f] e Hp Hf ->; cbn [length] in Hf; try lia; cbn [iter_loop].
    - rewrite app_nil_r, Z.eqb_refl. reflexivity.
    - apply tchars_cons in Hp. destruct Hp as [Hc Hp].
      pose proof (len_E_pos c post Hc). pose proof (len_nonneg (E post)).
      rewrite (E_app pre (c :: post)), len_app. if_lia.
      rewrite ptr_at by reflexivity. cbn [bind].
      destruct (E_nonempty c post Hc) as (a & t & Ht & _).
      destruct (E (c :: post) ++ [0]) as [|q0 q] eqn:Q; [rewrite Ht in Q; discriminate Q|]. rewrite <- Q.
      rewrite string_to_char_E by exact Hc. cbn [bind]. pose proof (cp_len_pos c). if_lia.
      rewrite E_shift, <- len_E_snoc, IH; [reflexivity|exact Hp|lia|].
      rewrite <- app_assoc, E_app. lens. reflexivity.
  Qed.
End WithDec.
