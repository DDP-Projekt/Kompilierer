(* Rt/StrOps2.v — the remaining operations on represented texts: concatenations, conversion of a character, equality, iteration, slicing. *)
From Coq Require Import List ZArith Bool Lia ZifyBool.
Import ListNotations.
From DDP Require Import Rt.Str Rt.StrSpec Rt.StrBase Rt.StrUtf8 Rt.StrOps.
Open Scope Z_scope.

Lemma repr_block cs : tchars cs -> cs <> [] -> repr (mkstr (E cs ++ [0]) (len (E cs) + 1)) cs.
Proof. exact (repr_cstr cs). Qed.

Lemma E_nonnil c cs : tchar c = true -> E (c :: cs) <> [].
Proof. intros H. destruct (E_nonempty c cs H) as (a & t & -> & _). discriminate. Qed.

Section WithCodec.
  Variable enc : Z -> option (list Z).
  Variable dec : list Z -> option Z.
  Hypothesis enc_ok : forall c, scalarb c = true -> enc c = Some (utf8_enc c).
  Hypothesis dec_ok : forall c, tchar c = true -> dec (utf8_enc c) = Some c.

  Lemma string_string_verkettet_repr s1 s2 cs1 cs2 :
    repr s1 cs1 -> repr s2 cs2 -> rres (string_string_verkettet s1 s2) (Ok (cs1 ++ cs2)).
  Proof.
    intros H1 H2. unfold string_string_verkettet.
    rewrite (string_empty_repr _ _ H1), (string_empty_repr _ _ H2). cbn [bind].
    destruct cs1 as [|c1 cs1], cs2 as [|c2 cs2]; cbn [andb].
    - apply repr_empty.
    - rewrite (deep_copy_repr _ _ H2). exact H2.
    - rewrite app_nil_r. exact H1.
    - rewrite (repr_nonempty _ _ H1), (repr_nonempty _ _ H2) by discriminate. cbn [cstr bytes cap].
      set (l1 := E (c1 :: cs1)). set (l2 := E (c2 :: cs2)).
      apply rres_eq with (r' := Ok (cstr (l1 ++ l2))).
      2:{ unfold l1, l2. rewrite <- E_app. apply repr_cstr; [|discriminate].
          apply tchars_app. split; eapply repr_tchars; eassumption. }
      pose proof (len_nonneg l1). pose proof (len_nonneg l2). clearbody l1 l2.
      rewrite realloc_grow, sub_all by (lens; lia). cbn [bind].
      rewrite <- app_assoc, blit_tail by (lens; rewrite ?len_alloc by (lens; lia); lens; lia).
      cbn [bind]. unfold cstr. rewrite <- app_assoc. do 2 f_equal. lens. lia.
  Qed.

  (* ---- ddp_char_to_string, for every ddpchar: a value that is not a text character gives the empty text ---- *)
  Lemma char_to_string_all c : rres (char_to_string enc c) (Ok (s_char c)).
  Proof.
    unfold s_char, char_to_string. destruct (tchar c) eqn:Hc.
    2:{ destruct (text_char_other enc enc_ok c Hc) as (t & ->). apply repr_empty. }
    rewrite (text_char_tchar enc enc_ok) by exact Hc. cbn [bind].
    pose proof (cp_len_pos c). rewrite <- enc_len in *. if_lia.
    rewrite blit_fresh0 by lia. cbn [bind]. rewrite blit_fresh by (lens; lia). cbn [bind rres].
    replace (len (utf8_enc c) + 1 - len (utf8_enc c) - len [0]) with 0 by (lens; lia). change (alloc 0) with (@nil Z).
    rewrite <- (E_one c), app_nil_r. apply repr_block; [|discriminate]. apply tchars_cons. split; [exact Hc|reflexivity].
  Qed.

  (* ---- ddp_string_char_verkettet / ddp_char_string_verkettet, for every ddpchar ------------------------ *)
  Lemma claim_string_or_empty_repr s cs : repr s cs -> rres (claim_string_or_empty s) (Ok cs).
  Proof.
    intros H. unfold claim_string_or_empty. rewrite (string_empty_repr _ _ H). cbn [bind].
    destruct cs; [apply repr_empty|exact H].
  Qed.

  Lemma string_char_verkettet_all s cs c : repr s cs -> rres (string_char_verkettet enc s c) (Ok (cs ++ s_char c)).
  Proof.
    intros H. unfold s_char, string_char_verkettet. destruct (tchar c) eqn:Hc.
    2:{ destruct (text_char_other enc enc_ok c Hc) as (t & ->). cbn [bind Z.eqb].
        rewrite app_nil_r. apply claim_string_or_empty_repr, H. }
    assert (Tc : tchars [c]) by (apply tchars_cons; split; [exact Hc|reflexivity]).
    rewrite (text_char_tchar enc enc_ok) by exact Hc. cbn [bind].
    pose proof (cp_len_pos c) as Ht. rewrite <- enc_len in *. if_lia.
    rewrite (string_empty_repr _ _ H). cbn [bind].
    destruct cs as [|c1 cs]; [rewrite <- E_one; apply from_constant_repr, Tc|].
    rewrite (repr_nonempty _ _ H) by discriminate. cbn [cstr bytes cap].
    set (l := E (c1 :: cs)). set (t := utf8_enc c) in *.
    apply rres_eq with (r' := Ok (cstr (l ++ t))).
    2:{ unfold l, t. rewrite <- E_one, <- E_app. apply repr_cstr; [|discriminate].
        apply tchars_app. split; [apply (repr_tchars _ _ H)|exact Tc]. }
    pose proof (len_nonneg l). clearbody l t.
    rewrite realloc_grow by (lens; lia).
    (* the block is l ++ [0] ++ fresh bytes; t covers the terminator and all fresh bytes but the last *)
    replace (len l + 1 + len t - len (l ++ [0])) with ((len t - 1) + 1) by (lens; lia).
    rewrite alloc_add, <- app_assoc, (app_assoc [0]) by lia.
    rewrite blit_at by (lens; rewrite ?len_alloc by lia; lia). cbn [bind].
    rewrite app_assoc, blit_tail by (lens; lia || reflexivity). cbn [bind]. unfold cstr. do 2 f_equal. lens. lia.
  Qed.

  Lemma char_string_verkettet_all c s cs : repr s cs -> rres (char_string_verkettet enc c s) (Ok (s_char c ++ cs)).
  Proof.
    intros H. unfold s_char, char_string_verkettet. destruct (tchar c) eqn:Hc.
    2:{ destruct (text_char_other enc enc_ok c Hc) as (t & ->). cbn [bind Z.eqb app].
        apply claim_string_or_empty_repr, H. }
    assert (Tc : tchars [c]) by (apply tchars_cons; split; [exact Hc|reflexivity]).
    rewrite (text_char_tchar enc enc_ok) by exact Hc. cbn [bind].
    pose proof (cp_len_pos c) as Ht. rewrite <- enc_len in *. if_lia.
    rewrite (string_empty_repr _ _ H). cbn [bind].
    destruct cs as [|c1 cs]; [rewrite <- E_one; apply from_constant_repr, Tc|].
    rewrite (repr_nonempty _ _ H) by discriminate. cbn [cstr bytes cap app].
    set (l := E (c1 :: cs)). set (t := utf8_enc c) in *.
    apply rres_eq with (r' := Ok (cstr (t ++ l))).
    2:{ unfold l, t. rewrite <- (E_cons c (c1 :: cs)). apply repr_cstr; [|discriminate].
        apply tchars_cons. split; [exact Hc|apply (repr_tchars _ _ H)]. }
    pose proof (len_nonneg l). clearbody l t.
    rewrite realloc_grow, sub_prefix by (lens; lia). cbn [bind].
    (* memmove by len t, then t in front *)
    set (b := (l ++ [0]) ++ alloc (len l + 1 + len t - len (l ++ [0]))).
    assert (Hb : len b = len t + len (l ++ [0])) by (unfold b; lens; rewrite len_alloc by (lens; lia); lens; lia).
    clearbody b.
    rewrite blit_gen by lia. cbn [bind]. rewrite skipn_all2, app_nil_r by (unfold len in *; lia).
    rewrite blit_prefix by (unfold len in *; rewrite firstn_length_le by lia; lia). cbn [bind].
    unfold cstr. rewrite <- app_assoc. do 2 f_equal. lens. lia.
  Qed.

  Lemma string_equal_repr same s1 s2 cs1 cs2 :
    repr s1 cs1 -> repr s2 cs2 -> (same = true -> cs1 = cs2) ->
    string_equal same s1 s2 = Ok (list_eqb cs1 cs2).
  Proof.
    intros H1 H2 Hsame. unfold string_equal.
    destruct same; [rewrite (Hsame eq_refl), list_eqb_refl; reflexivity|].
    rewrite (ddp_strlen_repr _ _ H1), (ddp_strlen_repr _ _ H2). cbn [bind].
    pose proof (repr_tchars _ _ H1) as T1. pose proof (repr_tchars _ _ H2) as T2.
    (* the byte strings decide: E is injective on texts *)
    assert (EQ : list_eqb (E cs1) (E cs2) = list_eqb cs1 cs2).
    { apply eq_true_iff_eq. rewrite !list_eqb_eq. split; [apply E_inj; assumption|congruence]. }
    rewrite <- EQ. clear EQ.
    destruct (len (E cs1) =? len (E cs2)) eqn:L; cbn [negb].
    2:{ f_equal. symmetry. apply not_true_is_false. intros Heq. apply list_eqb_eq in Heq. rewrite Heq in L. lia. }
    destruct cs1 as [|c1 cs1], cs2 as [|c2 cs2]; try reflexivity.
    1,2: apply tchars_cons, proj1 in T1 || apply tchars_cons, proj1 in T2.
    - pose proof (len_E_pos c2 cs2 T2). pose proof (len_nonneg (E cs2)). change (len (E [])) with 0 in L. lia.
    - pose proof (len_E_pos c1 cs1 T1). pose proof (len_nonneg (E cs1)). change (len (E [])) with 0 in L. lia.
    - apply tchars_cons, proj1 in T1. pose proof (len_E_pos c1 cs1 T1). pose proof (len_nonneg (E cs1)). if_lia.
      rewrite (repr_nonempty _ _ H1), (repr_nonempty _ _ H2) by discriminate. cbn [cstr bytes].
      rewrite !sub_prefix by lia. reflexivity.
  Qed.

  Lemma string_iterate_repr s cs : repr s cs -> string_iterate dec s = Ok cs.
  Proof.
    revert s cs. apply repr_case; [reflexivity|reflexivity|]. intros c cs Hc Tcs.
    assert (T : tchars (c :: cs)) by (apply tchars_cons; split; assumption).
    pose proof (len_E_pos c cs Hc). pose proof (len_nonneg (E cs)). pose proof (clen_le_len_E (c :: cs)) as Hle.
    unfold string_iterate. cbn [cstr cap bytes]. if_lia.
    refine (iter_loop_E dec dec_ok (c :: cs) [] _ _ T _ _); [|cbn [app]; lia].
    rewrite app_length. unfold clen, len in Hle. lia.
  Qed.
End WithCodec.

Lemma clamp_minmax v lo hi : clamp v lo hi = Z.min hi (Z.max lo v).
Proof. unfold clamp. destruct (v <? lo) eqn:E1; [destruct (hi <? lo) eqn:E2|destruct (hi <? v) eqn:E2]; lia. Qed.

(* an inclusive range a..b of a list: what is before, the range without its last element, the last
   element, what is after *)
Lemma range_split (L : list Z) a b :
  1 <= a -> a <= b -> b <= clen L ->
  exists c1 m x c3,
    L = c1 ++ m ++ x :: c3 /\ clen c1 = a - 1 /\ clen m = b - a /\
    firstn (Z.to_nat (b - a + 1)) (skipn (Z.to_nat (a - 1)) L) = m ++ [x].
Proof.
  intros Ha Hab Hb. unfold clen in *.
  set (c1 := firstn (Z.to_nat (a - 1)) L). set (R := skipn (Z.to_nat (a - 1)) L).
  set (mx := firstn (Z.to_nat (b - a + 1)) R). set (c3 := skipn (Z.to_nat (b - a + 1)) R).
  assert (HR : length R = (length L - Z.to_nat (a - 1))%nat) by apply skipn_length.
  assert (Hmx : length mx = Z.to_nat (b - a + 1)) by (apply firstn_length_le; lia).
  assert (Hne : mx <> []) by (intros E0; rewrite E0 in Hmx; cbn in Hmx; lia).
  destruct (exists_last Hne) as (m & x & Hm).
  exists c1, m, x, c3. repeat split.
  - rewrite <- (firstn_skipn (Z.to_nat (a - 1)) L). fold c1 R. f_equal.
    rewrite <- (firstn_skipn (Z.to_nat (b - a + 1)) R). fold mx c3. rewrite Hm, <- app_assoc. reflexivity.
  - unfold c1. rewrite firstn_length_le by lia. lia.
  - rewrite Hm, app_length in Hmx. cbn [length] in Hmx. lia.
  - exact Hm.
Qed.

Lemma string_slice_repr s cs i j : repr s cs -> rres (string_slice s i j) (s_slice cs i j).
Proof.
  intros H. unfold string_slice, s_slice. rewrite (string_empty_repr _ _ H). cbn [bind].
  destruct cs as [|c cs0]; [apply repr_empty|].
  rewrite (utf8_strlen_repr _ _ H), (repr_nonempty _ _ H) by discriminate. cbn [bind cstr bytes].
  pose proof (repr_tchars _ _ H) as T. clear H. remember (c :: cs0) as L eqn:EL.
  assert (Hn : 1 <= clen L) by (subst L; unfold clen; cbn [length]; lia). clear EL.
  assert (Ha : 1 <= clamp i 1 (clen L) <= clen L) by (rewrite clamp_minmax; lia).
  assert (Hb : 1 <= clamp j 1 (clen L) <= clen L) by (rewrite clamp_minmax; lia).
  set (a := clamp i 1 (clen L)) in *. set (b := clamp j 1 (clen L)) in *.
  destruct (b <? a) eqn:BA; [exact I|].
  destruct (range_split L a b) as (c1 & m & x & c3 & -> & Hc1 & Hm & ->); try lia.
  apply tchars_app in T as T'. destruct T' as [T1 Tmx]. apply tchars_app in Tmx as Tmx'.
  destruct Tmx' as [Tm Tx]. apply tchars_cons in Tx. destruct Tx as [Hx T3].
  (* the two loops *)
  unfold slice_fuel, clen in *. rewrite app_length in *.
  rewrite (slice_walk_E [] (length c1) [] (c1 ++ m ++ x :: c3)) by (trivial; unfold clen; rewrite ?app_length; cbn [length]; lia).
  cbn [bind app]. rewrite firstn_app_l, E_app, <- app_assoc.
  rewrite (slice_walk_E [] (length m) c1 (m ++ x :: c3)) by (trivial; unfold clen; rewrite ?app_length; cbn [length]; lia).
  cbn [bind]. rewrite firstn_app_l.
  (* the last character and the copy *)
  replace (E c1 ++ E (m ++ x :: c3) ++ [0]) with (E (c1 ++ m) ++ E (x :: c3) ++ [0]) at 1
    by (rewrite !E_app, <- !app_assoc; reflexivity).
  rewrite ptr_at by reflexivity. cbn [bind].
  rewrite num_bytes_E by exact Hx. cbn [bind].
  pose proof (cp_len_pos x) as Hcp. rewrite <- enc_len in *.
  set (l := E (m ++ [x])).
  assert (Hl : len (E (c1 ++ m)) - len (E c1) + 1 + len (utf8_enc x) = len l + 1)
    by (unfold l; rewrite !E_app, E_one; lens; lia).
  rewrite Hl. replace (len l + 1 - 1) with (len l) by lia.
  apply rres_eq with (r' := Ok (cstr l)).
  2:{ apply repr_cstr; [|destruct m; discriminate].
      apply tchars_app. split; [exact Tm|]. apply tchars_cons. split; [exact Hx|reflexivity]. }
  replace (E c1 ++ E (m ++ x :: c3) ++ [0]) with (E c1 ++ l ++ E c3 ++ [0])
    by (unfold l; rewrite !E_app, E_one, E_cons, <- !app_assoc; reflexivity).
  pose proof (len_nonneg l). clearbody l.
  rewrite sub_at by (rewrite ?E_app; lens; lia). cbn [bind].
  rewrite blit_fresh0 by lia. cbn [bind]. rewrite blit_fresh by (lens; lia). cbn [bind].
  replace (len l + 1 - len l - len [0]) with 0 by (lens; lia). change (alloc 0) with (@nil Z). rewrite app_nil_r. reflexivity.
Qed.
