(* Proofs about the ledger checker: balancedb decides balanced; consequences of balanced. *)
From Coq Require Import List NArith Bool Lia.
Import ListNotations.
From DDP Require Import Rt.Heap.
Open Scope N_scope.

Definition repr (a : aheap) (h : hmap) : Prop :=
  NoDup (map fst a) /\ forall p, alook a p = h p.

Lemma repr_empty : repr [] hempty.
Proof. split; [constructor | reflexivity]. Qed.

Lemma alook_none : forall a p, alook a p = None <-> ~ In p (map fst a).
Proof.
  induction a as [|[q m] a IH]; intro p; cbn [alook map fst In].
  - tauto.
  - destruct (N.eqb_spec q p) as [E|E]; [split; [discriminate | intro H; destruct (H (or_introl E))]|].
    rewrite IH. tauto.
Qed.

Lemma alook_notin : forall a p, ~ In p (map fst a) -> alook a p = None.
Proof. intros a p. apply alook_none. Qed.

Lemma adel_keys : forall a p, map fst (adel a p) = filter (fun q => negb (N.eqb q p)) (map fst a).
Proof.
  induction a as [|[r m] a IH]; intro p; cbn [adel map fst filter]; [reflexivity|].
  destruct (N.eqb r p); cbn [negb map fst]; rewrite IH; reflexivity.
Qed.

Lemma alook_adel : forall a p q, alook (adel a p) q = if N.eqb q p then None else alook a q.
Proof.
  induction a as [|[r m] a IH]; cbn [adel alook]; intros p q.
  - destruct (N.eqb q p); reflexivity.
  - destruct (N.eqb_spec r p) as [E|E].
    + rewrite IH. destruct (N.eqb_spec q p) as [E2|E2]; [reflexivity|].
      destruct (N.eqb_spec r q) as [E3|E3]; [congruence | reflexivity].
    + cbn [alook]. destruct (N.eqb_spec r q) as [E3|E3].
      * destruct (N.eqb_spec q p) as [E2|E2]; [congruence | reflexivity].
      * apply IH.
Qed.

Lemma repr_del : forall a h p, repr a h -> repr (adel a p) (hset h p None).
Proof.
  intros a h p [Hn Hl]. split.
  - rewrite adel_keys. apply NoDup_filter, Hn.
  - intro q. rewrite alook_adel. unfold hset. destruct (N.eqb q p); [reflexivity | apply Hl].
Qed.

Lemma repr_add : forall a h r n, repr a h -> h r = None -> repr ((r, n) :: a) (hset h r (Some n)).
Proof.
  intros a h r n [Hn Hl] Hr. split.
  - cbn [map fst]. constructor; [|exact Hn]. apply alook_none. rewrite Hl. exact Hr.
  - intro q. cbn [alook]. unfold hset. rewrite (N.eqb_sym q r).
    destruct (N.eqb r q); [reflexivity | apply Hl].
Qed.

(* no rule of the specification applies: every rule contradicts what the checker has just tested *)
Local Ltac no_step := let S := fresh "S" in intros ? S; inversion S; subst; congruence.

(* The checker accepts an event exactly when the specification has a step, and the results stay related.  One walk
   through the decisions of astep: at an accepting leaf the matching rule, at a rejecting leaf no rule. *)
Lemma astep_spec : forall a h e, repr a h ->
  match astep a e with
  | inl a' => exists h', step h e h' /\ repr a' h'
  | inr _ => forall h', ~ step h e h'
  end.
Proof.
  intros a h [p o n r] R. pose proof R as [Rn Rl]. pose proof (repr_del a h p R) as [_ Rdl]. cbn [astep].
  destruct (N.eqb_spec p 0) as [Ep|Ep].
  - subst p. destruct (N.eqb_spec o 0) as [Eo|Eo]; cbn [negb]; [subst o | no_step].
    destruct (N.eqb_spec n 0) as [En|En].
    + subst n. destruct (N.eqb_spec r 0) as [Er|Er]; [subst r | no_step].
      exists h. split; [constructor | exact R].
    + destruct (N.eqb_spec r 0) as [Er|Er]; [no_step|].
      destruct (alook a r) eqn:El; rewrite Rl in El; [no_step|].
      exists (hset h r (Some n)). split; [apply step_alloc | apply repr_add]; assumption.
  - destruct (alook a p) as [s|] eqn:El; rewrite Rl in El; [|no_step].
    destruct (N.eqb_spec s o) as [Es|Es]; cbn [negb]; [subst s | no_step].
    destruct (N.eqb_spec n 0) as [En|En].
    + subst n. destruct (N.eqb_spec r 0) as [Er|Er]; [subst r | no_step].
      exists (hset h p None). split; [apply step_free; assumption | apply repr_del; exact R].
    + destruct (N.eqb_spec o n) as [Eon|Eon].
      * subst o. destruct (N.eqb_spec r p) as [Er|Er]; [subst r | no_step].
        exists h. split; [apply step_same; assumption | exact R].
      * destruct (N.eqb_spec r 0) as [Er|Er]; [no_step|].
        destruct (alook (adel a p) r) eqn:El2; rewrite Rdl in El2; [no_step|].
        exists (hset (hset h p None) r (Some n)). split; [apply step_realloc; assumption|].
        apply repr_add; [apply repr_del; exact R | exact El2].
Qed.

Lemma step_det : forall h e h1 h2, step h e h1 -> step h e h2 -> h1 = h2.
Proof. intros h e h1 h2 S1 S2. inversion S1; subst; inversion S2; subst; congruence. Qed.

Lemma astep_sound : forall a h e a', repr a h -> astep a e = inl a' -> exists h', step h e h' /\ repr a' h'.
Proof. intros a h e a' R H. pose proof (astep_spec a h e R) as Sp. rewrite H in Sp. exact Sp. Qed.

Lemma astep_complete : forall a h e h', repr a h -> step h e h' -> exists a', astep a e = inl a' /\ repr a' h'.
Proof.
  intros a h e h' R S. pose proof (astep_spec a h e R) as Sp. destruct (astep a e) as [a'|why]; [|destruct (Sp h' S)].
  destruct Sp as [h1 [S1 R1]]. exists a'. split; [reflexivity|]. rewrite (step_det _ _ _ _ S S1). exact R1.
Qed.

Lemma steps_snoc : forall L h h1 e h2, steps h L h1 -> step h1 e h2 -> steps h (L ++ [e]) h2.
Proof.
  induction L as [|x L IH]; intros h h1 e h2 S1 S2; inversion S1; subst; cbn [app].
  - econstructor; [exact S2 | constructor].
  - econstructor; [eassumption | eapply IH; eassumption].
Qed.

Lemma areplay_sound : forall L a h i, repr a h -> areplay a i L = Balanced ->
  exists h', steps h L h' /\ forall p, h' p = None.
Proof.
  induction L as [|e L IH]; intros a h i R H; cbn [areplay] in H.
  - destruct a as [|x a]; [|discriminate H]. exists h. split; [constructor|].
    intro p. destruct R as [_ Rl]. rewrite <- Rl. reflexivity.
  - destruct (astep a e) as [a'|why] eqn:E; [|discriminate H].
    destruct (astep_sound _ _ _ _ R E) as [h1 [S1 R1]].
    destruct (IH _ _ _ R1 H) as [h2 [S2 Hall]].
    exists h2. split; [econstructor; eassumption | exact Hall].
Qed.

Lemma areplay_complete : forall L a h i h', repr a h -> steps h L h' -> (forall p, h' p = None) ->
  areplay a i L = Balanced.
Proof.
  induction L as [|e L IH]; intros a h i h' R S Hall; cbn [areplay].
  - inversion S; subst. destruct a as [|[q n] a]; [reflexivity|].
    destruct R as [_ Rl]. specialize (Rl q). cbn [alook] in Rl. rewrite N.eqb_refl in Rl.
    rewrite Hall in Rl. discriminate Rl.
  - inversion S as [|h0 e0 h1 L0 h2 S1 S2]; subst.
    destruct (astep_complete _ _ _ _ R S1) as [a' [E R1]]. rewrite E.
    eapply IH; eassumption.
Qed.

Theorem balancedb_correct : forall L, balancedb L = true <-> balanced L.
Proof.
  intro L. unfold balancedb, check_ledger, balanced. split.
  - intro H. destruct (areplay [] 0 L) eqn:E; try discriminate H.
    eapply areplay_sound; [apply repr_empty | exact E].
  - intros [h [S Hall]]. erewrite areplay_complete; [reflexivity | apply repr_empty | exact S | exact Hall].
Qed.

(* "released exactly once": along a balanced ledger every block is created exactly as often as it
   is consumed; more precisely, at every point (#creations - #consumptions) of p is 1 if p is live
   and 0 otherwise. *)
Definition live01 (h : hmap) (p : N) : nat := match h p with Some _ => 1%nat | None => 0%nat end.

Lemma live01_hset : forall h q v p,
  live01 (hset h q v) p = if N.eqb p q then (match v with Some _ => 1 | None => 0 end)%nat else live01 h p.
Proof. intros. unfold live01, hset. destruct (N.eqb p q); reflexivity. Qed.

Lemma live01_some : forall h p n, h p = Some n -> live01 h p = 1%nat.
Proof. intros h p n H. unfold live01. rewrite H. reflexivity. Qed.
Lemma live01_none : forall h p, h p = None -> live01 h p = 0%nat.
Proof. intros h p H. unfold live01. rewrite H. reflexivity. Qed.

Lemma hset_pos : forall h q v, (forall p n, h p = Some n -> n <> 0) -> (forall n, v = Some n -> n <> 0) ->
  forall p n, hset h q v p = Some n -> n <> 0.
Proof. intros h q v Hpos Hv p n. unfold hset. destruct (N.eqb p q); [apply Hv | apply Hpos]. Qed.

Lemma step_counts : forall h e h' p, p <> 0 -> (forall q n, h q = Some n -> n <> 0) -> step h e h' ->
  (live01 h p + (if creates p e then 1 else 0) = live01 h' p + (if consumes p e then 1 else 0))%nat
  /\ (forall q n, h' q = Some n -> n <> 0).
Proof.
  intros h e h' p Hp Hpos S.
  destruct S as [h|h q n Hq Hl|h q n Hq Hn Hl|h n r Hn Hr Hl|h q o n r Hq Hl Hon Hn Hr Hl2];
    unfold creates, consumes; cbn [e_res e_new e_old e_ptr]; rewrite ?live01_hset.
  - split; [|exact Hpos]. rewrite N.eqb_refl, !andb_false_r. reflexivity.
  - split; [|apply (hset_pos _ _ _ Hpos); discriminate]. pose proof (Hpos _ _ Hl) as Hn0.
    rewrite (proj2 (N.eqb_neq 0 p)), (proj2 (N.eqb_neq n 0)), (N.eqb_sym q p) by auto.
    destruct (N.eqb_spec p q) as [E|E]; cbn [andb negb]; [subst q; rewrite (live01_some _ _ _ Hl)|]; lia.
  - split; [|exact Hpos]. rewrite N.eqb_refl, !andb_false_r. reflexivity.
  - split; [|apply (hset_pos _ _ _ Hpos); intros m [= <-]; exact Hn].
    rewrite (proj2 (N.eqb_neq 0 p)), (proj2 (N.eqb_neq 0 n)), (proj2 (N.eqb_neq n 0)), (N.eqb_sym r p) by auto.
    destruct (N.eqb_spec p r) as [E|E]; cbn [andb negb]; [subst r; rewrite (live01_none _ _ Hl)|]; lia.
  - split; [|apply hset_pos; [apply (hset_pos _ _ _ Hpos); discriminate | intros m [= <-]; exact Hn]].
    rewrite (proj2 (N.eqb_neq n 0)), (proj2 (N.eqb_neq o n)), (N.eqb_sym r p), (N.eqb_sym q p) by auto.
    unfold hset in Hl2.
    destruct (N.eqb_spec p r) as [E1|E1]; destruct (N.eqb_spec p q) as [E2|E2]; cbn [andb negb]; subst; rewrite ?(live01_some _ _ _ Hl); try lia.
    rewrite (proj2 (N.eqb_neq r q)) in Hl2 by auto. rewrite (live01_none _ _ Hl2). lia.
Qed.

Lemma steps_counts : forall L h h' p, p <> 0 -> (forall q n, h q = Some n -> n <> 0) -> steps h L h' ->
  (live01 h p + count (creates p) L = live01 h' p + count (consumes p) L)%nat.
Proof.
  induction L as [|e L IH]; intros h h' p Hp Hpos S.
  - inversion S; subst. unfold count. cbn. lia.
  - inversion S as [|h0 e0 h1 L0 h2 S1 S2]; subst.
    destruct (step_counts _ _ _ p Hp Hpos S1) as [C Hpos1].
    specialize (IH _ _ p Hp Hpos1 S2). unfold count in *. cbn [filter].
    destruct (creates p e); destruct (consumes p e); cbn [length]; lia.
Qed.

(* the checker reports the first event that no rule of the specification allows; on a balanced ledger there is none *)
Theorem balanced_no_bad_event : forall L, balanced L ->
  forall i e why, check_ledger L <> BadEvent i e why.
Proof.
  intros L HB i e why. apply balancedb_correct in HB. unfold balancedb in HB.
  destruct (check_ledger L); congruence.
Qed.
