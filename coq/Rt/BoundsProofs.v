(* Rt/BoundsProofs.v — the emitted bounds checks in closed form: inside the 64-bit range every check of
   Rt/Bounds.v is the test 1 <= i <= len followed by the plain list operation; the clamp is min/max. *)
From Coq Require Import List ZArith Bool Lia ZifyBool.
Import ListNotations.
From DDP Require Import Rt.Bounds.
Open Scope Z_scope.

Ltac i64 := unfold in_i64, two63 in *; lia.

Lemma wrap64_id z : in_i64 z -> wrap64 z = z.
Proof.
  unfold in_i64, wrap64, two63, two64. intros H.
  rewrite Z.mod_small by lia. lia.
Qed.

Lemma wrap64_range z : in_i64 (wrap64 z).
Proof.
  unfold in_i64, wrap64, two63, two64.
  pose proof (Z.mod_pos_bound (z + 9223372036854775808) 18446744073709551616 ltac:(lia)). lia.
Qed.

(* the emitted check accepts exactly 1..len, for every 64-bit index, including 0, negatives and
   INT64_MIN: there i - 1 wraps around to INT64_MAX, which is not < len *)
Lemma idx_ok_spec len i : 0 <= len < two63 -> in_i64 i -> idx_ok len i = (1 <=? i) && (i <=? len).
Proof.
  intros Hlen Hi. unfold idx_ok.
  destruct (Z.eq_dec i (- two63)) as [->|Hne].
  - change (wrap64 (- two63 - 1)) with (two63 - 1). i64.
  - rewrite wrap64_id by i64. lia.
Qed.

Lemma list_index_normal {A} (l : list A) i :
  Z.of_nat (length l) < two63 -> in_i64 i ->
  list_index l i = if (1 <=? i) && (i <=? Z.of_nat (length l)) then nth_error l (Z.to_nat (i - 1)) else None.
Proof.
  intros Hl Hi. unfold list_index. rewrite idx_ok_spec by (assumption || lia).
  destruct ((1 <=? i) && (i <=? Z.of_nat (length l))) eqn:G; [|reflexivity]. rewrite wrap64_id by i64. reflexivity.
Qed.

Lemma list_index_domain {A} (l : list A) i :
  Z.of_nat (length l) < two63 -> in_i64 i ->
  ((exists x, list_index l i = Some x) <-> 1 <= i <= Z.of_nat (length l)).
Proof.
  intros Hl Hi. rewrite list_index_normal by assumption.
  destruct ((1 <=? i) && (i <=? Z.of_nat (length l))) eqn:G.
  - split; [lia|intros _]. destruct (nth_error l (Z.to_nat (i - 1))) eqn:En; [eauto|].
    apply nth_error_None in En. lia.
  - split; [intros [x Hx]; discriminate Hx|lia].
Qed.

(* in the domain the selected element is the i-th one (1-based) *)
Lemma list_index_value {A} (l : list A) i :
  Z.of_nat (length l) < two63 -> 1 <= i <= Z.of_nat (length l) ->
  list_index l i = nth_error l (Z.to_nat (i - 1)).
Proof.
  intros Hl Hr. rewrite list_index_normal by (assumption || i64).
  replace ((1 <=? i) && (i <=? Z.of_nat (length l))) with true by lia. reflexivity.
Qed.

Lemma length_set_nth {A} (l : list A) n v : length (set_nth l n v) = length l.
Proof. revert n; induction l as [|x r IH]; intros [|m]; cbn; auto. Qed.

Lemma nth_set_nth {A} (l : list A) n v k :
  (n < length l)%nat -> nth_error (set_nth l n v) k = if Nat.eqb k n then Some v else nth_error l k.
Proof.
  revert n k; induction l as [|x r IH]; intros [|m] [|k] H; cbn in *; try lia; try reflexivity.
  apply IH. lia.
Qed.

Lemma list_store_normal {A} (l : list A) i v :
  Z.of_nat (length l) < two63 -> in_i64 i ->
  list_store l i v =
  if (1 <=? i) && (i <=? Z.of_nat (length l)) then Some (set_nth l (Z.to_nat (i - 1)) v) else None.
Proof.
  intros Hl Hi. unfold list_store. rewrite idx_ok_spec by (assumption || lia).
  destruct ((1 <=? i) && (i <=? Z.of_nat (length l))) eqn:G; [|reflexivity]. rewrite wrap64_id by i64. reflexivity.
Qed.

Lemma clampZ_minmax v lo hi : clampZ v lo hi = Z.min hi (Z.max lo v).
Proof. unfold clampZ. destruct (v <? lo) eqn:E1; [destruct (lo >? hi) eqn:E2|destruct (v >? hi) eqn:E2]; lia. Qed.
Lemma clampZ_range v lo hi : lo <= hi -> lo <= clampZ v lo hi <= hi.
Proof. rewrite clampZ_minmax. lia. Qed.
Lemma clampZ_in v lo hi : lo <= v <= hi -> clampZ v lo hi = v.
Proof. rewrite clampZ_minmax. lia. Qed.

(* on a non-empty list: both bounds clamped into 1..len, crossed bounds are an error, otherwise the
   elements at positions a..b; neither the three wrapped subtractions nor the wrapped addition leave the 64-bit range *)
Lemma list_slice_clamped {A} (l : list A) i1 i2 :
  let len := Z.of_nat (length l) in
  let a := clampZ i1 1 len in
  let b := clampZ i2 1 len in
  0 < len < two63 ->
  list_slice l i1 i2 =
  if b <? a then SliceError else SliceOk (firstn (Z.to_nat (b - a + 1)) (skipn (Z.to_nat (a - 1)) l)).
Proof.
  intros len a b Hl. unfold list_slice. fold len a b. replace (len <=? 0) with false by lia.
  destruct (b <? a) eqn:E1; [reflexivity|].
  pose proof (clampZ_range i1 1 len ltac:(lia)) as Ha. pose proof (clampZ_range i2 1 len ltac:(lia)) as Hb. fold a b in Ha, Hb.
  rewrite (wrap64_id (a - 1)), (wrap64_id (b - 1)) by i64.
  rewrite (wrap64_id (b - 1 - (a - 1))) by i64. rewrite (wrap64_id (b - 1 - (a - 1) + 1)) by i64.
  replace (b - 1 - (a - 1) + 1) with (b - a + 1) by lia. reflexivity.
Qed.

(* Text index / replace: Some exactly on 1..len.  cap >= len + 1 is C12's well-formedness (cap = bytes + 1
   and every code point has >= 1 byte); the empty Text is {NULL,0} or an owned "\\0" of capacity 1
   (Props/C12.v, C12_two_empty_texts), hence 0 <= cap <= 1 for it. *)
Lemma text_cap_guard cap (cps : list Z) i :
  (cps <> [] -> Z.of_nat (length cps) + 1 <= cap) -> (cps = [] -> 0 <= cap <= 1) ->
  (i <? 1) = false -> (i >? cap) || (cap <=? 1) = true -> (i <=? Z.of_nat (length cps)) = false.
Proof.
  intros Hcap Hemp. destruct cps as [|c0 r]; [specialize (Hemp eq_refl)|specialize (Hcap ltac:(discriminate))];
    cbn [length] in *; lia.
Qed.

Lemma text_index_normal cap cps i :
  (cps <> [] -> Z.of_nat (length cps) + 1 <= cap) -> (cps = [] -> 0 <= cap <= 1) ->
  text_index cap cps i =
  if (1 <=? i) && (i <=? Z.of_nat (length cps)) then nth_error cps (Z.to_nat (i - 1)) else None.
Proof.
  intros Hcap Hemp. unfold text_index.
  destruct (i <? 1) eqn:E1; [replace (1 <=? i) with false by lia; reflexivity|].
  destruct ((i >? cap) || (cap <=? 1)) eqn:E2; [rewrite (text_cap_guard cap cps i), andb_false_r by assumption; reflexivity|].
  destruct ((1 <=? i) && (i <=? Z.of_nat (length cps))) eqn:G; [reflexivity|]. apply nth_error_None. lia.
Qed.

Lemma text_replace_normal cap cps i c :
  (cps <> [] -> Z.of_nat (length cps) + 1 <= cap) -> (cps = [] -> 0 <= cap <= 1) ->
  text_replace cap cps i c =
  if (1 <=? i) && (i <=? Z.of_nat (length cps)) then Some (set_nth cps (Z.to_nat (i - 1)) c) else None.
Proof.
  intros Hcap Hemp. unfold text_replace.
  destruct (i <? 1) eqn:E1; [replace (1 <=? i) with false by lia; reflexivity|].
  destruct ((i >? cap) || (cap <=? 1)) eqn:E2; [rewrite (text_cap_guard cap cps i), andb_false_r by assumption; reflexivity|].
  replace (Z.to_nat (i - 1) <? length cps)%nat with ((1 <=? i) && (i <=? Z.of_nat (length cps))) by lia. reflexivity.
Qed.

Lemma text_index_domain cap cps i :
  (cps <> [] -> Z.of_nat (length cps) + 1 <= cap) -> (cps = [] -> 0 <= cap <= 1) ->
  ((exists c, text_index cap cps i = Some c) <-> 1 <= i <= Z.of_nat (length cps)).
Proof.
  intros Hcap Hemp. rewrite text_index_normal by assumption.
  destruct ((1 <=? i) && (i <=? Z.of_nat (length cps))) eqn:G.
  - split; [lia|intros _]. destruct (nth_error cps (Z.to_nat (i - 1))) eqn:En; [eauto|].
    apply nth_error_None in En. lia.
  - split; [intros [c Hc]; discriminate Hc|lia].
Qed.

Lemma text_replace_domain cap cps i c :
  (cps <> [] -> Z.of_nat (length cps) + 1 <= cap) -> (cps = [] -> 0 <= cap <= 1) ->
  ((exists r, text_replace cap cps i c = Some r) <-> 1 <= i <= Z.of_nat (length cps)).
Proof.
  intros Hcap Hemp. rewrite text_replace_normal by assumption.
  destruct ((1 <=? i) && (i <=? Z.of_nat (length cps))) eqn:G.
  - split; [lia|eauto].
  - split; [intros [r Hr]; discriminate Hr|lia].
Qed.

Lemma any_cast_domain {V} held target (v : V) :
  (any_cast held target v = None <-> held <> target) /\ (held = target -> any_cast held target v = Some v).
Proof.
  unfold any_cast. destruct (held =? target) eqn:E.
  - apply Z.eqb_eq in E. split; [split; [discriminate|congruence]|reflexivity].
  - apply Z.eqb_neq in E. split; [split; [auto|reflexivity]|congruence].
Qed.

Lemma todo_stops : todo_stmt = Laufzeitfehler 1.
Proof. reflexivity. Qed.

Example idx_examples :
  idx_ok 3 1 = true /\ idx_ok 3 3 = true /\ idx_ok 3 0 = false /\ idx_ok 3 4 = false /\
  idx_ok 3 (-1) = false /\ idx_ok 3 (- two63) = false /\ idx_ok 0 1 = false /\ idx_ok 3 (two63 - 1) = false.
Proof. vm_compute. repeat split. Qed.
Example slice_examples :
  list_slice [10; 20; 30] 0 2 = SliceOk [10; 20] /\ list_slice [10; 20; 30] 2 99 = SliceOk [20; 30] /\
  list_slice [10; 20; 30] 3 2 = SliceError /\ list_slice (@nil Z) 3 2 = SliceOk [] /\
  list_slice [10; 20; 30] (-5) (-4) = SliceOk [10] /\ list_slice [10; 20; 30] 7 9 = SliceOk [30].
Proof. vm_compute. repeat split. Qed.
