(* Rt/StrHistory.v — the abstraction function, the simulation of one operation and
   its lifting to histories, the concrete codec. *)
From Coq Require Import List ZArith Bool Lia ZifyBool.
Import ListNotations.
From DDP Require Import Rt.Str Rt.StrSpec Rt.StrBase Rt.StrUtf8 Rt.StrOps Rt.StrOps2.
Open Scope Z_scope.

(* the codec assumptions: standard UTF-8 on every Unicode scalar value *)
Definition codec_ok (enc : Z -> option (list Z)) (dec : list Z -> option Z) : Prop :=
  (forall c, scalarb c = true -> enc c = Some (utf8_enc c)) /\
  (forall c, scalarb c = true -> dec (utf8_enc c) = Some c).

Lemma codec_dec_tchar enc dec : codec_ok enc dec -> forall c, tchar c = true -> dec (utf8_enc c) = Some c.
Proof. intros C c H. apply (proj2 C), tchar_scalar, H. Qed.

Lemma glibc_codec_ok : codec_ok glibc_enc glibc_dec.
Proof. split; [exact glibc_enc_scalar|exact glibc_dec_enc]. Qed.

Lemma repr_cps s cs : repr s cs -> cps s = Some cs.
Proof.
  revert s cs. apply repr_case; [reflexivity|reflexivity|]. intros c cs Hc Tcs.
  assert (T : tchars (c :: cs)) by (apply tchars_cons; split; assumption).
  unfold cps. rewrite is_null_cstr. cbn [cstr bytes]. rewrite c_string_nz by (apply E_bytes, T). apply decode_E, T.
Qed.
Lemma repr_wf_cps s cs : repr s cs <-> wf s /\ cps s = Some cs.
Proof.
  split.
  - intros H. split; [exists cs; exact H|apply repr_cps, H].
  - intros [[cs' H'] Hc]. rewrite (repr_cps _ _ H') in Hc. injection Hc as <-. exact H'.
Qed.
Lemma repr_fun s cs1 cs2 : repr s cs1 -> repr s cs2 -> cs1 = cs2.
Proof. intros H1 H2. apply repr_cps in H1, H2. congruence. Qed.
(* what well-formedness means for the capacity: exactly the C string length plus one *)
Lemma wf_strlen s : wf s -> is_null s = false -> c_strlen (bytes s) = Ok (cap s - 1).
Proof.
  intros [cs H]. revert s cs H.
  apply (repr_case (fun s _ => is_null s = false -> c_strlen (bytes s) = Ok (cap s - 1))); [discriminate|reflexivity|].
  intros c cs Hc Tcs _.
  cbn [cstr bytes cap]. rewrite c_strlen_nz by (apply E_bytes, tchars_cons; split; assumption). f_equal. lia.
Qed.

Definition srel (st : list ddpstring) (sst : list (list Z)) : Prop := Forall2 repr st sst.

Lemma reg_rel st sst r : srel st sst -> repr (reg st r) (sreg sst r).
Proof.
  intros H. revert r. induction H as [|s cs st sst Hs Hst IH]; intros r.
  - destruct r; apply repr_empty.
  - destruct r as [|r]; [exact Hs|apply IH].
Qed.
Lemma upd_rel st sst r v cs : srel st sst -> repr v cs -> srel (upd st r v) (upd sst r cs).
Proof.
  intros H Hv. revert r. induction H as [|s cs0 st sst Hs Hst IH]; intros r; [constructor|].
  destruct r as [|r]; cbn [upd]; constructor; auto. apply IH.
Qed.
Lemma init_rel : srel init_state sinit.
Proof. repeat constructor; apply repr_empty. Qed.

Definition step_rel (r : res (list ddpstring * obs)) (e : res (list (list Z) * obs)) : Prop :=
  match r, e with
  | Ok (st', v), Ok (sst', v') => srel st' sst' /\ v = v'
  | Err, Err => True
  | _, _ => False
  end.

Definition text_guard (st : list (list Z)) (o : op) : bool := in_text o.

Section WithCodec.
  Variable enc : Z -> option (list Z).
  Variable dec : list Z -> option Z.
  Hypothesis codec : codec_ok enc dec.

  Let enc_ok : forall c, scalarb c = true -> enc c = Some (utf8_enc c).
  Proof. exact (proj1 codec). Qed.
  Let dec_ok : forall c, tchar c = true -> dec (utf8_enc c) = Some c.
  Proof. exact (codec_dec_tchar enc dec codec). Qed.

  Lemma producer_step st sst r x e : srel st sst -> rres x e ->
    step_rel (v <- x ;; Ok (upd st r v, VNone)) (v <- e ;; Ok (upd sst r v, VNone)).
  Proof.
    intros Hrel R. destruct x, e; cbn [rres] in R; try contradiction; cbn [bind step_rel]; [|exact I].
    split; [apply upd_rel; assumption|reflexivity].
  Qed.

  Lemma step_refines st sst o :
    srel st sst -> text_guard sst o = true -> step_rel (step enc dec st o) (sstep sst o).
  Proof.
    intros Hrel Gt. unfold text_guard in Gt.
    destruct o as [r bs|r a|r a b|r a c|r c a|r a i j|r c|r c i|r|a i|a|a b|a|a]; cbn [step sstep in_text] in *.
    - destruct (decode bs) as [cs|] eqn:D; [|discriminate Gt]. apply decode_sound in D. destruct D as [-> T].
      exact (producer_step st sst r _ (Ok cs) Hrel (from_constant_repr cs T)).
    - rewrite (deep_copy_repr _ _ (reg_rel _ _ a Hrel)).
      exact (producer_step st sst r (Ok (reg st a)) (Ok (sreg sst a)) Hrel (reg_rel _ _ a Hrel)).
    - rewrite (deep_copy_repr _ _ (reg_rel _ _ a Hrel)). cbn [bind].   (* the operand is copied first *)
      exact (producer_step st sst r _ (Ok _) Hrel (string_string_verkettet_repr _ _ _ _ (reg_rel _ _ a Hrel) (reg_rel _ _ b Hrel))).
    - rewrite (deep_copy_repr _ _ (reg_rel _ _ a Hrel)). cbn [bind].   (* the operand is copied first *)
      exact (producer_step st sst r _ (Ok _) Hrel (string_char_verkettet_all enc enc_ok _ _ c (reg_rel _ _ a Hrel))).
    - rewrite (deep_copy_repr _ _ (reg_rel _ _ a Hrel)). cbn [bind].   (* the operand is copied first *)
      exact (producer_step st sst r _ (Ok _) Hrel (char_string_verkettet_all enc enc_ok c _ _ (reg_rel _ _ a Hrel))).
    - exact (producer_step st sst r _ _ Hrel (string_slice_repr _ _ i j (reg_rel _ _ a Hrel))).
    - exact (producer_step st sst r _ (Ok _) Hrel (char_to_string_all enc enc_ok c)).
    - exact (producer_step st sst r _ _ Hrel (replace_char_all enc enc_ok _ _ c i (reg_rel _ _ r Hrel))).
    - exact (producer_step st sst r (Ok owned_empty) (Ok []) Hrel repr_owned_empty).
    - rewrite (string_index_repr dec dec_ok _ _ i (reg_rel _ _ a Hrel)).
      unfold s_index. destruct ((1 <=? i) && (i <=? clen (sreg sst a))); cbn [bind step_rel]; auto.
    - rewrite (string_length_repr _ _ (reg_rel _ _ a Hrel)). cbn [bind step_rel]. auto.
    - rewrite (string_equal_repr _ _ _ _ _ (reg_rel _ _ a Hrel) (reg_rel _ _ b Hrel)).
      + cbn [bind step_rel]. auto.
      + intros E0. apply Nat.eqb_eq in E0. subst b. reflexivity.
    - rewrite (string_iterate_repr dec dec_ok _ _ (reg_rel _ _ a Hrel)). cbn [bind step_rel]. auto.
    - rewrite (print_text_repr _ _ (reg_rel _ _ a Hrel)). cbn [bind step_rel]. auto.
  Qed.

  Definition fin_rel (r : res (list ddpstring)) (e : res (list (list Z))) : Prop :=
    match r, e with
    | Ok st, Ok sst => srel st sst
    | Err, Err => True
    | _, _ => False
    end.

  Lemma history_refines ops : forall st sst,
    srel st sst -> along text_guard sst ops = true ->
    fst (run enc dec st ops) = fst (srun sst ops) /\ fin_rel (snd (run enc dec st ops)) (snd (srun sst ops)).
  Proof.
    induction ops as [|o ops IH]; intros st sst Hrel G.
    - cbn. auto.
    - cbn [along] in G. apply andb_true_iff in G. destruct G as [Go Grest].
      pose proof (step_refines st sst o Hrel Go) as S. cbn [run srun].
      destruct (step enc dec st o) as [[st' v]| | | |], (sstep sst o) as [[sst' v']| | | |];
        cbn [step_rel] in S; try contradiction; try (cbn; auto; fail).
      destruct S as [Hrel' <-]. specialize (IH st' sst' Hrel' Grest).
      destruct (run enc dec st' ops) as [vs fin], (srun sst' ops) as [vs' fin']. cbn [fst snd] in *.
      destruct IH as [-> Hf]. auto.
  Qed.
End WithCodec.

Lemma srel_wf st sst : srel st sst -> Forall wf st.
Proof. induction 1 as [|s cs st sst H _ IH]; constructor; [exists cs; exact H|exact IH]. Qed.
