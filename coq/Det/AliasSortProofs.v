(* C16 — parser.sortAliases (Det/AliasSort.v) *)
From Coq Require Import List Bool NArith Lia Permutation.
Import ListNotations.
From DDP Require Import Det.SortingProofs Det.AliasSort.

Lemma alias_less_spec : forall a b, alias_less a b = true <->
  (c_len b < c_len a \/ (c_len a = c_len b /\ (c_gen a < c_gen b \/ (c_gen a = c_gen b /\ c_refs b < c_refs a))))%N.
Proof.
  intros a b. unfold alias_less.
  destruct (N.eqb_spec (c_len a) (c_len b)) as [El|Nl]; cbn [negb].
  - destruct (N.eqb_spec (c_gen a) (c_gen b)) as [Eg|Ng]; cbn [negb]; rewrite N.ltb_lt; lia.
  - rewrite N.ltb_lt. lia.
Qed.

Lemma alias_less_false : forall a b, alias_less a b = false <->
  ~ (c_len b < c_len a \/ (c_len a = c_len b /\ (c_gen a < c_gen b \/ (c_gen a = c_gen b /\ c_refs b < c_refs a))))%N.
Proof. intros a b. rewrite <- alias_less_spec. symmetry. apply not_true_iff_false. Qed.

Lemma alias_asym : asym alias_less.
Proof. intros a b H. apply alias_less_spec in H. apply alias_less_false. lia. Qed.

Lemma alias_negtrans : negtrans alias_less.
Proof. intros a b c H1 H2. apply alias_less_false in H1, H2. apply alias_less_false. lia. Qed.

Lemma alias_tied : forall a b, same_rank a b = true -> alias_less a b = false.
Proof.
  intros a b H. unfold same_rank in H. apply andb_true_iff in H. destruct H as [H H3]. apply andb_true_iff in H. destruct H as [H1 H2].
  apply N.eqb_eq in H1, H2, H3. apply alias_less_false. lia.
Qed.

(* the ties of the comparator are exactly the equal (length, generics, references) triples *)
Lemma alias_incomparable : forall a b, alias_less a b = false -> alias_less b a = false -> same_rank a b = true.
Proof.
  intros a b H1 H2. apply alias_less_false in H1, H2. unfold same_rank.
  rewrite !andb_true_iff, !N.eqb_eq. lia.
Qed.

(* sortAliases: a sorted permutation of the trie-search result; up to 12 candidates, candidates of equal rank stay
   in trie-search order (so "the first maximal candidate that type-checks" is a function of the search result) *)
Theorem sort_aliases_spec : forall big l,
    (forall l0, Permutation l0 (big l0)) ->
    Permutation l (sort_aliases big l) /\
    (length l <= 12 -> sorted alias_less (sort_aliases big l) /\
       forall c, filter (same_rank c) (sort_aliases big l) = filter (same_rank c) l).
Proof.
  intros big l Hb. split; [apply go_sort_perm; exact Hb|].
  intros Hlen. unfold sort_aliases. rewrite (go_sort_small cand alias_less big l Hlen). split.
  - apply isort_sorted; [exact alias_asym|exact alias_negtrans].
  - intros c. apply isort_stable. intros x y Px Py. apply alias_tied.
    unfold same_rank in *. rewrite !andb_true_iff, !N.eqb_eq in *. intuition congruence.
Qed.
