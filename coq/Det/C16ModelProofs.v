(* C16 — the enumerations of Det/C16Model.v (what the check compares observed behaviour with) are the
   observations over all iteration orders. *)
From Coq Require Import List Permutation.
Import ListNotations.
From DDP Require Import Det.SortingProofs Det.Sites Det.SitesProofs Det.C16Model.

Theorem predict_import_spec : forall existing l o,
    In o (predict_import existing l) <-> exists l', Permutation l l' /\ o = import_site no_big existing l'.
Proof. intros existing l o. apply in_map_perms. Qed.

Theorem predict_call_spec : forall m o,
    In o (predict_call m) <-> exists mr mt, Permutation m mr /\ Permutation m mt /\ o = call_stmt mr mt.
Proof.
  intros m o. unfold predict_call. rewrite in_flat_map. split.
  - intros [mr [Hr Hin]]. apply in_map_perms in Hin. destruct Hin as [mt [Ht E]].
    exists mr, mt. split; [apply perms_spec; exact Hr|]. split; assumption.
  - intros [mr [mt [Hr [Ht E]]]]. exists mr. split; [apply perms_spec; exact Hr|].
    apply in_map_perms. exists mt. split; assumption.
Qed.

Theorem predict_unify_spec : forall m o,
    In o (predict_unify m) <-> exists m', Permutation m m' /\ o = unify_report m'.
Proof. intros m o. apply in_map_perms. Qed.

Theorem predict_call_fixed_singleton : forall params m o o',
    NoDup (map a_name m) -> In o (predict_call_fixed params m) -> In o' (predict_call_fixed params m) -> o = o'.
Proof.
  intros params m o o' Hnd H H'. unfold predict_call_fixed in *.
  apply in_flat_map in H. destruct H as [mr [Hr H]]. apply in_map_iff in H. destruct H as [mt [E Ht]].
  apply in_flat_map in H'. destruct H' as [mr' [Hr' H']]. apply in_map_iff in H'. destruct H' as [mt' [E' Ht']].
  subst o o'. apply perms_sound in Hr, Ht, Hr', Ht'.
  rewrite <- (call_stmt_fixed_invariant params m mr m mt Hnd Hnd Hr Ht).
  rewrite <- (call_stmt_fixed_invariant params m mr' m mt' Hnd Hnd Hr' Ht'). reflexivity.
Qed.

Theorem predict_import_fixed_singleton : forall existing l o o',
    length l <= 12 ->
    (forall a b, In a l -> In b l -> d_pos a = d_pos b -> a = b) ->
    In o (predict_import_fixed existing l) -> In o' (predict_import_fixed existing l) -> o = o'.
Proof.
  intros existing l o o' Hlen Hinj H H'.
  (* every order gives the observation of l itself: the slice is short, so Go sorts it by insertion *)
  assert (G : forall o1, In o1 (predict_import_fixed existing l) -> o1 = import_site_fixed no_big existing l).
  { intros o1 H1. apply in_map_perms in H1. destruct H1 as [l1 [Hp ->]].
    unfold import_site_fixed, imported_decls_fixed.
    rewrite !go_sort_small by (rewrite <- ?(Permutation_length Hp); exact Hlen). do 2 f_equal. symmetry.
    apply isort_invariant; [exact decl_lex_asym|exact decl_lex_negtrans|apply decl_lex_total_on, Hinj|exact Hp]. }
  rewrite (G o H), (G o' H'). reflexivity.
Qed.
