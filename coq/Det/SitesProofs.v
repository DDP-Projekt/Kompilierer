(* C16 — the lemmas and the refuting pairs of orders behind the site theorems of Props/C16.v. *)
From Coq Require Import List Bool NArith Lia Permutation.
Import ListNotations.
From DDP Require Import Det.Sorting Det.SortingProofs Det.Sites.

Lemma memN_In : forall x l, memN x l = true <-> In x l.
Proof.
  intros x l. unfold memN. rewrite existsb_exists. split.
  - intros [y [Hy He]]. apply N.eqb_eq in He. subst. exact Hy.
  - intros H. exists x. split; [exact H|apply N.eqb_refl].
Qed.

Lemma memN_perm : forall x l l', Permutation l l' -> memN x l = memN x l'.
Proof.
  intros x l l' Hp. destruct (memN x l) eqn:E1, (memN x l') eqn:E2; try reflexivity.
  - apply memN_In in E1. apply (Permutation_in _ Hp) in E1. apply memN_In in E1. congruence.
  - apply memN_In in E2. apply (Permutation_in _ (Permutation_sym Hp)) in E2. apply memN_In in E2. congruence.
Qed.

Lemma report_faulty_perm : forall ds ds', Permutation ds ds' -> snd (report ds) = snd (report ds').
Proof.
  intros ds ds' Hp. destruct ds as [|d ds], ds' as [|d' ds']; cbn; try reflexivity.
  - apply Permutation_nil in Hp. discriminate Hp.
  - apply Permutation_sym, Permutation_nil in Hp. discriminate Hp.
Qed.

Lemma report_delivered_in : forall ds d, fst (report ds) = Some d -> In d ds.
Proof. intros [|x ds] d H; cbn in H; [discriminate H|]. inversion H. left. reflexivity. Qed.

Lemma report_delivered_perm : forall ds ds' d, Permutation ds ds' -> fst (report ds') = Some d -> In d ds.
Proof.
  intros ds ds' d Hp H. apply report_delivered_in in H. apply (Permutation_in _ (Permutation_sym Hp)). exact H.
Qed.

Lemma filter_perm : forall A (f : A -> bool) l l', Permutation l l' -> Permutation (filter f l) (filter f l').
Proof.
  intros A f l l' Hp. induction Hp as [|x l l' Hp IH|x y l|l l' l'' Hp1 IH1 Hp2 IH2]; cbn [filter].
  - apply Permutation_refl.
  - destruct (f x); [apply perm_skip|]; exact IH.
  - destruct (f x), (f y); try apply Permutation_refl; apply perm_swap.
  - eapply Permutation_trans; eassumption.
Qed.

(* a flat_map in which at most one element contributes does not depend on the order *)
Lemma flat_map_perm_one : forall A B (f : A -> list B) l l',
    (forall a b, In a l -> In b l -> f a <> [] -> f b <> [] -> a = b) ->
    Permutation l l' -> flat_map f l = flat_map f l'.
Proof.
  intros A B f l l' H Hp. induction Hp as [|x l l' Hp IH|x y l|l l' l'' Hp1 IH1 Hp2 IH2].
  - reflexivity.
  - cbn [flat_map]. f_equal. apply IH. intros a b Ha Hb. apply H; right; assumption.
  - cbn [flat_map]. destruct (f x) as [|u fu] eqn:Ex; [reflexivity|].
    destruct (f y) as [|v fv] eqn:Ey; [reflexivity|].
    assert (y = x) as E.
    { apply H; [left; reflexivity|right; left; reflexivity| |]; congruence. }
    subst y. congruence.
  - rewrite IH1; [apply IH2|exact H].
    intros a b Ha Hb. apply H; apply (Permutation_in _ (Permutation_sym Hp1)); assumption.
Qed.

(* a left fold whose step commutes does not depend on the order *)
Lemma fold_perm : forall S X (f : S -> X -> S),
    (forall s a b, f (f s a) b = f (f s b) a) ->
    forall l l', Permutation l l' -> forall s, fold_left f l s = fold_left f l' s.
Proof.
  intros S X f Hc l l' Hp. induction Hp as [|x l l' Hp IH|x y l|l l' l'' Hp1 IH1 Hp2 IH2]; intros s; cbn [fold_left].
  - reflexivity.
  - apply IH.
  - rewrite Hc. reflexivity.
  - rewrite IH1. apply IH2.
Qed.

Definition dA := mkdecl 1 (mkpos 1 1) [].
Definition dB := mkdecl 2 (mkpos 1 51) [].
Definition dC := mkdecl 3 (mkpos 2 1) [].

Lemma import_site_refuted :
  exists existing l l', Permutation l l' /\ length l <= 12 /\
    forall big, import_site big existing l <> import_site big existing l'.
Proof.
  exists [2%N; 3%N], [dA; dB; dC], [dA; dC; dB]. split; [|split].
  - apply perm_skip. apply perm_swap.
  - cbn. lia.
  - intros big. vm_compute. intros H. discriminate H.
Qed.

(* the sorted sequence itself differs, not just the report *)
Lemma imported_decls_refuted :
  exists l l', Permutation l l' /\ forall big, imported_decls big l <> imported_decls big l'.
Proof.
  exists [dB; dC], [dC; dB]. split; [apply perm_swap|].
  intros big. vm_compute. intros H. discriminate H.
Qed.

Lemma import_diags_perm : forall existing ds ds', Permutation ds ds' ->
    Permutation (import_diags existing ds) (import_diags existing ds').
Proof.
  intros existing ds ds' Hp. unfold import_diags. apply Permutation_app.
  - apply Permutation_flat_map. exact Hp.
  - apply Permutation_map, filter_perm, Hp.
Qed.

Lemma decl_lex_asym : asym decl_lex_lt.
Proof. intros a b. apply lex_asym. Qed.

Lemma decl_lex_negtrans : negtrans decl_lex_lt.
Proof. intros a b c. apply lex_negtrans. Qed.

Lemma decl_lex_total_on : forall l,
    (forall a b, In a l -> In b l -> d_pos a = d_pos b -> a = b) -> total_on decl_lex_lt l.
Proof. intros l Hinj a b Ha Hb H1 H2. apply Hinj; [exact Ha|exact Hb|]. apply lex_total; assumption. Qed.

Lemma imported_decls_perm : forall big, (forall l, Permutation l (big l)) ->
    forall l l', Permutation l l' -> Permutation (imported_decls big l) (imported_decls big l').
Proof.
  intros big Hb l l' Hp. unfold imported_decls.
  eapply Permutation_trans; [apply Permutation_sym, go_sort_perm; exact Hb|].
  eapply Permutation_trans; [exact Hp|apply go_sort_perm; exact Hb].
Qed.

Definition argX := mkarg 1 [] [10%N].
Definition argY := mkarg 2 [] [20%N].
Definition argP := mkarg 1 [11%N] [].
Definition argQ := mkarg 2 [21%N] [].

Lemma check_call_args_refuted :
  exists m m', Permutation m m' /\ NoDup (map a_name m) /\ report (check_call_args m) <> report (check_call_args m').
Proof.
  exists [argX; argY], [argY; argX]. split; [apply perm_swap|]. split.
  - constructor; [intros [H|[]]; discriminate H|]. constructor; [intros []|constructor].
  - vm_compute. intros H. discriminate H.
Qed.

Lemma resolve_call_args_refuted :
  exists m m', Permutation m m' /\ NoDup (map a_name m) /\ report (resolve_call_args m) <> report (resolve_call_args m').
Proof.
  exists [argP; argQ], [argQ; argP]. split; [apply perm_swap|]. split.
  - constructor; [intros [H|[]]; discriminate H|]. constructor; [intros []|constructor].
  - vm_compute. intros H. discriminate H.
Qed.

Lemma call_stmt_refuted :
  exists m m', Permutation m m' /\ call_stmt m m <> call_stmt m' m'.
Proof.
  exists [argX; argY], [argY; argX]. split; [apply perm_swap|]. vm_compute. intros H. discriminate H.
Qed.

Lemma lookup_arg_perm : forall k m m', NoDup (map a_name m) -> Permutation m m' -> lookup_arg k m = lookup_arg k m'.
Proof.
  intros k m m' Hnd Hp. induction Hp as [|x l l' Hp IH|x y l|l l' l'' Hp1 IH1 Hp2 IH2]; cbn [lookup_arg].
  - reflexivity.
  - destruct (N.eqb k (a_name x)); [reflexivity|]. apply IH. inversion Hnd; assumption.
  - destruct (N.eqb_spec k (a_name x)) as [E1|N1], (N.eqb_spec k (a_name y)) as [E2|N2]; try reflexivity.
    exfalso. inversion Hnd as [|? ? Hni _]; subst. apply Hni. left. congruence.
  - rewrite IH1; [apply IH2|exact Hnd].
    apply (Permutation_NoDup (Permutation_map a_name Hp1)). exact Hnd.
Qed.

Theorem in_decl_order_invariant : forall params m m',
    NoDup (map a_name m) -> Permutation m m' -> in_decl_order params m = in_decl_order params m'.
Proof.
  intros params m m' Hnd Hp. unfold in_decl_order. induction params as [|p ps IH]; cbn [flat_map]; [reflexivity|].
  rewrite (lookup_arg_perm p m m' Hnd Hp), IH. reflexivity.
Qed.

Theorem call_stmt_fixed_invariant : forall params mr mr' mt mt',
    NoDup (map a_name mr) -> NoDup (map a_name mt) -> Permutation mr mr' -> Permutation mt mt' ->
    call_stmt_fixed params mr mt = call_stmt_fixed params mr' mt'.
Proof.
  intros params mr mr' mt mt' N1 N2 P1 P2. unfold call_stmt_fixed.
  rewrite (in_decl_order_invariant params mr mr' N1 P1), (in_decl_order_invariant params mt mt' N2 P2). reflexivity.
Qed.

Lemma unify_report_first_eq : forall m, unify_report_first m = fst (unify_report m).
Proof.
  induction m as [|[k b] m IH]; [reflexivity|]. unfold unify_report_first, unify_report in *. cbn [find filter snd negb].
  destruct b; cbn [negb]; [exact IH|reflexivity].
Qed.

Lemma nodup_keys_inj : forall (m : list (N * bool)) k b1 b2,
    NoDup (map fst m) -> In (k, b1) m -> In (k, b2) m -> (k, b1) = (k, b2).
Proof.
  induction m as [|[k0 b0] m IH]; intros k b1 b2 Hnd Ha Hb; [destruct Ha|].
  inversion Hnd as [|? ? Hni Hnd']; subst. cbn [map fst] in Hni.
  destruct Ha as [Ha|Ha], Hb as [Hb|Hb].
  - congruence.
  - inversion Ha; subst. exfalso. apply Hni. apply (in_map fst) in Hb. exact Hb.
  - inversion Hb; subst. exfalso. apply Hni. apply (in_map fst) in Ha. exact Ha.
  - apply IH; assumption.
Qed.

Lemma removeN_comm : forall a b h, removeN a (removeN b h) = removeN b (removeN a h).
Proof.
  intros a b h. unfold removeN. induction h as [|x h IH]; cbn [filter]; [reflexivity|].
  destruct (negb (N.eqb b x)) eqn:Eb, (negb (N.eqb a x)) eqn:Ea; cbn [filter]; rewrite ?Ea, ?Eb, IH; reflexivity.
Qed.

Lemma memN_removeN : forall a b h, a <> b -> memN a (removeN b h) = memN a h.
Proof.
  intros a b h Hne. unfold memN, removeN. induction h as [|x h IH]; cbn [filter existsb]; [reflexivity|].
  destruct (N.eqb_spec b x) as [E|Nx]; cbn [negb existsb].
  - subst x. rewrite IH. destruct (N.eqb_spec a b) as [E|_]; [contradiction|reflexivity].
  - rewrite IH. reflexivity.
Qed.

Lemma memN_removeN_same : forall a h, memN a (removeN a h) = false.
Proof.
  intros a h. unfold memN, removeN. induction h as [|x h IH]; cbn [filter existsb]; [reflexivity|].
  destruct (N.eqb_spec a x) as [E|Nx]; cbn [negb existsb]; [exact IH|].
  rewrite IH. destruct (N.eqb_spec a x); [contradiction|reflexivity].
Qed.

Lemma free1_comm : forall s a b, free1 (free1 s a) b = free1 (free1 s b) a.
Proof.
  intros [h|] a b; [|reflexivity]. cbn [free1].
  destruct (N.eq_dec a b) as [E|Hne]; [subst; reflexivity|].
  destruct (memN a h) eqn:Ea, (memN b h) eqn:Eb; cbn [free1].
  - rewrite (memN_removeN b a h), (memN_removeN a b h), Ea, Eb, removeN_comm by congruence. reflexivity.
  - rewrite (memN_removeN b a h), Eb by congruence. reflexivity.
  - rewrite (memN_removeN a b h), Ea by congruence. reflexivity.
  - reflexivity.
Qed.

Theorem run_frees_perm : forall bs bs' h, Permutation bs bs' -> run_frees bs h = run_frees bs' h.
Proof. intros bs bs' h Hp. unfold run_frees. apply fold_perm; [exact free1_comm|exact Hp]. Qed.

(* the emitted SEQUENCE of frees does depend on the order (IR text differs; not an observable) *)
Lemma scope_frees_sequence_differs : exists vars vars', Permutation vars vars' /\ scope_frees vars <> scope_frees vars'.
Proof.
  exists [mkvar [1%N] false; mkvar [2%N] false], [mkvar [2%N] false; mkvar [1%N] false].
  split; [apply perm_swap|]. vm_compute. intros H. discriminate H.
Qed.

Lemma nodupb_spec : forall l, nodupb l = true <-> NoDup l.
Proof.
  induction l as [|x l IH]; cbn [nodupb].
  - split; [intros _; constructor|reflexivity].
  - rewrite andb_true_iff, negb_true_iff, IH. split.
    + intros [H1 H2]. constructor; [|exact H2]. intros Hin. apply memN_In in Hin. congruence.
    + intros H. inversion H as [|? ? Hni Hnd]; subst. split; [|exact Hnd].
      destruct (memN x l) eqn:E; [|reflexivity]. apply memN_In in E. contradiction.
Qed.

Definition lib_files (deps : list dep) : list N :=
  flat_map (fun x => match x with Lib _ f => [f] | Obj _ => [] end) deps.
Definition lib_dirs (deps : list dep) : list N :=
  flat_map (fun x => match x with Lib d _ => [d] | Obj _ => [] end) deps.

Lemma add_lib_files : forall d f t, Permutation (flat_map snd (add_lib d f t)) (f :: flat_map snd t).
Proof.
  intros d f t; induction t as [|[d' fs] t IH]; cbn [add_lib flat_map snd app].
  - apply Permutation_refl.
  - destruct (N.eqb d d'); cbn [flat_map snd].
    + rewrite <- app_assoc. cbn [app]. apply Permutation_sym. apply Permutation_middle.
    + eapply Permutation_trans; [apply Permutation_app_head; exact IH|].
      apply Permutation_sym. apply Permutation_middle.
Qed.

Lemma add_lib_keys_in : forall d f t x, In x (map fst (add_lib d f t)) <-> x = d \/ In x (map fst t).
Proof.
  intros d f t x; induction t as [|[d' fs] t IH]; cbn [add_lib map fst In].
  - intuition congruence.
  - destruct (N.eqb_spec d d') as [E|Hne]; cbn [map fst In].
    + subst d'. intuition congruence.
    + rewrite IH. intuition congruence.
Qed.

Lemma add_lib_keys_nodup : forall d f t, NoDup (map fst t) -> NoDup (map fst (add_lib d f t)).
Proof.
  intros d f t; induction t as [|[d' fs] t IH]; intros Hnd; cbn [add_lib map fst].
  - constructor; [intros []|constructor].
  - inversion Hnd as [|? ? Hni Hnd']; subst. destruct (N.eqb_spec d d') as [E|Hne]; cbn [map fst].
    + constructor; assumption.
    + constructor; [|apply IH; exact Hnd'].
      intros Hin. apply add_lib_keys_in in Hin. destruct Hin as [Hin|Hin]; [congruence|contradiction].
Qed.

Definition gstep (t : list (N * list N)) (x : dep) : list (N * list N) :=
  match x with Lib d f => add_lib d f t | Obj _ => t end.

Lemma group_files_gen : forall deps t,
    Permutation (flat_map snd (fold_left gstep deps t)) (lib_files deps ++ flat_map snd t).
Proof.
  induction deps as [|x deps IH]; intros t; cbn [fold_left].
  - apply Permutation_refl.
  - eapply Permutation_trans; [apply IH|]. destruct x as [d f|p].
    + change (lib_files (Lib d f :: deps)) with (f :: lib_files deps). cbn [gstep].
      eapply Permutation_trans; [apply Permutation_app_head; apply add_lib_files|].
      apply Permutation_sym. apply Permutation_middle.
    + apply Permutation_refl.
Qed.

Lemma group_keys_gen : forall deps t, NoDup (map fst t) ->
    NoDup (map fst (fold_left gstep deps t)) /\
    forall x, In x (map fst (fold_left gstep deps t)) <-> In x (lib_dirs deps) \/ In x (map fst t).
Proof.
  induction deps as [|y deps IH]; intros t Hnd; cbn [fold_left].
  - split; [exact Hnd|]. intros x. cbn. tauto.
  - destruct y as [d f|p]; cbn [gstep].
    + destruct (IH (add_lib d f t) (add_lib_keys_nodup d f t Hnd)) as [H1 H2]. split; [exact H1|].
      intros x. rewrite H2, add_lib_keys_in.
      change (lib_dirs (Lib d f :: deps)) with (d :: lib_dirs deps). cbn [In]. intuition congruence.
    + destruct (IH t Hnd) as [H1 H2]. split; [exact H1|]. intros x. rewrite H2.
      change (lib_dirs (Obj p :: deps)) with (lib_dirs deps). tauto.
Qed.

(* link_objects: one entry per library directory, holding together the files of all libraries *)
Lemma group_libs_files : forall deps, Permutation (flat_map snd (group_libs deps)) (lib_files deps).
Proof. intros deps. rewrite <- (app_nil_r (lib_files deps)). apply (group_files_gen deps []). Qed.

Lemma group_libs_dirs : forall deps,
    NoDup (map fst (group_libs deps)) /\ forall x, In x (map fst (group_libs deps)) <-> In x (lib_dirs deps).
Proof.
  intros deps. destruct (group_keys_gen deps [] (NoDup_nil _)) as [N1 K1]. split; [exact N1|].
  intros x. rewrite (K1 x). cbn. tauto.
Qed.

