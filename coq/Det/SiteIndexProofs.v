(* C16 — every site of the regenerated inventory (coq/Gen/Sites.v, rewritten by ./check C16 from /repo and
   models/c16_sites.json) carries a classification, and the name a "modelled" site gives is one of the strings
   of SiteIndex.known_models. *)
From Coq Require Import List.
Import ListNotations.
From DDP Require Import Det.SiteIndex Gen.Sites.

Lemma all_sites_classified : forallb site_ok sites = true.
Proof. vm_compute. reflexivity. Qed.

