(* C16 — whole statements with nested calls (Det/ExprTree.v) *)
From Coq Require Import List Bool NArith Permutation.
Import ListNotations.
From DDP Require Import Det.ExprTree.

(* induction principle with the hypothesis for every child *)
Fixpoint expr_ind' (P : expr -> Prop)
  (H : forall r tpre o kids tpost, Forall P kids -> P (Node r tpre o kids tpost)) (e : expr) : P e :=
  match e with
  | Node r tpre o kids tpost =>
    H r tpre o kids tpost
      ((fix go (l : list expr) : Forall P l :=
          match l with
          | [] => Forall_nil P
          | k :: l' => Forall_cons k (expr_ind' P H k) (go l')
          end) kids)
  end.

Lemma flat_map_forall2_perm : forall (f : expr -> list N) kids kids1,
    Forall2 (fun a b => Permutation (f a) (f b)) kids kids1 ->
    Permutation (flat_map f kids) (flat_map f kids1).
Proof.
  intros f kids kids1 HF. induction HF as [|a b l l' Hab HF IH]; cbn [flat_map]; [apply Permutation_refl|].
  apply Permutation_app; assumption.
Qed.

Theorem reorder_diags_perm : forall e e', reorder e e' ->
    Permutation (rdiags e) (rdiags e') /\ Permutation (tdiags e) (tdiags e').
Proof.
  intros e. induction e as [r tpre o kids tpost IH] using expr_ind'. intros e' Hr.
  inversion Hr as [r0 tpre0 o0 kids0 kids1 kids2 tpost0 HF Hord]; subst.
  assert (HR : Forall2 (fun a b => Permutation (rdiags a) (rdiags b)) kids kids1 /\
               Forall2 (fun a b => Permutation (tdiags a) (tdiags b)) kids kids1).
  { clear Hr Hord. induction HF as [|a b l l' Hab HF IHF].
    - split; constructor.
    - inversion IH as [|? ? Pa Pl]; subst. destruct (IHF Pl) as [H1 H2].
      destruct (Pa b Hab) as [Ha1 Ha2]. split; constructor; assumption. }
  destruct HR as [HR HT].
  assert (P12 : Permutation kids1 kids2).
  { unfold kid_order in Hord. destruct o; [subst; apply Permutation_refl|exact Hord]. }
  cbn [rdiags tdiags]. split.
  - apply Permutation_app_head.
    eapply Permutation_trans; [apply flat_map_forall2_perm; exact HR|]. apply Permutation_flat_map. exact P12.
  - apply Permutation_app_head. apply Permutation_app_tail.
    eapply Permutation_trans; [apply flat_map_forall2_perm; exact HT|]. apply Permutation_flat_map. exact P12.
Qed.

(* once every node walks its children in a fixed order there is nothing left to choose *)
Theorem reorder_all_ordered : forall e e', all_ordered e = true -> reorder e e' -> e' = e.
Proof.
  intros e. induction e as [r tpre o kids tpost IH] using expr_ind'. intros e' Ho Hr.
  inversion Hr as [r0 tpre0 o0 kids0 kids1 kids2 tpost0 HF Hord]; subst.
  cbn [all_ordered] in Ho. apply andb_true_iff in Ho. destruct Ho as [Ho Hk]. subst o. unfold kid_order in Hord. subst kids2.
  f_equal. clear Hr. revert Hk. induction HF as [|a b l l' Hab HF IHF]; intros Hk; [reflexivity|].
  cbn [forallb] in Hk. apply andb_true_iff in Hk. destruct Hk as [Hka Hkl].
  inversion IH as [|? ? Pa Pl]; subst. f_equal; [apply Pa; assumption|apply IHF; assumption].
Qed.

(* nested witness: f(g("x", "y"), 1): the inner call's two ill-typed arguments *)
Definition inner := Node [] [] false [checked_arg (leaf [] []) [10%N]; checked_arg (leaf [] []) [20%N]] [].
Definition inner' := Node [] [] false [checked_arg (leaf [] []) [20%N]; checked_arg (leaf [] []) [10%N]] [].
Definition outer (i : expr) := Node [] [] false [checked_arg i []; checked_arg (leaf [] []) []] [].

Lemma reorder_refl : forall e, reorder e e.
Proof.
  intros e. induction e as [r tpre o kids tpost IH] using expr_ind'.
  apply (RO_node r tpre o kids kids kids tpost).
  - induction IH; constructor; assumption.
  - unfold kid_order. destruct o; [reflexivity|apply Permutation_refl].
Qed.

Theorem stmt_report_refuted :
  exists e e1 e2, reorder e e1 /\ reorder e e2 /\ stmt_report2 e1 e1 <> stmt_report2 e2 e2.
Proof.
  exists (outer inner), (outer inner), (outer inner'). split; [apply reorder_refl|]. split.
  - unfold outer. eapply RO_node with (kids1 := [checked_arg inner' []; checked_arg (leaf [] []) []]).
    + constructor.
      * unfold checked_arg. eapply RO_node with (kids1 := [inner']); [|reflexivity].
        constructor; [|constructor]. unfold inner, inner'.
        eapply RO_node; [|apply perm_swap]. constructor; [apply reorder_refl|]. constructor; [apply reorder_refl|constructor].
      * constructor; [apply reorder_refl|constructor].
    + apply Permutation_refl.
  - vm_compute. intros H. discriminate H.
Qed.
