(* C16 — facts about Go's small-slice insertion sort and the two position comparators. *)
From Coq Require Import List Bool Arith NArith Lia Permutation Sorted.
Import ListNotations.
From DDP Require Import Det.Sorting.

Section SortFacts.
  Variable A : Type.
  Variable less : A -> A -> bool.

  Definition sorted (l : list A) : Prop := StronglySorted (fun a b => less b a = false) l.
  (* reversed prefix: every element is not less than the ones after it (= before it in slice order) *)
  Definition rsorted (l : list A) : Prop := StronglySorted (fun a b => less a b = false) l.

  Lemma ins_perm : forall x rp, Permutation (x :: rp) (ins less x rp).
  Proof.
    intros x rp; induction rp as [|y rp IH]; cbn [ins].
    - apply Permutation_refl.
    - destruct (less x y).
      + eapply Permutation_trans; [apply perm_swap|]. apply perm_skip. exact IH.
      + apply Permutation_refl.
  Qed.

  Lemma isort_rev_perm_gen : forall l acc, Permutation (l ++ acc) (fold_left (fun rp x => ins less x rp) l acc).
  Proof.
    induction l as [|x l IH]; intros acc; cbn [fold_left app].
    - apply Permutation_refl.
    - eapply Permutation_trans; [|apply IH].
      eapply Permutation_trans; [apply Permutation_middle|].
      apply Permutation_app_head. apply ins_perm.
  Qed.

  Theorem isort_perm : forall l, Permutation l (isort less l).
  Proof.
    intros l. unfold isort, isort_rev.
    eapply Permutation_trans; [|apply Permutation_rev].
    pose proof (isort_rev_perm_gen l []) as H. rewrite app_nil_r in H. exact H.
  Qed.

  Lemma ss_app : forall (R : A -> A -> Prop) l1 l2,
      StronglySorted R l1 -> StronglySorted R l2 ->
      (forall x y, In x l1 -> In y l2 -> R x y) -> StronglySorted R (l1 ++ l2).
  Proof.
    intros R l1; induction l1 as [|a l1 IH]; intros l2 H1 H2 Hx; cbn [app].
    - exact H2.
    - inversion H1 as [|? ? Hs Hf]; subst. constructor.
      + apply IH; [exact Hs|exact H2|]. intros x y Hi Hj. apply Hx; [right; exact Hi|exact Hj].
      + apply Forall_app. split; [exact Hf|].
        apply Forall_forall. intros y Hy. apply Hx; [left; reflexivity|exact Hy].
  Qed.

  Lemma ss_rev : forall (R : A -> A -> Prop) l,
      StronglySorted R l -> StronglySorted (fun a b => R b a) (rev l).
  Proof.
    intros R l; induction l as [|a l IH]; intros Hs; cbn [rev].
    - constructor.
    - inversion Hs as [|? ? Hs' Hf]; subst. apply ss_app.
      + apply IH. exact Hs'.
      + constructor; constructor.
      + intros x y Hx Hy. destruct Hy as [Hy|[]]. subst y.
        apply in_rev in Hx. rewrite Forall_forall in Hf. apply Hf. exact Hx.
  Qed.

  (* what a comparator must satisfy for the insertion sort to deliver a sorted slice *)
  Definition asym := forall a b, less a b = true -> less b a = false.
  Definition negtrans := forall a b c, less a b = false -> less b c = false -> less a c = false.
  (* trichotomy on the elements of l: two elements neither of which is less than the other are the same element *)
  Definition total_on (l : list A) := forall a b, In a l -> In b l -> less a b = false -> less b a = false -> a = b.

  Lemma ins_rsorted : asym -> negtrans -> forall x rp, rsorted rp -> rsorted (ins less x rp).
  Proof.
    intros Ha Ht x rp; induction rp as [|y rp IH]; intros Hs; cbn [ins].
    - constructor; constructor.
    - inversion Hs as [|? ? Hs' Hf]; subst. destruct (less x y) eqn:Hxy.
      + constructor; [apply IH; exact Hs'|].
        apply Forall_forall. intros z Hz.
        apply (Permutation_in _ (Permutation_sym (ins_perm x rp))) in Hz.
        destruct Hz as [Hz|Hz].
        * subst z. apply Ha. exact Hxy.
        * rewrite Forall_forall in Hf. apply Hf. exact Hz.
      + constructor; [exact Hs|].
        constructor; [exact Hxy|].
        apply Forall_forall. intros z Hz. rewrite Forall_forall in Hf.
        apply (Ht x y z Hxy). apply Hf. exact Hz.
  Qed.

  Lemma fold_ins_rsorted : asym -> negtrans -> forall l acc, rsorted acc -> rsorted (fold_left (fun rp x => ins less x rp) l acc).
  Proof.
    intros Ha Ht l; induction l as [|x l IH]; intros acc Hs; cbn [fold_left].
    - exact Hs.
    - apply IH. apply ins_rsorted; assumption.
  Qed.

  Theorem isort_sorted : asym -> negtrans -> forall l, sorted (isort less l).
  Proof.
    intros Ha Ht l. unfold sorted, isort, isort_rev.
    apply (ss_rev (fun a b => less a b = false)).
    apply fold_ins_rsorted; [exact Ha|exact Ht|constructor].
  Qed.

    Theorem sorted_unique : forall l l',
      Permutation l l' -> total_on l -> sorted l -> sorted l' -> l = l'.
  Proof.
    induction l as [|a l IH]; intros l' Hp Htot Hs Hs'.
    - apply Permutation_nil in Hp. subst l'. reflexivity.
    - destruct l' as [|b l'].
      + apply Permutation_sym, Permutation_nil in Hp. discriminate Hp.
      + inversion Hs as [|? ? Hs1 Hf1]; subst. inversion Hs' as [|? ? Hs2 Hf2]; subst.
        rewrite Forall_forall in Hf1, Hf2.
        assert (Hab : a = b).
        { assert (Hin_b : In b (a :: l)) by (apply (Permutation_in _ (Permutation_sym Hp)); left; reflexivity).
          assert (Hin_a : In a (b :: l')) by (apply (Permutation_in _ Hp); left; reflexivity).
          destruct Hin_b as [Hb|Hb]; [exact Hb|].
          destruct Hin_a as [Ha'|Ha']; [symmetry; exact Ha'|].
          apply Htot; [left; reflexivity|right; exact Hb| |].
          - apply Hf2. exact Ha'.
          - apply Hf1. exact Hb. }
        subst b. f_equal. apply IH.
        * apply (Permutation_cons_inv Hp).
        * intros x y Hx Hy. apply Htot; right; assumption.
        * exact Hs1.
        * exact Hs2.
  Qed.

  Theorem isort_invariant : asym -> negtrans -> forall l l',
      total_on l -> Permutation l l' -> isort less l = isort less l'.
  Proof.
    intros Ha Ht l l' Htot Hp. apply sorted_unique.
    - eapply Permutation_trans; [apply Permutation_sym, isort_perm|].
      eapply Permutation_trans; [exact Hp|apply isort_perm].
    - intros a b Hi Hj. apply Htot; apply (Permutation_in _ (Permutation_sym (isort_perm l))); assumption.
    - apply isort_sorted; assumption.
    - apply isort_sorted; assumption.
  Qed.

  (* the contract assumed of the unmodelled pdqsort branch *)
  Definition sorts (big : list A -> list A) := forall l, Permutation l (big l) /\ sorted (big l).

  Theorem go_sort_perm : forall big, (forall l, Permutation l (big l)) -> forall l, Permutation l (go_sort less big l).
  Proof.
    intros big Hb l. unfold go_sort. destruct (length l <=? max_insertion); [apply isort_perm|apply Hb].
  Qed.

  Lemma go_sort_small : forall big l, length l <= max_insertion -> go_sort less big l = isort less l.
  Proof. intros big l H. unfold go_sort. apply Nat.leb_le in H. rewrite H. reflexivity. Qed.

  Theorem go_sort_invariant : asym -> negtrans -> forall big, sorts big -> forall l l',
      total_on l -> Permutation l l' -> go_sort less big l = go_sort less big l'.
  Proof.
    intros Ha Ht big Hb l l' Htot Hp. unfold go_sort.
    rewrite <- (Permutation_length Hp).
    destruct (length l <=? max_insertion).
    - apply isort_invariant; assumption.
    - apply sorted_unique.
      + eapply Permutation_trans; [apply Permutation_sym, (proj1 (Hb l))|].
        eapply Permutation_trans; [exact Hp|apply (proj1 (Hb l'))].
      + intros a b Hi Hj. apply Htot; apply (Permutation_in _ (Permutation_sym (proj1 (Hb l)))); assumption.
      + apply (proj2 (Hb l)).
      + apply (proj2 (Hb l')).
  Qed.

  Lemma sortedb_spec : forall l, sortedb less l = true <-> sorted l.
  Proof.
    induction l as [|x l IH]; cbn [sortedb].
    - split; [intros _; constructor|reflexivity].
    - rewrite andb_true_iff, forallb_forall, IH. split.
      + intros [Hf Hs]. constructor; [exact Hs|]. apply Forall_forall. intros y Hy.
        specialize (Hf y Hy). apply negb_true_iff in Hf. exact Hf.
      + intros Hs. inversion Hs as [|? ? Hs' Hf]; subst. split; [|exact Hs'].
        intros y Hy. rewrite Forall_forall in Hf. apply negb_true_iff. apply Hf. exact Hy.
  Qed.
End SortFacts.

Arguments sorted {A}. Arguments asym {A}. Arguments negtrans {A}. Arguments total_on {A}. Arguments sorts {A}.

(* stability of Go's small-slice insertion sort: elements of a class whose members are mutually not-less keep
   their input order *)
Section Stable.
  Variable A : Type.
  Variable less : A -> A -> bool.
  Variable P : A -> bool.
  Hypothesis tied : forall x y, P x = true -> P y = true -> less x y = false.

  Lemma ins_filter : forall x rp, filter P (ins less x rp) = if P x then x :: filter P rp else filter P rp.
  Proof.
    intros x rp; induction rp as [|y rp IH]; cbn [ins filter].
    - destruct (P x); reflexivity.
    - destruct (less x y) eqn:E; cbn [filter].
      + rewrite IH. destruct (P x) eqn:Px, (P y) eqn:Py; try reflexivity.
        rewrite (tied x y Px Py) in E. discriminate E.
      + destruct (P x); reflexivity.
  Qed.

  Lemma fold_ins_filter : forall l acc,
      filter P (fold_left (fun rp x => ins less x rp) l acc) = rev (filter P l) ++ filter P acc.
  Proof.
    induction l as [|x l IH]; intros acc; cbn [fold_left filter]; [reflexivity|].
    rewrite IH, ins_filter. destruct (P x); cbn [rev]; [rewrite <- app_assoc|]; reflexivity.
  Qed.

  Lemma filter_rev : forall (l : list A), filter P (rev l) = rev (filter P l).
  Proof.
    induction l as [|x l IH]; cbn [rev filter]; [reflexivity|].
    rewrite filter_app, IH. cbn [filter]. destruct (P x); cbn [rev]; [reflexivity|apply app_nil_r].
  Qed.

  Theorem isort_stable : forall l, filter P (isort less l) = filter P l.
  Proof.
    intros l. unfold isort, isort_rev. rewrite filter_rev, fold_ins_filter. cbn [filter]. rewrite app_nil_r. apply rev_involutive.
  Qed.
End Stable.

Lemma lex_irrefl : forall p, lex_lt p p = false.
Proof. intros [l c]. unfold lex_lt; cbn [line col]. rewrite N.ltb_irrefl, N.ltb_irrefl, andb_false_r. reflexivity. Qed.

Lemma lex_spec : forall p q, lex_lt p q = true <-> (line p < line q \/ (line p = line q /\ col p < col q))%N.
Proof.
  intros p q. unfold lex_lt. rewrite orb_true_iff, andb_true_iff, !N.ltb_lt, N.eqb_eq. reflexivity.
Qed.

Lemma lex_false : forall p q, lex_lt p q = false <-> (line q < line p \/ (line p = line q /\ col q <= col p))%N.
Proof. intros p q. rewrite <- not_true_iff_false, lex_spec. lia. Qed.

Lemma lex_asym : asym lex_lt.
Proof. intros p q H. apply lex_spec in H. apply lex_false. lia. Qed.

Lemma lex_trans : forall p q r, lex_lt p q = true -> lex_lt q r = true -> lex_lt p r = true.
Proof. intros p q r H1 H2. apply lex_spec in H1, H2. apply lex_spec. lia. Qed.

Lemma lex_negtrans : negtrans lex_lt.
Proof. intros p q r H1 H2. apply lex_false in H1, H2. apply lex_false. lia. Qed.

Lemma lex_total : forall p q, lex_lt p q = false -> lex_lt q p = false -> p = q.
Proof.
  intros [l1 c1] [l2 c2] H1 H2. apply lex_false in H1, H2. cbn [line col] in *.
  assert (l1 = l2) by lia. assert (c1 = c2) by lia. subst. reflexivity.
Qed.

(* code_lt, the comparator IterateImportedDecls had on the pinned tree, is not even asymmetric *)
Lemma code_lt_not_asym : exists p q, code_lt p q = true /\ code_lt q p = true.
Proof. exists (mkpos 1 19), (mkpos 2 1). split; vm_compute; reflexivity. Qed.

(* where the two comparators agree the pinned one inherits the good behaviour *)
Lemma code_eq_lex_same_col : forall p q, col p = col q -> code_lt p q = lex_lt p q.
Proof.
  intros [l1 c1] [l2 c2] H. cbn [col] in H. subst c2. unfold code_lt, lex_lt; cbn [line col].
  rewrite N.ltb_irrefl, andb_false_r. reflexivity.
Qed.

(* generic: sorting with two comparators that agree on the elements gives the same result *)
Lemma ins_ext : forall A (f g : A -> A -> bool) x rp,
    (forall y, In y rp -> f x y = g x y) -> ins f x rp = ins g x rp.
Proof.
  intros A f g x rp; induction rp as [|y rp IH]; intros H; cbn [ins]; [reflexivity|].
  rewrite (H y (or_introl eq_refl)). destruct (g x y); [|reflexivity].
  f_equal. apply IH. intros z Hz. apply H. right. exact Hz.
Qed.

Lemma isort_ext : forall A (f g : A -> A -> bool) l,
    (forall x y, In x l -> In y l -> f x y = g x y) -> isort f l = isort g l.
Proof.
  intros A f g l H. unfold isort, isort_rev. f_equal.
  assert (G : forall l0 acc, (forall x y, In x (l0 ++ acc) -> In y (l0 ++ acc) -> f x y = g x y) ->
               fold_left (fun rp x => ins f x rp) l0 acc = fold_left (fun rp x => ins g x rp) l0 acc).
  { induction l0 as [|x l0 IH]; intros acc Hag; cbn [fold_left]; [reflexivity|].
    rewrite (ins_ext A f g x acc) by (intros y Hy; apply Hag; [left; reflexivity|apply in_or_app; right; exact Hy]).
    (* the elements are the same after the insertion *)
    assert (Hin : forall a, In a (l0 ++ ins g x acc) -> In a ((x :: l0) ++ acc)).
    { intros a Ha. apply (Permutation_in a (Permutation_sym (Permutation_middle l0 acc x))).
      apply in_app_or in Ha. apply in_or_app. destruct Ha as [Ha|Ha]; [left; exact Ha|right].
      exact (Permutation_in a (Permutation_sym (ins_perm A g x acc)) Ha). }
    apply IH. intros a b Ha Hb. apply Hag; apply Hin; assumption. }
  apply G. rewrite app_nil_r. exact H.
Qed.

(* perms enumerates exactly the permutations *)
Lemma insert_all_perm : forall A (x : A) l l', In l' (insert_all x l) -> Permutation (x :: l) l'.
Proof.
  intros A x l; induction l as [|y t IH]; intros l' H; cbn [insert_all] in H.
  - destruct H as [H|[]]. subst. apply Permutation_refl.
  - destruct H as [H|H]; [subst; apply Permutation_refl|].
    apply in_map_iff in H. destruct H as [m [Hm Hin]]. subst l'.
    eapply Permutation_trans; [apply perm_swap|]. apply perm_skip. apply IH. exact Hin.
Qed.

Lemma perms_sound : forall A (l l' : list A), In l' (perms l) -> Permutation l l'.
Proof.
  intros A l; induction l as [|x t IH]; intros l' H; cbn [perms] in H.
  - destruct H as [H|[]]. subst. apply Permutation_refl.
  - apply in_flat_map in H. destruct H as [m [Hm Hin]].
    eapply Permutation_trans; [apply perm_skip; apply IH; exact Hm|].
    apply insert_all_perm. exact Hin.
Qed.

Lemma insert_all_complete : forall A (x : A) l1 l2, In (l1 ++ x :: l2) (insert_all x (l1 ++ l2)).
Proof.
  intros A x l1; induction l1 as [|y l1 IH]; intros l2; cbn [app insert_all].
  - destruct l2; left; reflexivity.
  - right. apply in_map. apply IH.
Qed.

Lemma perms_complete : forall A (l l' : list A), Permutation l l' -> In l' (perms l).
Proof.
  intros A l; induction l as [|x t IH]; intros l' Hp.
  - apply Permutation_nil in Hp. subst. left. reflexivity.
  - assert (Hin : In x l') by (apply (Permutation_in _ Hp); left; reflexivity).
    apply in_split in Hin. destruct Hin as [l1 [l2 E]]. subst l'.
    cbn [perms]. apply in_flat_map. exists (l1 ++ l2). split.
    + apply IH. apply (Permutation_cons_app_inv _ _ Hp).
    + apply insert_all_complete.
Qed.

Lemma perms_spec : forall A (l l' : list A), In l' (perms l) <-> Permutation l l'.
Proof. intros A l l'. split; [apply perms_sound|apply perms_complete]. Qed.

Lemma in_map_perms : forall A B (f : list A -> B) l o,
    In o (map f (perms l)) <-> exists l', Permutation l l' /\ o = f l'.
Proof.
  intros A B f l o. rewrite in_map_iff. split; intros [l' [H1 H2]]; exists l'.
  - split; [apply perms_spec; exact H2|symmetry; exact H1].
  - split; [symmetry; exact H2|apply perms_spec; exact H1].
Qed.
