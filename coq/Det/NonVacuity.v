(* C16 — non-vacuity: the hypotheses of every conditional theorem of Props/C16.v are satisfiable by
   non-trivial instances (and the conclusions are not trivially true there). *)
From Coq Require Import List NArith Lia Permutation.
Import ListNotations.
From DDP Require Import Det.Sorting Det.SortingProofs Det.Sites Det.SitesProofs Det.C16Model Det.ExprTree Det.ExprTreeProofs Det.AliasSort.

Definition p11 := mkpos 1 1.
Definition p15 := mkpos 1 5.
Definition p21 := mkpos 2 1.

Ltac permc := apply perms_sound; cbv; repeat (first [left; reflexivity | right]).
Ltac nd := repeat (constructor; [cbn; intuition discriminate|]); constructor.

(* sorted_unique / isort_invariant: a three-element list, two distinct arrangements, both sort to the same *)
Example nv_sorted_unique :
  let l := [p21; p11; p15] in let l' := [p15; p21; p11] in
  Permutation l l' /\ l <> l' /\ total_on lex_lt l /\ isort lex_lt l = [p11; p15; p21] /\ isort lex_lt l' = [p11; p15; p21] /\
  sorted lex_lt (isort lex_lt l).
Proof.
  cbn zeta. split; [|split; [|split; [|split; [|split]]]].
  - permc.
  - intros H. discriminate H.
  - intros a b _ _ H1 H2. apply lex_total; assumption.
  - vm_compute. reflexivity.
  - vm_compute. reflexivity.
  - apply sortedb_spec. vm_compute. reflexivity.
Qed.

(* the pdqsort contract is satisfiable: the insertion sort itself meets it *)
Example nv_sorts : sorts decl_lex_lt (isort decl_lex_lt).
Proof.
  intros l. split; [apply isort_perm|]. apply isort_sorted; [exact decl_lex_asym|exact decl_lex_negtrans].
Qed.

Definition e1 := mkdecl 1 (mkpos 1 1) [].
Definition e2 := mkdecl 2 (mkpos 2 1) [7%N].
Definition e3 := mkdecl 3 (mkpos 3 1) [].

(* same-column layout, a conflict is really reported, and it is the same for a different map order *)
Example nv_import_same_column :
  let l := [e3; e1; e2] in let l' := [e2; e3; e1] in
  length l <= 12 /\ (forall a b, In a l -> In b l -> col (d_pos a) = col (d_pos b)) /\
  (forall a b, In a l -> In b l -> d_pos a = d_pos b -> a = b) /\ Permutation l l' /\ l <> l' /\
  import_site no_big [3%N] l = (Some 7%N, true) /\ import_site no_big [3%N] l' = (Some 7%N, true).
Proof.
  cbn zeta. split; [cbn; lia|]. split; [|split; [|split; [|split; [|split]]]].
  - intros a b Ha Hb. cbn in Ha, Hb. intuition (subst; reflexivity).
  - intros a b Ha Hb. cbn in Ha, Hb. intuition (subst; try reflexivity; discriminate).
  - permc.
  - intros H. discriminate H.
  - vm_compute. reflexivity.
  - vm_compute. reflexivity.
Qed.

(* fixed comparator on the very input that refutes the pinned one *)
Example nv_import_fixed :
  let l := [dA; dB; dC] in let l' := [dA; dC; dB] in
  (forall a b, In a l -> In b l -> d_pos a = d_pos b -> a = b) /\ Permutation l l' /\
  import_site_fixed no_big [2%N; 3%N] l = (Some 2%N, true) /\ import_site_fixed no_big [2%N; 3%N] l' = (Some 2%N, true) /\
  import_site no_big [2%N; 3%N] l <> import_site no_big [2%N; 3%N] l'.
Proof.
  cbn zeta. split; [|split; [|split; [|split]]].
  - intros a b Ha Hb. cbn in Ha, Hb. intuition (subst; try reflexivity; discriminate).
  - apply perm_skip, perm_swap.
  - vm_compute. reflexivity.
  - vm_compute. reflexivity.
  - vm_compute. intros H. discriminate H.
Qed.

(* one faulty argument among three: the partial theorem's side condition holds and something is reported *)
Definition g1 := mkarg 1 [] [].
Definition g2 := mkarg 2 [] [30%N].
Definition g3 := mkarg 3 [] [].
Example nv_call_partial :
  let m := [g1; g2; g3] in let m' := [g3; g2; g1] in
  Permutation m m' /\ m <> m' /\
  (forall a b, In a m -> In b m -> a_rdiags a <> [] -> a_rdiags b <> [] -> a = b) /\
  (forall a b, In a m -> In b m -> a_tdiags a <> [] -> a_tdiags b <> [] -> a = b) /\
  call_stmt m m = (Some 30%N, true) /\ call_stmt m' m' = (Some 30%N, true).
Proof.
  cbn zeta. split; [|split; [|split; [|split; [|split]]]].
  - permc.
  - intros H. discriminate H.
  - intros a b Ha Hb H1 H2. cbn in Ha, Hb. intuition (subst; cbn in *; congruence).
  - intros a b Ha Hb H1 H2. cbn in Ha, Hb. intuition (subst; cbn in *; congruence).
  - vm_compute. reflexivity.
  - vm_compute. reflexivity.
Qed.

(* the repaired iteration on the refuting input *)
Example nv_call_fixed :
  let m := [argX; argY] in let m' := [argY; argX] in
  NoDup (map a_name m) /\ Permutation m m' /\
  call_stmt_fixed [1%N; 2%N] m m = (Some 10%N, true) /\ call_stmt_fixed [1%N; 2%N] m' m' = (Some 10%N, true) /\
  call_stmt m m <> call_stmt m' m'.
Proof.
  cbn zeta. split; [nd|]. split; [apply perm_swap|]. split; [vm_compute; reflexivity|]. split; [vm_compute; reflexivity|].
  vm_compute. intros H. discriminate H.
Qed.

Example nv_unify_fixed :
  let m := [(2%N, false); (1%N, false); (3%N, true)] in let m' := [(3%N, true); (1%N, false); (2%N, false)] in
  NoDup (map fst m) /\ Permutation m m' /\ unify_report_fixed m = (Some 1%N, true) /\ unify_report_fixed m' = (Some 1%N, true) /\
  unify_report m <> unify_report m'.
Proof.
  cbn zeta. split; [nd|]. split.
  - permc.
  - split; [vm_compute; reflexivity|]. split; [vm_compute; reflexivity|]. vm_compute. intros H. discriminate H.
Qed.

(* frees: two scopes orders, the heap really shrinks; a double free really crashes in both orders *)
Definition w1 := mkvar [5%N; 6%N] false.
Definition w2 := mkvar [7%N] false.
Definition w3 := mkvar [8%N] true.
Example nv_scope_frees :
  Permutation [w1; w2; w3] [w3; w2; w1] /\
  run_frees (scope_frees [w1; w2; w3]) [5; 6; 7; 8; 9]%N = Some [8; 9]%N /\
  run_frees (scope_frees [w3; w2; w1]) [5; 6; 7; 8; 9]%N = Some [8; 9]%N /\
  scope_frees [w1; w2; w3] <> scope_frees [w3; w2; w1] /\
  run_frees (scope_frees [w1; w1]) [5; 6]%N = None.
Proof.
  split.
  - permc.
  - split; [vm_compute; reflexivity|]. split; [vm_compute; reflexivity|]. split; [|vm_compute; reflexivity].
    vm_compute. intros H. discriminate H.
Qed.

Example nv_return_frees :
  Forall2 (@Permutation var) [[w1; w2]; [w3]] [[w2; w1]; [w3]] /\
  run_frees (return_frees [[w1; w2]; [w3]]) [5; 6; 7; 8]%N = Some [8%N].
Proof. split; [constructor; [apply perm_swap|constructor; [apply Permutation_refl|constructor]]|vm_compute; reflexivity]. Qed.

Example nv_ll_link :
  Permutation [[1; 2]; [3]; [4]]%N [[4]; [1; 2]; [3]]%N /\
  fst (ll_link [9%N] [[1; 2]; [3]; [4]]%N) = true /\ fst (ll_link [9%N] [[1; 2]; [3]; [1]]%N) = false.
Proof.
  split; [|split; vm_compute; reflexivity].
  permc.
Qed.

Example nv_ll_parse :
  Permutation [(1, true); (2, false); (3, true)]%N [(3, true); (2, false); (1, true)]%N /\
  length (filter (fun m : N * bool => negb (snd m)) [(1, true); (2, false); (3, true)]%N) <= 1 /\
  ll_parse [(1, true); (2, false); (3, true)]%N = (Some 2%N, true).
Proof.
  split; [|split; [cbn; lia|vm_compute; reflexivity]].
  permc.
Qed.

Example nv_link_cmdline :
  let deps := [Lib 1 1; Obj 5; Lib 2 2] in let deps' := [Lib 2 2; Lib 1 1; Obj 5] in
  Permutation deps deps' /\
  link_cmdline deps (group_libs deps) (group_libs deps) <> link_cmdline deps' (group_libs deps') (group_libs deps') /\
  length (link_cmdline deps (group_libs deps) (group_libs deps)) = 5.
Proof.
  cbn zeta. split; [|split].
  - permc.
  - vm_compute. intros H. discriminate H.
  - vm_compute. reflexivity.
Qed.

Example nv_predict_fixed_singleton :
  NoDup (map a_name [argX; argY]) /\ In (Some 10%N, true) (predict_call_fixed [1%N; 2%N] [argX; argY]) /\
  In (Some 10%N, true) (predict_call [argX; argY]) /\ In (Some 20%N, true) (predict_call [argX; argY]) /\
  (forall a b, In a [dA; dB; dC] -> In b [dA; dB; dC] -> d_pos a = d_pos b -> a = b) /\
  In (Some 2%N, true) (predict_import_fixed [2%N; 3%N] [dA; dB; dC]).
Proof.
  split; [nd|]. split; [vm_compute; left; reflexivity|]. split; [vm_compute; left; reflexivity|].
  split; [vm_compute; right; left; reflexivity|]. split; [|vm_compute; left; reflexivity].
  intros a b Ha Hb. cbn in Ha, Hb. intuition (subst; try reflexivity; discriminate).
Qed.

(* whole statements: a nested call walked in declaration order really reports, and the same for every walk;
   the map-ordered original of the same tree has two different walks (stmt_report_refuted) *)
Definition inner_fixed := Node [] [] true [checked_arg (leaf [] []) [10%N]; checked_arg (leaf [] []) [20%N]] [].
Definition outer_fixed := Node [] [] true [checked_arg inner_fixed []; checked_arg (leaf [5%N] []) []] [].
Example nv_stmt_fixed :
  all_ordered outer_fixed = true /\ reorder outer_fixed outer_fixed /\ stmt_report outer_fixed = (Some 5%N, true) /\
  reorder (outer inner) (outer inner) /\ stmt_report (outer inner) = (Some 10%N, true).
Proof.
  split; [vm_compute; reflexivity|]. split; [apply reorder_refl|]. split; [vm_compute; reflexivity|].
  split; [apply reorder_refl|vm_compute; reflexivity].
Qed.

(* sortAliases: three candidates of which two tie; the tie keeps the trie-search order, whichever way round it was *)
Definition k1 := mkcand 1 3 0 0.
Definition k2 := mkcand 2 3 0 0.
Definition k3 := mkcand 3 5 0 1.
Example nv_sort_aliases :
  length [k1; k2; k3] <= 12 /\ same_rank k1 k2 = true /\
  sort_aliases (fun l => l) [k1; k2; k3] = [k3; k1; k2] /\ sort_aliases (fun l => l) [k2; k3; k1] = [k3; k2; k1].
Proof. split; [cbn; lia|]. split; [reflexivity|]. split; vm_compute; reflexivity. Qed.
