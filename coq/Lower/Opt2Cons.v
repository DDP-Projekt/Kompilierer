(* C08 — the table computed by `analyse` (const_func_param.go, where since 91b5d4a a self call counts as a write) is
   consistent for EVERY program: a parameter it judges constant is never assigned, never the destination
   of a call and never passed by Referenz to a parameter position that is not judged constant. *)
From Coq Require Import List Bool Arith Lia.
Import ListNotations.
From DDP Require Import Lower.Opt2 Lower.Opt2Base Lower.Opt2Safe.

Definition cst_true (c : cstate) (x : name) : bool := existsb (fun nb => Nat.eqb (fst nb) x && snd nb) c.

(* the consistency check of one statement against the table cf of the enclosing function and the
   constness oc of the parameters of the called functions *)
Definition chk (cf : cstate) (oc : nat -> nat -> bool) (s : stmt) : bool :=
  match s with
  | SAssign x _ | SAssignIdx x _ _ => negb (cst_true cf x)
  | SCall dst k args =>
      match dst with Some d => negb (cst_true cf d) | None => true end &&
      forallb (fun iy => oc k (fst iy) || negb (cst_true cf (snd iy))) (ref_args 0 args)
  | _ => true
  end.

Definition cst_of (mt : meta) (funs : list fundecl) (c : ctx) : cstate :=
  match c with
  | Some j => combine (map pname (fparams (fn funs j))) (nth j mt [])
  | None => []
  end.
(* x is the name of a parameter of the enclosing function that the table judges constant *)
Definition cnameb (mt : meta) (funs : list fundecl) (c : ctx) (x : name) : bool := cst_true (cst_of mt funs c) x.
Definition stmt_cons_b (mt : meta) (funs : list fundecl) (c : ctx) : stmt -> bool := chk (cst_of mt funs c) (is_const mt).

(* an induction principle that reaches into the nested statement lists *)
Section StmtInd.
  Variable P : stmt -> Prop.
  Hypothesis HDecl : forall x e, P (SDecl x e).
  Hypothesis HAssign : forall x e, P (SAssign x e).
  Hypothesis HIdx : forall x i v, P (SAssignIdx x i v).
  Hypothesis HPrint : forall e, P (SPrint e).
  Hypothesis HCall : forall d f a, P (SCall d f a).
  Hypothesis HIf : forall c th el, Forall P th -> Forall P el -> P (SIf c th el).
  Hypothesis HFor : forall x e b, Forall P b -> P (SFor x e b).
  Fixpoint stmt_ind2 (s : stmt) : P s :=
    match s with
    | SDecl x e => HDecl x e
    | SAssign x e => HAssign x e
    | SAssignIdx x i v => HIdx x i v
    | SPrint e => HPrint e
    | SCall d f a => HCall d f a
    | SIf c th el =>
        HIf c th el
          ((fix go (l : list stmt) : Forall P l := match l with [] => Forall_nil _ | x :: r => Forall_cons _ (stmt_ind2 x) (go r) end) th)
          ((fix go (l : list stmt) : Forall P l := match l with [] => Forall_nil _ | x :: r => Forall_cons _ (stmt_ind2 x) (go r) end) el)
    | SFor x e b =>
        HFor x e b
          ((fix go (l : list stmt) : Forall P l := match l with [] => Forall_nil _ | x :: r => Forall_cons _ (stmt_ind2 x) (go r) end) b)
    end.
End StmtInd.

(* all_stmt and an_stmt walk the nested statement lists by a local fixpoint: what they compute, as equations *)
Lemma all_stmts_fix : forall P l,
  (fix go (l : list stmt) : bool := match l with [] => true | s :: r => all_stmt P s && go r end) l = all_stmts P l.
Proof. intros P. unfold all_stmts. induction l as [|s l IH]; [reflexivity|]. cbn [forallb]. rewrite <- IH. reflexivity. Qed.

Lemma all_stmt_if_eq : forall P c th el,
  all_stmt P (SIf c th el) = P (SIf c th el) && (all_stmts P th && all_stmts P el).
Proof. intros P c th el. rewrite <- !all_stmts_fix. reflexivity. Qed.

Lemma all_stmt_for_eq : forall P x e b, all_stmt P (SFor x e b) = P (SFor x e b) && all_stmts P b.
Proof. intros P x e b. rewrite <- all_stmts_fix. reflexivity. Qed.

Lemma all_stmts_cons : forall P s r, all_stmts P (s :: r) = true -> all_stmt P s = true /\ all_stmts P r = true.
Proof. intros P s r H. cbn in H. apply andb_true_iff in H. auto. Qed.

Lemma all_stmt_head : forall P s, all_stmt P s = true -> P s = true.
Proof. intros P s H. destruct s; cbn in H; apply andb_true_iff in H; tauto. Qed.

Lemma all_stmt_if : forall P c th el, all_stmt P (SIf c th el) = true -> all_stmts P th = true /\ all_stmts P el = true.
Proof. intros P c th el H. rewrite all_stmt_if_eq, !andb_true_iff in H. tauto. Qed.

Lemma all_stmt_for : forall P x e b, all_stmt P (SFor x e b) = true -> all_stmts P b = true.
Proof. intros P x e b H. rewrite all_stmt_for_eq, andb_true_iff in H. tauto. Qed.

Lemma ref_args_nth : forall args i j y, nth_error args j = Some (ARef y) -> In (i + j, y) (ref_args i args).
Proof.
  induction args as [|a0 args IH]; intros i j y Hj; [destruct j; discriminate Hj|].
  destruct j as [|j]; cbn in Hj.
  - inv Hj. cbn. rewrite Nat.add_0_r. auto.
  - rewrite Nat.add_succ_r. destruct a0; cbn; [|right]; apply (IH (S i) j y Hj).
Qed.

Lemma an_stmt_if : forall done j c0 th el c,
  an_stmt done j (SIf c0 th el) c = an_stmts done j el (an_stmts done j th c).
Proof.
  intros. cbn [an_stmt]. unfold an_stmts.
  assert (E : forall l c', (fix go0 (l : list stmt) (c : cstate) {struct l} : cstate :=
               match l with [] => c | s :: r => go0 r (an_stmt done j s c) end) l c' = fold_left (fun c s => an_stmt done j s c) l c').
  { induction l as [|s l IH]; intros c'; cbn; auto. }
  rewrite !E. reflexivity.
Qed.

Lemma an_stmt_for : forall done j x e b c, an_stmt done j (SFor x e b) c = an_stmts done j b c.
Proof.
  intros. cbn [an_stmt]. unfold an_stmts. revert c. induction b as [|s b IH]; intros c; cbn; auto.
Qed.

Lemma cst_true_mark : forall y c x, cst_true (mark y c) x = cst_true c x && negb (Nat.eqb x y).
Proof.
  intros y c x. unfold cst_true, mark. induction c as [|[n b] c IH]; [reflexivity|].
  cbn [map existsb]. rewrite IH. cbn [fst snd].
  set (r := existsb (fun nb : name * bool => Nat.eqb (fst nb) x && snd nb) c).
  destruct (Nat.eqb_spec n y) as [E1|E1]; cbn [fst snd];
    destruct (Nat.eqb_spec n x) as [E2|E2]; destruct (Nat.eqb_spec x y) as [E3|E3];
    destruct b; destruct r; cbn; try reflexivity; try congruence; try apply andb_false_r.
Qed.

Definition cst_le (c' c : cstate) : Prop := forall x, cst_true c' x = true -> cst_true c x = true.
Lemma cst_le_refl : forall c, cst_le c c. Proof. intros c x H; exact H. Qed.
Lemma cst_le_trans : forall a b c, cst_le a b -> cst_le b c -> cst_le a c. Proof. intros a b c H1 H2 x H. auto. Qed.

Lemma cst_le_mark : forall y c, cst_le (mark y c) c.
Proof. intros y c x H. rewrite cst_true_mark in H. apply andb_true_iff in H. tauto. Qed.
Lemma mark_false : forall y c, cst_true (mark y c) y = false.
Proof. intros. rewrite cst_true_mark, Nat.eqb_refl. cbn. apply andb_false_r. Qed.

Lemma mark_all_cons : forall y ys c, mark_all (y :: ys) c = mark y (mark_all ys c).
Proof. reflexivity. Qed.
Lemma cst_le_mark_all : forall ys c, cst_le (mark_all ys c) c.
Proof.
  induction ys as [|y ys IH]; intros c; [apply cst_le_refl|]. rewrite mark_all_cons.
  eapply cst_le_trans; [apply cst_le_mark|apply IH].
Qed.
Lemma mark_all_false : forall ys c y, In y ys -> cst_true (mark_all ys c) y = false.
Proof.
  induction ys as [|z ys IH]; intros c y Hin; [contradiction|]. rewrite mark_all_cons. destruct Hin as [->|Hin].
  - apply mark_false.
  - rewrite cst_true_mark. rewrite (IH c y Hin). reflexivity.
Qed.

Lemma cst_le_mark_args : forall isc args i c, cst_le (mark_args isc i args c) c.
Proof.
  intros isc args. induction args as [|a args IH]; intros i c; cbn; [apply cst_le_refl|].
  eapply cst_le_trans; [apply IH|]. destruct (isc i); [apply cst_le_refl|apply cst_le_mark_all].
Qed.

Lemma mark_args_marks : forall isc args i0 c i y,
  In (i, y) (ref_args i0 args) -> isc i = false -> cst_true (mark_args isc i0 args c) y = false.
Proof.
  intros isc args. induction args as [|a args IH]; intros i0 c i y Hin Hi; cbn in *; [contradiction|].
  destruct a as [ex|z]; cbn in Hin.
  - eapply IH; eauto.
  - destruct Hin as [E|Hin]; [|eapply IH; eauto]. inv E. rewrite Hi.
    destruct (cst_true (mark_args isc (S i) args (mark_all (arg_refs (ARef y)) c)) y) eqn:E; auto.
    apply cst_le_mark_args in E. change (arg_refs (ARef y)) with [y] in E. rewrite mark_all_false in E by (cbn; auto). discriminate E.
Qed.

Section Analysis.
  Variable done : meta.
  Variable j : nat.
  Variable oc : nat -> nat -> bool.
  (* what the analysis sees of a callee's table is never more optimistic than the final table *)
  Hypothesis Hseen : forall c1 k i, seen_const done j c1 k i = true -> oc k i = true.

  Lemma cst_le_an_stmts_of : forall l, Forall (fun s => forall c, cst_le (an_stmt done j s c) c) l -> forall c, cst_le (an_stmts done j l c) c.
  Proof.
    induction l as [|s l IH]; intros HF c; cbn; [apply cst_le_refl|]. inv HF.
    eapply cst_le_trans; [apply IH; auto|apply H1].
  Qed.

  Lemma cst_le_an_stmt : forall s c, cst_le (an_stmt done j s c) c.
  Proof.
    induction s using stmt_ind2; intros c0; try (cbn; apply cst_le_refl); try (cbn; apply cst_le_mark).
    - cbn. eapply cst_le_trans; [apply cst_le_mark_args|]. destruct d; [apply cst_le_mark|apply cst_le_refl].
    - rewrite an_stmt_if. eapply cst_le_trans; [apply cst_le_an_stmts_of; auto|apply cst_le_an_stmts_of; auto].
    - rewrite an_stmt_for. apply cst_le_an_stmts_of; auto.
  Qed.

  Lemma cst_le_an_stmts : forall l c, cst_le (an_stmts done j l c) c.
  Proof. intros l c. apply cst_le_an_stmts_of. apply Forall_forall. intros s _ c'. apply cst_le_an_stmt. Qed.

  Lemma chk_an_stmts_of : forall cf l,
    Forall (fun s => forall c, cst_le cf (an_stmt done j s c) -> all_stmt (chk cf oc) s = true) l ->
    forall c, cst_le cf (an_stmts done j l c) -> all_stmts (chk cf oc) l = true.
  Proof.
    intros cf. induction l as [|s l IH]; intros HF c Hle; cbn; auto. inv HF. cbn in Hle.
    rewrite (H1 c); [|eapply cst_le_trans; [exact Hle|apply cst_le_an_stmts]]. cbn. eapply IH; eauto.
  Qed.

  Lemma chk_an_stmt : forall cf s c, cst_le cf (an_stmt done j s c) -> all_stmt (chk cf oc) s = true.
  Proof.
    intros cf. induction s using stmt_ind2; intros c0 Hle; try reflexivity.
    1,2: (cbn; rewrite andb_true_r; apply negb_true_iff; destruct (cst_true cf x) eqn:E; auto;
          apply Hle in E; cbn [an_stmt] in E; rewrite mark_false in E; discriminate E).
    - cbn [an_stmt] in Hle. cbn. rewrite andb_true_r. apply andb_true_iff. split.
      + destruct d as [d|]; auto. apply negb_true_iff. destruct (cst_true cf d) eqn:E; auto.
        apply Hle in E. apply cst_le_mark_args in E. rewrite mark_false in E. discriminate E.
      + apply forallb_forall. intros [i y] Hin. cbn.
        destruct (oc f i) eqn:Eo; auto. cbn. apply negb_true_iff. destruct (cst_true cf y) eqn:E; auto.
        apply Hle in E.
        rewrite (mark_args_marks _ _ _ _ i y Hin) in E; [discriminate E|].
        destruct (seen_const done j (match d with Some x => mark x c0 | None => c0 end) f i) eqn:Es; auto.
        apply Hseen in Es. congruence.
    - rewrite an_stmt_if in Hle.
      assert (Hth : cst_le cf (an_stmts done j th c0)) by (eapply cst_le_trans; [exact Hle|apply cst_le_an_stmts]).
      rewrite all_stmt_if_eq, (chk_an_stmts_of cf th H c0 Hth), (chk_an_stmts_of cf el H0 _ Hle). reflexivity.
    - rewrite an_stmt_for in Hle. rewrite all_stmt_for_eq, (chk_an_stmts_of cf b H _ Hle). reflexivity.
  Qed.

  Lemma chk_body : forall body c0, all_stmts (chk (an_stmts done j body c0) oc) body = true.
  Proof.
    intros body c0. eapply (chk_an_stmts_of (an_stmts done j body c0) body); [|apply cst_le_refl].
    apply Forall_forall. intros s _ c Hle. eapply chk_an_stmt; eauto.
  Qed.
End Analysis.

(* the names of a table stay those of the parameters *)
Lemma mark_fst : forall y c, map fst (mark y c) = map fst c.
Proof. intros y c. unfold mark. rewrite map_map. apply map_ext. intros [n b]. cbn. destruct (Nat.eqb n y); reflexivity. Qed.
Lemma mark_all_fst : forall ys c, map fst (mark_all ys c) = map fst c.
Proof. induction ys as [|y ys IH]; intros c; [reflexivity|]. rewrite mark_all_cons, mark_fst. auto. Qed.
Lemma mark_args_fst : forall isc args i c, map fst (mark_args isc i args c) = map fst c.
Proof.
  intros isc args. induction args as [|a args IH]; intros i c; cbn; auto. rewrite IH. destruct (isc i); auto. apply mark_all_fst.
Qed.
Lemma an_stmts_fst_of : forall done j l, Forall (fun s => forall c, map fst (an_stmt done j s c) = map fst c) l ->
  forall c, map fst (an_stmts done j l c) = map fst c.
Proof. intros done j l HF. unfold an_stmts. induction HF as [|s l Hs _ IH]; intros c; cbn [fold_left]; auto. rewrite IH. apply Hs. Qed.
Lemma an_stmt_fst : forall done j s c, map fst (an_stmt done j s c) = map fst c.
Proof.
  intros done j. induction s using stmt_ind2; intros c0; try reflexivity; try (cbn; apply mark_fst).
  - cbn. rewrite mark_args_fst. destruct d; auto. apply mark_fst.
  - rewrite an_stmt_if, !an_stmts_fst_of; auto.
  - rewrite an_stmt_for. apply an_stmts_fst_of; auto.
Qed.
Lemma an_stmts_fst : forall done j l c, map fst (an_stmts done j l c) = map fst c.
Proof. intros done j l. apply an_stmts_fst_of, Forall_forall. intros s _ c. apply an_stmt_fst. Qed.

Lemma combine_fst_snd : forall (c : cstate), combine (map fst c) (map snd c) = c.
Proof. induction c as [|[n b] c IH]; cbn; auto. f_equal. auto. Qed.

(* row t of the final table is the analysis of function t against the rows before it *)
Lemma an_funs_rows : forall fs done,
  exists rows, an_funs done fs = done ++ rows /\
    forall t fd, nth_error fs t = Some fd ->
      nth (length done + t) (done ++ rows) [] = an_fun (firstn (length done + t) (done ++ rows)) (length done + t) fd.
Proof.
  induction fs as [|fd fs IH]; intros done; cbn.
  - exists []. split; [rewrite app_nil_r; auto|]. intros t fd0 H. destruct t; discriminate H.
  - destruct (IH (done ++ [an_fun done (length done) fd])) as (rows & E & R).
    exists (an_fun done (length done) fd :: rows). split; [rewrite E, <- app_assoc; reflexivity|].
    intros [|t] fd0 H; cbn in H.
    + inv H. rewrite Nat.add_0_r. rewrite app_nth2 by lia. rewrite Nat.sub_diag. cbn.
      rewrite firstn_app. rewrite Nat.sub_diag. cbn. rewrite firstn_all, app_nil_r. reflexivity.
    + specialize (R t fd0 H). rewrite app_length in R. cbn in R. rewrite <- app_assoc in R. cbn in R.
      replace (length done + S t) with (length done + 1 + t) by lia. exact R.
Qed.

Lemma nth_firstn : forall A (l : list A) n k d, k < n -> nth k (firstn n l) d = nth k l d.
Proof.
  induction l as [|x l IH]; intros [|n] [|k] d H; cbn; auto; try lia. apply IH. lia.
Qed.

Lemma chk_allfalse : forall cf oc, (forall x, cst_true cf x = false) -> forall ss, all_stmts (chk cf oc) ss = true.
Proof.
  intros cf oc Hf.
  assert (H : forall s, all_stmt (chk cf oc) s = true).
  { induction s using stmt_ind2; try reflexivity.
    1,2: (cbn; rewrite Hf; reflexivity).
    - cbn. rewrite andb_true_r. apply andb_true_iff. split; [destruct d; [rewrite Hf|]; reflexivity|].
      apply forallb_forall. intros [i y] _. cbn. rewrite Hf. apply orb_true_r.
    - rewrite Forall_forall in H, H0. rewrite all_stmt_if_eq. unfold all_stmts.
      rewrite (proj2 (forallb_forall _ th) H), (proj2 (forallb_forall _ el) H0). reflexivity.
    - rewrite Forall_forall in H. rewrite all_stmt_for_eq. unfold all_stmts.
      rewrite (proj2 (forallb_forall _ b) H). reflexivity. }
  intros ss. apply forallb_forall. intros s _. apply H.
Qed.

Lemma cst_true_allfalse : forall (names : list name) (n : nat) x, cst_true (combine names (repeat false n)) x = false.
Proof.
  induction names as [|y names IH]; intros [|n] x; cbn; auto. rewrite andb_false_r. cbn. apply IH.
Qed.

Theorem analyse_consistent : forall funs j, j < length funs ->
  all_stmts (stmt_cons_b (analyse funs) funs (Some j)) (fbody (fn funs j)) = true.
Proof.
  intros funs j Hj. unfold analyse. destruct (an_funs_rows funs []) as (rows & E & R). cbn in E, R.
  destruct (nth_error funs j) as [fd|] eqn:Efd; [|apply nth_error_None in Efd; lia].
  specialize (R j fd Efd). rewrite E. set (final := rows) in *.
  assert (Efn : fn funs j = fd) by (unfold fn; apply nth_error_nth; auto).
  unfold stmt_cons_b, cst_of. rewrite Efn, R. unfold an_fun.
  destruct (fnometa fd).
  { apply chk_allfalse. intros x.
    replace (map (fun _ : param => false) (fparams fd)) with (repeat false (length (fparams fd))).
    - apply cst_true_allfalse.
    - induction (fparams fd) as [|q l IHl]; cbn; auto. f_equal. auto. }
  set (done := firstn j final).
  set (c0 := map (fun p => (pname p, true)) (fparams fd)).
  assert (Enames : map pname (fparams fd) = map fst (an_stmts done j (fbody fd) c0)).
  { rewrite an_stmts_fst. unfold c0. rewrite map_map. reflexivity. }
  rewrite Enames, combine_fst_snd.
  apply chk_body.
  intros c1 k i Hs. unfold seen_const in Hs.
  destruct (Nat.eqb k j); [discriminate Hs|]. destruct (Nat.ltb_spec k j) as [Hk|Hk]; [|discriminate Hs].
  unfold is_const in *. unfold done in Hs. rewrite nth_firstn in Hs by auto. exact Hs.
Qed.

(* the main program has no parameters *)
Lemma main_consistent : forall mt funs ss, all_stmts (stmt_cons_b mt funs None) ss = true.
Proof. intros mt funs ss. unfold stmt_cons_b, cst_of. apply chk_allfalse. reflexivity. Qed.
