(* C08 — basic facts about the machine of Opt2.v: lists, heap/variable primitives, monad inversion; evaluating an
   expression only extends the state; the tail of a call through `resume`; bind_params through its head step
   `bind_one`. *)
From Coq Require Import List ZArith Bool Arith Lia.
Import ListNotations.
From DDP Require Import Lower.Opt2.

Ltac inv H := inversion H; subst; clear H.

Lemma upd_length : forall A (l : list A) n v, length (upd l n v) = length l.
Proof. induction l as [|x l IH]; intros [|n] v; cbn; auto. Qed.

Lemma nth_error_upd_eq : forall A (l : list A) n v, n < length l -> nth_error (upd l n v) n = Some v.
Proof.
  induction l as [|x l IH]; intros [|n] v Hn; cbn in *; try lia; auto.
  apply IH; lia.
Qed.

Lemma nth_error_upd_neq : forall A (l : list A) n m v, n <> m -> nth_error (upd l n v) m = nth_error l m.
Proof.
  induction l as [|x l IH]; intros [|n] [|m] v Hn; cbn in *; try congruence; auto.
Qed.

Lemma nth_error_upd : forall A (l : list A) n m v,
  nth_error (upd l n v) m = if Nat.eqb n m then (if Nat.ltb n (length l) then Some v else None) else nth_error l m.
Proof.
  intros. destruct (Nat.eqb_spec n m) as [->|Hne].
  - destruct (Nat.ltb_spec m (length l)).
    + apply nth_error_upd_eq; auto.
    + apply nth_error_None. rewrite upd_length. lia.
  - apply nth_error_upd_neq; auto.
Qed.

Lemma upd_app_l : forall A (h : list A) x n v, n < length h -> upd (h ++ [x]) n v = upd h n v ++ [x].
Proof.
  induction h as [|y h IH]; intros x [|n] v Hn; cbn in *; try lia; auto. f_equal. apply IH. lia.
Qed.

Lemma upd_snoc : forall A (l : list A) x y, upd (l ++ [x]) (length l) y = l ++ [y].
Proof. induction l as [|z l IH]; intros x y; cbn; [reflexivity|]. f_equal. apply IH. Qed.

Lemma upd_upd : forall A (l : list A) n x y, upd (upd l n x) n y = upd l n y.
Proof. induction l as [|z l IH]; intros [|n] x y; cbn; auto. f_equal. auto. Qed.

Lemma upd_comm : forall A (l : list A) n m x y, n <> m -> upd (upd l n x) m y = upd (upd l m y) n x.
Proof. induction l as [|z l IH]; intros [|n] [|m] x y Hne; cbn; auto; try congruence. f_equal. apply IH. congruence. Qed.

Lemma nth_error_app_new : forall A (l : list A) x, nth_error (l ++ [x]) (length l) = Some x.
Proof. intros. rewrite nth_error_app2 by lia. rewrite Nat.sub_diag. reflexivity. Qed.

Lemma nth_error_app_snoc : forall A (l : list A) x n,
  nth_error (l ++ [x]) n = if Nat.ltb n (length l) then nth_error l n else if Nat.eqb n (length l) then Some x else None.
Proof.
  intros. destruct (Nat.ltb_spec n (length l)).
  - apply nth_error_app1; auto.
  - destruct (Nat.eqb_spec n (length l)) as [->|].
    + apply nth_error_app_new.
    + apply nth_error_None. rewrite app_length. cbn. lia.
Qed.

Lemma nth_error_lt : forall A (l : list A) n x, nth_error l n = Some x -> n < length l.
Proof. intros. apply nth_error_Some. congruence. Qed.

Lemma bind_ok : forall A B (r : res A) (k : A -> res B) b,
  bind r k = Ok b -> exists a, r = Ok a /\ k a = Ok b.
Proof. intros A B [a|e] k b H; cbn in H; [eauto | discriminate H]. Qed.

Ltac bind_as H a H1 H2 := apply bind_ok in H; destruct H as (a & H1 & H2).

Lemma lookup_in : forall e x a, lookup e x = Some a -> In a (map snd e).
Proof.
  induction e as [|[y b] e IH]; cbn; intros x a H; [discriminate H|].
  destruct (Nat.eqb y x).
  - inv H. auto.
  - right. eauto.
Qed.

Lemma lookup_app : forall e1 e2 x,
  lookup (e1 ++ e2) x = match lookup e1 x with Some a => Some a | None => lookup e2 x end.
Proof.
  induction e1 as [|[y b] e1 IH]; cbn; intros; auto.
  destruct (Nat.eqb y x); auto.
Qed.

Definition ptr_at (st : state) (a l : nat) : Prop := nth_error (vars st) a = Some (VPtr l).
Definition live (st : state) (l : nat) : Prop := exists c, nth_error (heap st) l = Some (Live c).

Lemma live_lt : forall st l, live st l -> l < length (heap st).
Proof. intros st l [c H]. eapply nth_error_lt; eauto. Qed.

Lemma alloc_spec : forall c st l st', alloc c st = (l, st') ->
  l = length (heap st) /\ heap st' = heap st ++ [c] /\ vars st' = vars st /\ tmps st' = tmps st /\ out st' = out st.
Proof. unfold alloc. intros. inv H. cbn. auto. Qed.

Lemma target_live : forall st l, live st l -> target l st = l.
Proof. unfold target, live. intros st l [c H]. rewrite H. auto. Qed.

Lemma read_ok : forall l st c, read l st = Ok c -> nth_error (heap st) (target l st) = Some (Live c).
Proof.
  unfold read. intros l st c H. destruct (nth_error (heap st) (target l st)) as [[c'|?|]|]; try discriminate H. inv H. auto.
Qed.

Lemma read_ok_live : forall l st c, read l st = Ok c -> live st l -> nth_error (heap st) l = Some (Live c).
Proof. intros l st c H Hl. apply read_ok in H. rewrite target_live in H; auto. Qed.

Lemma read_live : forall l st c, nth_error (heap st) l = Some (Live c) -> read l st = Ok c.
Proof. intros l st c H. unfold read. rewrite target_live by (exists c; auto). rewrite H. auto. Qed.

Lemma free_ok : forall l st st', free l st = Ok st' -> live st l ->
  l < length (heap st) /\ heap st' = upd (heap st) l Freed /\ vars st' = vars st /\ tmps st' = tmps st /\ out st' = out st.
Proof.
  unfold free, live. intros l st st' H [c Hc]. rewrite Hc in H. inv H. cbn.
  split; [eapply nth_error_lt; eauto | auto].
Qed.

Lemma release_live : forall l st, live st l -> release l st = free l st.
Proof. unfold release, live. intros l st [c H]. rewrite H. auto. Qed.

Lemma free_live : forall l st, live st l -> exists st', free l st = Ok st'.
Proof. unfold free, live. intros l st [c H]. rewrite H. eauto. Qed.

Lemma write_ok : forall l c st st', write l c st = Ok st' ->
  live st (target l st) /\ heap st' = upd (heap st) (target l st) (Live c) /\ vars st' = vars st /\ tmps st' = tmps st /\ out st' = out st.
Proof.
  unfold write, live. intros l c st st' H. destruct (nth_error (heap st) (target l st)) as [[c'|?|]|] eqn:E; try discriminate H.
  inv H. cbn. eauto 6.
Qed.

Lemma new_var_spec : forall s st a st', new_var s st = (a, st') ->
  a = length (vars st) /\ vars st' = vars st ++ [s] /\ heap st' = heap st /\ tmps st' = tmps st /\ out st' = out st.
Proof. unfold new_var. intros. inv H. cbn. auto. Qed.

Lemma get_slot_ok : forall a st s, get_slot a st = Ok s -> nth_error (vars st) a = Some s.
Proof. unfold get_slot. intros a st s H. destruct (nth_error (vars st) a); inv H. auto. Qed.

Lemma get_slot_some : forall a st s, nth_error (vars st) a = Some s -> get_slot a st = Ok s.
Proof. unfold get_slot. intros a st s H. rewrite H. auto. Qed.

Lemma remove_nat_in : forall l x t, In x (remove_nat l t) -> In x t.
Proof.
  induction t as [|y t IH]; cbn; auto. destruct (Nat.eqb y l); cbn; intuition.
Qed.

Lemma remove_nat_nodup : forall l t, NoDup t -> NoDup (remove_nat l t) /\ ~ In l (remove_nat l t).
Proof.
  induction t as [|y t IH]; cbn; intros H.
  - split; [constructor | auto].
  - inv H. destruct (Nat.eqb_spec y l) as [->|Hne].
    + split; auto.
    + destruct (IH H3) as [IH1 IH2]. split.
      * constructor; auto. intro Hin. apply H2. eapply remove_nat_in; eauto.
      * cbn. intros [E|Hin]; [congruence | auto].
Qed.

Lemma remove_nat_keep : forall l x t, In x t -> x <> l -> In x (remove_nat l t).
Proof.
  induction t as [|y t IH]; cbn; auto. intros [->|Hin] Hne.
  - destruct (Nat.eqb_spec x l); [congruence | cbn; auto].
  - destruct (Nat.eqb y l); cbn; auto.
Qed.

Lemma remove_nat_notin : forall l t, ~ In l t -> remove_nat l t = t.
Proof.
  induction t as [|y t IH]; cbn; auto. intros H.
  destruct (Nat.eqb_spec y l) as [->|]; [exfalso; auto|]. f_equal. auto.
Qed.

(* what evaluating an expression may do: allocate temporaries *)
Definition ext (st st' : state) : Prop :=
  vars st' = vars st /\ out st' = out st /\ (exists hs, heap st' = heap st ++ hs) /\ (exists t, tmps st' = t ++ tmps st) /\
  fbase st' = fbase st.

Lemma ext_refl : forall st, ext st st.
Proof. intros. repeat split; auto; [exists []; rewrite app_nil_r; auto | exists []; auto]. Qed.

Lemma ext_trans : forall a b c, ext a b -> ext b c -> ext a c.
Proof.
  intros a b c (A1 & A2 & [h1 A3] & [t1 A4] & A5) (B1 & B2 & [h2 B3] & [t2 B4] & B5).
  repeat split; try congruence.
  - exists (h1 ++ h2). rewrite B3, A3, app_assoc. auto.
  - exists (t2 ++ t1). rewrite B4, A4, app_assoc. auto.
Qed.

Lemma ext_heap : forall st st' l, ext st st' -> l < length (heap st) -> nth_error (heap st') l = nth_error (heap st) l.
Proof. intros st st' l (_ & _ & [hs H] & _) Hl. rewrite H. apply nth_error_app1; auto. Qed.

Lemma alloc_tmp_ext : forall st c l st1, alloc c st = (l, st1) -> ext st (add_tmp l st1).
Proof.
  intros st c l st1 Ha. unfold alloc in Ha. inv Ha. repeat split; cbn; auto; [exists [c] | exists [length (heap st)]]; auto.
Qed.

Arguments new_var : simpl never.
Arguments alloc : simpl never.

Lemma eval_ext : forall e x st v st', eval e x st = Ok (v, st') -> ext st st'.
Proof.
  intros e x. induction x as [z|y|c|a IHa b IHb|a IHa i IHi|a IHa]; intros st v st' H; cbn in H.
  - inv H. apply ext_refl.
  - destruct (lookup e y) as [ad|]; [|discriminate H]. bind_as H s Hs H. destruct s as [z|l|]; inv H; apply ext_refl.
  - destruct (alloc (Live c) st) as [l st1] eqn:Ea. inv H. eapply alloc_tmp_ext; eauto.
  - bind_as H r Ha H. destruct r as [va st1]. bind_as H r Hb H. destruct r as [vb st2].
    destruct va as [z|la ta]; [discriminate H|]. bind_as H ca Hca H. bind_as H cb Hcb H.
    destruct (alloc (Live (ca ++ cb)) st2) as [l st3] eqn:Ea. inv H.
    eapply ext_trans; [eauto|]. eapply ext_trans; [eauto|]. eapply alloc_tmp_ext; eauto.
  - bind_as H r Ha H. destruct r as [va st1]. bind_as H r Hi H. destruct r as [vi st2].
    destruct va as [z|la ta]; [discriminate H|]. destruct vi as [z|li ti]; [|discriminate H].
    bind_as H ca Hca H. destruct (idx_ok z (length ca)); inv H. eapply ext_trans; eauto.
  - bind_as H r Ha H. destruct r as [va st1]. destruct va as [z|la ta]; [discriminate H|]. bind_as H ca Hca H. inv H. eauto.
Qed.

(* the state in which the caller continues: its temporaries are back, the result is a temporary *)
Definition resume (saved : list nat) (result : option rv) (st7 : state) : state :=
  match result with Some (RSeq l _) => add_tmp l (set_tmps st7 saved) | _ => set_tmps st7 saved end.

Lemma call_finish_resume : forall e dst saved result st7,
  call_finish e dst saved result st7 =
  match dst, result with
  | None, _ => end_stmt (resume saved result st7)
  | Some x, Some v =>
      match lookup e x with
      | Some a => do st10 <- store_value a v (resume saved result st7); end_stmt st10
      | None => Er EStuck
      end
  | Some _, None => Er EStuck
  end.
Proof. intros. unfold call_finish, resume. destruct result as [[z|l t]|]; reflexivity. Qed.

(* binding one parameter: the head step of bind_params, yielding the address the parameter is bound to *)
Definition bind_one (el : bool) (mt : meta) (all : list arg) (f i : nat) (p : param) (a : arg) (e : env) (st : state)
  : res (nat * state) :=
  match pref p, a with
  | true, ARef x => match lookup e x with Some ad => Ok (ad, st) | None => Er EStuck end
  | false, AVal ex =>
      do r <- eval e ex st;
      let '(v, st1) := r in
      match v with
      | RInt z => Ok (new_var (VInt z) st1)
      | RSeq l tmp =>
          if el && is_const mt f i && negb tmp && may_elide e all ex st1
          then let '(lh, st1') := alloc (Alias (target l st1)) st1 in Ok (new_var (VPtr lh) st1')
          else do r2 <- claim_or_copy l tmp st1; let '(l', st2) := r2 in Ok (new_var (VPtr l') st2)
      end
  | _, _ => Er EStuck
  end.

Lemma bind_params_cons : forall el mt all f i p ps a args e ce st,
  bind_params el mt all f i (p :: ps) (a :: args) e ce st =
  do r <- bind_one el mt all f i p a e st;
  let '(ad, st1) := r in bind_params el mt all f (S i) ps args e ((pname p, ad) :: ce) st1.
Proof.
  intros. cbn [bind_params]. unfold bind_one. destruct (pref p); destruct a as [ex|x]; try reflexivity.
  - destruct (lookup e x); reflexivity.
  - destruct (eval e ex st) as [[v st1]|er]; [|reflexivity]. cbn [bind]. destruct v as [z|l tmp].
    + destruct (new_var (VInt z) st1); reflexivity.
    + destruct (el && is_const mt f i && negb tmp && may_elide e all ex st1).
      * destruct (alloc (Alias (target l st1)) st1) as [lh st1']. destruct (new_var (VPtr lh) st1'); reflexivity.
      * destruct (claim_or_copy l tmp st1) as [[l' st2]|er]; [|reflexivity]. cbn [bind].
        destruct (new_var (VPtr l') st2); reflexivity.
Qed.
