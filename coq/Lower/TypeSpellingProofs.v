(* C18 — the domain of the spelling theorem of Props/C18.v, and the diagnostic for a dropped Referenz. *)
From Coq Require Import List.
Import ListNotations.
From DDP Require Import Lower.TypeSpelling.

(* the token after a parameter type in a declaration: a comma, "und", "gibt" — never Liste/Listen/Referenz *)
Definition type_ends (rest : list tok) : Prop := rest = [] \/ exists r, rest = TkOther :: r.

(* the Referenz word is what makes a parameter a reference: dropping it from a list reference is diagnosed *)
Lemma missing_referenz_is_diagnosed : forall b r,
  match parse_reference_type ([plural b; TkListen; TkOther] ++ r) with
  | Some p => pr_diag p = 1
  | None => False
  end.
Proof. intros b r; destruct b as [[| | | |] | | | n]; reflexivity. Qed.
