(* The counting-loop lowering of VisitForStmt (src/compiler/compiler.go) for Zahl and Byte counters as a
   small-step machine over its basic blocks, a specification [for_spec] of the loop over the same parameters,
   and the theorem that the machine refines for_spec, by induction on the number of iterations.
   for_spec transcribes the rule of RefSem.loop_for_i with the evaluation of the end value (already converted to a
   Zahl) and the body as parameters; no theorem connects it to RefSem.

   Blocks (names as in the Go code):
     condBlock       incrementer <s 0 ? loopDown : loopUp             (direction from the sign of the step,
                                                                        re-tested before every iteration)
     loopUp          to := evaluate(To);  index <=s to ? forBody : leaveBlock      (inclusive bound)
     loopDown        to := evaluate(To);  index >=s to ? forBody : leaveBlock
     forBody         body; falls through / `Fahre fort` -> incrementBlock, `Verlasse die Schleife` -> leave,
                     `Gib ... zurück` -> function exit
     incrementBlock  add := index + incrementer (i64 add, wraps); Var := numericCast(add) (trunc to i8 for a
                     Byte counter); index := add; -> condBlock
   The hidden index is an i64 also for a Byte counter (indexVar is `alloca i64`), the visible variable is
   re-assigned from it.  The evaluation of To and the body are parameters (any deterministic state
   transformers that may stop the program; they cannot diverge and the body cannot `Fahre fort` here, unlike in
   Lower/Control.v), shared by the machine and by the specification. *)
From Coq Require Import ZArith Lia.
From DDP Require Import Lang.Syntax Lang.RefSem Lower.Ops Lower.OpsProofs.
Open Scope Z_scope.

Inductive signal : Type := SigNext | SigBreak | SigRet.

Section ForLoop.
Variable St : Type.
Variable eval_to : St -> option (Z * St).       (* end value as a Zahl (a Byte end value zero-extended) *)
Variable body : St -> option (signal * St).     (* None: the body stops the program (Laufzeitfehler) *)
Variable set_var : St -> value -> St.           (* assignment to the visible counter variable *)
Variable is_byte : bool.
Variable stp : Z.                               (* the step, evaluated once before the loop *)

Definition in64 (z : Z) : Prop := min64 <= z <= max64.

(* the specification: the rule of RefSem.loop_for_i transcribed over these parameters *)
Inductive fin : Type := XLeave (s : St) | XRet (s : St) | XErr (s : St).

Definition vis (i : Z) : value := if is_byte then VB (wrap8 i) else VZ i.

Fixpoint for_spec (n : nat) (i : Z) (s : St) : option fin :=
  match n with
  | O => None
  | S n =>
    match eval_to s with
    | None => Some (XErr s)
    | Some (lim, s1) =>
      if (if stp <? 0 then i >=? lim else i <=? lim) then
        match body s1 with
        | None => Some (XErr s1)
        | Some (SigBreak, s2) => Some (XLeave s2)
        | Some (SigRet, s2) => Some (XRet s2)
        | Some (SigNext, s2) => let i' := wrap64 (i + stp) in for_spec n i' (set_var s2 (vis i'))
        end
      else Some (XLeave s1)
    end
  end.

Inductive pc : Type := PCond | PUp | PDown | PBody | PIncr | PLeave | PRet | PErr.

Definition stp_m : Z := stp mod 2^64.
Definition to_m (s : St) : option (Z * St) :=
  match eval_to s with Some (lim, s') => Some (lim mod 2^64, s') | None => None end.
(* numericCast(add, i64 -> type of the counter) *)
Definition vis_m (add : Z) : value := if is_byte then VB (trunc64_8 add) else VZ (signed64 add).

Definition lstep (c : pc * Z * St) : pc * Z * St :=
  let '(p, idx, s) := c in
  match p with
  | PCond => if icmp64 ISlt stp_m 0 then (PDown, idx, s) else (PUp, idx, s)
  | PUp => match to_m s with
           | Some (lim, s') => if icmp64 ISle idx lim then (PBody, idx, s') else (PLeave, idx, s')
           | None => (PErr, idx, s)
           end
  | PDown => match to_m s with
             | Some (lim, s') => if icmp64 ISge idx lim then (PBody, idx, s') else (PLeave, idx, s')
             | None => (PErr, idx, s)
             end
  | PBody => match body s with
             | Some (SigNext, s') => (PIncr, idx, s')
             | Some (SigBreak, s') => (PLeave, idx, s')
             | Some (SigRet, s') => (PRet, idx, s')
             | None => (PErr, idx, s)
             end
  | PIncr => let add := add64 idx stp_m in (PCond, add, set_var s (vis_m add))
  | _ => c
  end.

Fixpoint lsteps (k : nat) (c : pc * Z * St) : pc * Z * St :=
  match k with O => c | S k => lsteps k (lstep c) end.

Definition final_of (r : fin) : pc * St :=
  match r with XLeave s => (PLeave, s) | XRet s => (PRet, s) | XErr s => (PErr, s) end.

Lemma wrap64_in64 : forall z, in64 (wrap64 z).
Proof.
  intros z. unfold in64, wrap64, min64, max64.
  assert (0 <= (z + 2^63) mod 2^64 < 2^64) by (apply Z.mod_pos_bound; lia). lia.
Qed.

Lemma vis_agree : forall i, in64 i -> vis_m (i mod 2^64) = vis i.
Proof.
  intros i Hi. unfold vis_m, vis. destruct is_byte.
  - unfold trunc64_8, wrap8. now rewrite mod_mod_256.
  - now rewrite signed64_mod.
Qed.

Hypothesis to_in_range : forall s lim s', eval_to s = Some (lim, s') -> in64 lim.

Lemma lsteps_add : forall a b c, lsteps (a + b) c = lsteps b (lsteps a c).
Proof. induction a; intros; cbn [lsteps Nat.add]; auto. Qed.

(* condBlock, then loopUp / loopDown: two steps to the body block or to an exit *)
Lemma l_entry : forall i s, in64 i -> in64 stp ->
  lsteps 2 (PCond, i mod 2^64, s) =
  match eval_to s with
  | Some (lim, s1) =>
      if (if stp <? 0 then i >=? lim else i <=? lim) then (PBody, i mod 2^64, s1) else (PLeave, i mod 2^64, s1)
  | None => (PErr, i mod 2^64, s)
  end.
Proof.
  intros i s Hi Hs. cbn [lsteps lstep]. unfold stp_m. rewrite (icmp_slt0 stp Hs).
  destruct (eval_to s) as [[lim s1]|] eqn:ET.
  - pose proof (to_in_range _ _ _ ET) as HL.
    destruct (stp <? 0); cbn [lstep]; unfold to_m; rewrite ET; [rewrite icmp_sge|rewrite icmp_sle]; auto.
  - destruct (stp <? 0); cbn [lstep]; unfold to_m; rewrite ET; reflexivity.
Qed.

Theorem for_lowering_correct : forall n i s r,
  in64 i -> in64 stp ->
  for_spec n i s = Some r ->
  exists k idx, lsteps k (PCond, i mod 2^64, s) = (fst (final_of r), idx, snd (final_of r)).
Proof.
  induction n as [|n IH]; intros i s r Hi Hs H; [discriminate H|].
  cbn [for_spec] in H. pose proof (l_entry i s Hi Hs) as TWO.
  destruct (eval_to s) as [[lim s1]|]; [|injection H as <-; exists 2%nat, (i mod 2^64); exact TWO].
  destruct (if stp <? 0 then i >=? lim else i <=? lim); [|injection H as <-; exists 2%nat, (i mod 2^64); exact TWO].
  destruct (body s1) as [[[] s2]|] eqn:B;
    try (injection H as <-; exists (2 + 1)%nat, (i mod 2^64); rewrite lsteps_add, TWO; cbn [lsteps lstep]; rewrite B; reflexivity).
  (* next iteration: incrementBlock, then the condition block with the wrapped index *)
  destruct (IH _ _ r (wrap64_in64 (i + stp)) Hs H) as (k & idx & Hk).
  exists (2 + S (S k))%nat, idx. rewrite lsteps_add, TWO. cbn [lsteps lstep]. rewrite B. cbn [lstep].
  unfold stp_m. rewrite add64_wrap, vis_agree by apply wrap64_in64. exact Hk.
Qed.

End ForLoop.
