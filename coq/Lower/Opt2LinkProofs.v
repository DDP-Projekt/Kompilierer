(* C11 — proofs about Lower/Opt2Link.v: under injective symbol names and identical list definitions the linking mode
   does not change what a reference is bound to; the order in which the IR linker is handed the modules (a Go map
   iteration: interface.go, llvmLinkAllModules over mapToSlice) is irrelevant; injective mangling gives the
   hypothesis; a concrete program.  That both tools accept a well-formed program and that the two hypotheses are
   needed is proved in Props/C11.v. *)
From Coq Require Import List NArith Bool Permutation.
Import ListNotations.
From DDP Require Import Lower.ListFacts Lower.Opt2Link.

Lemma find_def_in_defs m s b : find_def m s = Some b -> In s (defs m).
Proof.
  induction m as [|[s' [b'|]] m IH]; cbn [find_def]; intros H.
  - discriminate H.
  - unfold defs. cbn [flat_map snd fst app]. destruct (N.eqb s s') eqn:E.
    + apply N.eqb_eq in E. subst. now left.
    + right. now apply IH.
  - unfold defs. cbn [flat_map snd fst app]. now apply IH.
Qed.

Lemma in_defs_find_def m s : In s (defs m) -> exists b, find_def m s = Some b.
Proof.
  induction m as [|[s' [b'|]] m IH]; unfold defs; cbn [flat_map snd fst app find_def]; intros H.
  - destruct H.
  - destruct (N.eqb s s') eqn:E.
    + now exists b'.
    + destruct H as [H|H].
      * subst. rewrite N.eqb_refl in E. discriminate E.
      * now apply IH.
  - now apply IH.
Qed.

Lemma find_def_app m1 m2 s :
  find_def (m1 ++ m2) s = match find_def m1 s with Some b => Some b | None => find_def m2 s end.
Proof.
  induction m1 as [|[s' [b'|]] m1 IH]; cbn [app find_def].
  - reflexivity.
  - destruct (N.eqb s s'); [reflexivity | exact IH].
  - exact IH.
Qed.

Lemma find_def_ir_link ms s : find_def (ir_link ms) s = first_def ms s.
Proof.
  unfold ir_link. induction ms as [|m ms IH]; cbn [concat first_def].
  - reflexivity.
  - rewrite find_def_app, IH. reflexivity.
Qed.

Lemma first_def_in ms s b : first_def ms s = Some b -> exists m, In m ms /\ find_def m s = Some b.
Proof.
  induction ms as [|m ms IH]; cbn [first_def]; intros H.
  - discriminate H.
  - destruct (find_def m s) eqn:E.
    + exists m. split; [now left | congruence].
    + destruct (IH H) as [m' [Hin Hf]]. exists m'. split; [now right | exact Hf].
Qed.

Lemma first_def_app ms1 ms2 s :
  first_def (ms1 ++ ms2) s = match first_def ms1 s with Some b => Some b | None => first_def ms2 s end.
Proof.
  induction ms1 as [|m ms1 IH]; cbn [app first_def].
  - reflexivity.
  - destruct (find_def m s); [reflexivity | exact IH].
Qed.

(* injective names: the first definition is THE definition, wherever it stands *)
Lemma first_def_unique ms m s b :
  NoDup (flat_map defs ms) -> In m ms -> find_def m s = Some b -> first_def ms s = Some b.
Proof.
  induction ms as [|m0 ms IH]; cbn [flat_map first_def]; intros Hnd Hin Hf.
  - destruct Hin.
  - destruct Hin as [->|Hin].
    + rewrite Hf. reflexivity.
    + destruct (find_def m0 s) eqn:E.
      * exfalso. apply (NoDup_app_disjoint _ _ _ s Hnd).
        -- eapply find_def_in_defs; exact E.
        -- apply in_flat_map. exists m. split; [exact Hin | eapply find_def_in_defs; exact Hf].
      * apply IH; [eapply NoDup_app_r; exact Hnd | exact Hin | exact Hf].
Qed.

(* under injective names a definition anywhere in the sequence is what the sequence resolves to *)
Lemma first_def_iff ms s b :
  NoDup (flat_map defs ms) -> (first_def ms s = Some b <-> exists m, In m ms /\ find_def m s = Some b).
Proof.
  intros Hnd. split; [apply first_def_in|]. intros [m [Hin Hf]]. now apply (first_def_unique ms m).
Qed.

Lemma ir_resolve_first_def ms r s :
  NoDup (flat_map defs ms) -> In r ms -> ir_resolve ms r s = first_def ms s.
Proof.
  intros Hnd Hin. unfold ir_resolve. destruct (find_def r s) as [b|] eqn:E; [|reflexivity].
  symmetry. now apply (first_def_unique ms r s b).
Qed.

(* the order in which the modules are handed to the IR linker (a Go map iteration) is irrelevant *)
Theorem link_order_irrelevant ms ms' s :
  Permutation ms ms' -> NoDup (flat_map defs ms) -> first_def ms s = first_def ms' s.
Proof.
  intros HP Hnd.
  assert (Hnd' : NoDup (flat_map defs ms')).
  { eapply Permutation_NoDup; [|exact Hnd]. now apply Permutation_flat_map. }
  assert (H : forall b, first_def ms s = Some b <-> first_def ms' s = Some b).
  { intros b. rewrite !first_def_iff by assumption. split; intros [m [Hin Hf]]; exists m; (split; [|exact Hf]).
    - eapply Permutation_in; [exact HP | exact Hin].
    - eapply Permutation_in; [apply Permutation_sym; exact HP | exact Hin]. }
  destruct (first_def ms' s) as [b'|].
  - now apply H.
  - destruct (first_def ms s) as [b|]; [|reflexivity]. pose proof (proj1 (H b) eq_refl) as F. discriminate F.
Qed.

Definition lists_of (l : list_mode) (p : program) : module :=
  match l with LLinked => p_lists_src p | LExternal => p_lists_obj p end.

Definition canonical (l : list_mode) (p : program) : list module := p_main p :: p_imports p ++ [lists_of l p].

Lemma wf_canonical_nodup p l : wf p -> NoDup (flat_map defs (canonical l p)).
Proof. intros [H1 H2 _]. destruct l; [exact H1 | exact H2]. Qed.

Lemma in_modules_canonical p l r : In r (p_modules p) -> In r (canonical l p).
Proof.
  unfold p_modules, canonical. intros [<-|H]; [now left|]. right. apply in_or_app. now left.
Qed.

Lemma modules_nodup p : wf p -> NoDup (flat_map defs (p_main p :: p_imports p)).
Proof.
  intros [H1 _ _]. change (p_main p :: p_imports p ++ [p_lists_src p]) with ((p_main p :: p_imports p) ++ [p_lists_src p]) in H1.
  rewrite flat_map_app in H1. eapply NoDup_app_l. exact H1.
Qed.

(* every mode binds a reference to the first — the only — definition among main, the imports and the list runtime *)
Lemma resolve_canonical md p r s :
  wf p -> In r (p_modules p) -> resolve md p r s = first_def (canonical (snd md) p) s.
Proof.
  intros Hwf Hr. destruct md as [[|] [|]]; cbn [resolve snd].
  - (* linked, lists linked *)
    apply ir_resolve_first_def; [exact (wf_canonical_nodup p LLinked Hwf) | exact (in_modules_canonical p LLinked r Hr)].
  - (* linked, lists external *)
    rewrite ir_resolve_first_def; [| exact (modules_nodup p Hwf) | exact Hr].
    unfold canonical, lists_of, ld_resolve.
    change (p_main p :: p_imports p ++ [p_lists_obj p]) with ((p_main p :: p_imports p) ++ [p_lists_obj p]).
    rewrite first_def_app. reflexivity.
  - (* separate, lists linked into the main object *)
    unfold ld_resolve. cbn [first_def]. rewrite find_def_ir_link, <- first_def_app. cbn [app].
    apply link_order_irrelevant.
    + unfold canonical, lists_of. apply perm_skip. apply Permutation_cons_append.
    + eapply Permutation_NoDup; [| exact (wf_canonical_nodup p LLinked Hwf)].
      apply Permutation_flat_map. unfold canonical, lists_of. apply perm_skip. apply Permutation_sym, Permutation_cons_append.
  - (* separate, lists external *)
    reflexivity.
Qed.

Lemma canonical_lists_irrelevant p s : wf p -> first_def (canonical LLinked p) s = first_def (canonical LExternal p) s.
Proof.
  intros Hwf. unfold canonical, lists_of.
  change (p_main p :: p_imports p ++ [p_lists_src p]) with ((p_main p :: p_imports p) ++ [p_lists_src p]).
  change (p_main p :: p_imports p ++ [p_lists_obj p]) with ((p_main p :: p_imports p) ++ [p_lists_obj p]).
  rewrite !first_def_app. cbn [first_def]. rewrite (wf_lists_same p Hwf s). reflexivity.
Qed.

Theorem link_mode_irrelevant :
  forall md1 md2 p r s, wf p -> In r (p_modules p) -> resolve md1 p r s = resolve md2 p r s.
Proof.
  intros md1 md2 p r s Hwf Hr. rewrite !resolve_canonical by assumption.
  destruct md1 as [m1 [|]], md2 as [m2 [|]]; cbn [snd]; try reflexivity.
  - now apply canonical_lists_irrelevant.
  - symmetry. now apply canonical_lists_irrelevant.
Qed.

(* and it is bound to the definition of whichever module (or the list runtime) defines the symbol *)
Theorem resolve_is_the_definition :
  forall md p r s m b, wf p -> In r (p_modules p) -> In m (p_modules p ++ [p_lists_src p]) -> find_def m s = Some b ->
    resolve md p r s = Some b.
Proof.
  intros md p r s m b Hwf Hr Hm Hf.
  rewrite (link_mode_irrelevant md (MLinked, LLinked) p r s Hwf Hr), resolve_canonical by assumption. cbn [snd].
  apply (first_def_unique _ m); [exact (wf_canonical_nodup p LLinked Hwf) | | exact Hf].
  unfold canonical, lists_of, p_modules in *. exact Hm.
Qed.

Lemma existsb_eqb_in x l : existsb (N.eqb x) l = true <-> In x l.
Proof.
  rewrite existsb_exists. split.
  - intros [y [Hin E]]. apply N.eqb_eq in E. now subst.
  - intros Hin. exists x. split; [exact Hin | apply N.eqb_refl].
Qed.

Lemma nodupb_true l : nodupb l = true <-> NoDup l.
Proof.
  induction l as [|x l IH]; cbn [nodupb].
  - split; [constructor | reflexivity].
  - rewrite andb_true_iff, negb_true_iff, IH. split.
    + intros [Hx Hl]. constructor; [|exact Hl]. intros Hin. apply existsb_eqb_in in Hin. congruence.
    + intros H. inversion H as [|y ys Hn Hd]; subst. split; [|exact Hd].
      destruct (existsb (N.eqb x) l) eqn:E; [|reflexivity]. apply existsb_eqb_in in E. contradiction.
Qed.

(* where the NoDup hypothesis comes from: injective mangling (C10) *)
Section InjectiveMangling.
  Variables P Nm : Type.                 (* module paths, source-level names *)
  Variable mangle : P -> Nm -> sym.      (* DDP: mangle p n = mangled hash n p = (n, sha256 (hashable p)) *)
  Hypothesis mangle_inj : forall p n p' n', mangle p n = mangle p' n' -> p = p' /\ n = n'.

  Record smod := { s_path : P; s_defs : list (Nm * body); s_decls : list (P * Nm) }.

  Definition compile_mod (m : smod) : module :=
    map (fun nb => (mangle (s_path m) (fst nb), Def (snd nb))) (s_defs m) ++
    map (fun pn => (mangle (fst pn) (snd pn), Decl)) (s_decls m).

  Lemma defs_compile m : defs (compile_mod m) = map (fun nb => mangle (s_path m) (fst nb)) (s_defs m).
  Proof.
    unfold compile_mod, defs. rewrite flat_map_app.
    assert (E1 : forall l : list (Nm * body), flat_map (fun e : sym * entry => match snd e with Def _ => [fst e] | Decl => [] end)
                   (map (fun nb => (mangle (s_path m) (fst nb), Def (snd nb))) l) = map (fun nb => mangle (s_path m) (fst nb)) l).
    { induction l as [|a l IH]; cbn [map flat_map snd fst app]; [reflexivity | now rewrite IH]. }
    assert (E2 : forall l : list (P * Nm), flat_map (fun e : sym * entry => match snd e with Def _ => [fst e] | Decl => [] end)
                   (map (fun pn => (mangle (fst pn) (snd pn), Decl)) l) = []).
    { induction l as [|a l IH]; cbn [map flat_map snd fst app]; [reflexivity | exact IH]. }
    rewrite E1, E2. apply app_nil_r.
  Qed.

  Lemma in_defs_compile m x : In x (defs (compile_mod m)) -> exists n, x = mangle (s_path m) n /\ In n (map fst (s_defs m)).
  Proof.
    rewrite defs_compile. intros H. apply in_map_iff in H. destruct H as [[n b] [E Hin]]. cbn [fst] in E.
    exists n. split; [now symmetry|]. apply in_map_iff. exists (n, b). now split.
  Qed.

  Lemma nodup_defs_compile m : NoDup (map fst (s_defs m)) -> NoDup (defs (compile_mod m)).
  Proof.
    rewrite defs_compile. generalize (s_defs m) as l. induction l as [|[n b] l IH]; cbn [map fst]; intros H.
    - constructor.
    - inversion H as [|y ys Hn Hd]; subst. constructor; [|now apply IH].
      intros Hin. apply in_map_iff in Hin. destruct Hin as [[n' b'] [E Hin]]. cbn [fst] in E.
      apply mangle_inj in E. destruct E as [_ E]. subst n'. apply Hn. apply in_map_iff. exists (n, b'). now split.
  Qed.

  (* distinct module paths + distinct names inside each module  ==>  no symbol is defined twice *)
  Theorem injective_mangling_nodup ms :
    NoDup (map s_path ms) -> (forall m, In m ms -> NoDup (map fst (s_defs m))) ->
    NoDup (flat_map defs (map compile_mod ms)).
  Proof.
    induction ms as [|m ms IH]; cbn [map flat_map]; intros Hp Hn.
    - constructor.
    - inversion Hp as [|y ys Hnp Hdp]; subst. apply NoDup_app_intro.
      + apply nodup_defs_compile. apply Hn. now left.
      + apply IH; [exact Hdp|]. intros m' Hm'. apply Hn. now right.
      + intros x Hx Hx'. apply in_defs_compile in Hx. destruct Hx as [n [Ex _]].
        apply in_flat_map in Hx'. destruct Hx' as [cm [Hcm Hx']]. apply in_map_iff in Hcm. destruct Hcm as [m' [<- Hm']].
        apply in_defs_compile in Hx'. destruct Hx' as [n' [Ex' _]]. subst x. apply mangle_inj in Ex'. destruct Ex' as [Ep _].
        apply Hnp. rewrite Ep. now apply in_map.
  Qed.

  (* a whole program compiled from source modules is well-formed when, in addition, the list runtime's (unmangled,
     fixed) names are pairwise distinct and outside the range of the mangling, and the prebuilt object is the
     compiler's own output *)
  Theorem wf_of_injective_mangling (m0 : smod) (ms : list smod) (lists : module) :
    NoDup (map s_path (m0 :: ms)) -> (forall m, In m (m0 :: ms) -> NoDup (map fst (s_defs m))) ->
    NoDup (defs lists) -> (forall p n, ~ In (mangle p n) (defs lists)) ->
    wf {| p_main := compile_mod m0; p_imports := map compile_mod ms; p_lists_src := lists; p_lists_obj := lists |}.
  Proof.
    intros Hp Hn Hl Hr.
    assert (H : NoDup (flat_map defs (compile_mod m0 :: map compile_mod ms ++ [lists]))).
    { change (compile_mod m0 :: map compile_mod ms ++ [lists]) with (map compile_mod (m0 :: ms) ++ [lists]).
      rewrite flat_map_app. apply NoDup_app_intro.
      - now apply injective_mangling_nodup.
      - cbn [flat_map]. rewrite app_nil_r. exact Hl.
      - intros x Hx Hx'. cbn [flat_map] in Hx'. rewrite app_nil_r in Hx'.
        apply in_flat_map in Hx. destruct Hx as [cm [Hcm Hx]]. apply in_map_iff in Hcm. destruct Hcm as [m' [<- _]].
        apply in_defs_compile in Hx. destruct Hx as [n [-> _]]. exact (Hr _ _ Hx'). }
    constructor; cbn [p_main p_imports p_lists_src p_lists_obj]; [exact H | exact H | reflexivity].
  Qed.
End InjectiveMangling.

(* non-vacuity: the concrete three-module program *)
Lemma ex_prog_wf : wf ex_prog.
Proof.
  assert (H : NoDup (flat_map defs (p_main ex_prog :: p_imports ex_prog ++ [p_lists_src ex_prog]))).
  { apply nodupb_true. vm_compute. reflexivity. }
  constructor; [exact H | exact H | reflexivity].
Qed.

(* `closed` for a concrete program, by evaluation *)
Definition closedb (p : program) : bool :=
  forallb (fun m => forallb (fun e => match snd e, first_def (p_modules p ++ [p_lists_src p]) (fst e) with
                                      | Decl, None => false
                                      | _, _ => true
                                      end) m) (p_modules p).

Lemma closedb_closed p : closedb p = true -> closed p.
Proof.
  intros H m s Hm Hd. unfold closedb in H. rewrite forallb_forall in H. specialize (H m Hm).
  rewrite forallb_forall in H. specialize (H (s, Decl) Hd). cbn [fst snd] in H.
  destruct (first_def (p_modules p ++ [p_lists_src p]) s) as [b|] eqn:E; [|discriminate H].
  destruct (first_def_in _ _ _ E) as [m' [Hin Hf]]. exists m'. split; [exact Hin | congruence].
Qed.

Lemma ex_prog_closed : closed ex_prog.
Proof. apply closedb_closed. vm_compute. reflexivity. Qed.

(* f (symbol 10), referenced from main, is A's definition in all four modes; the list function 1 referenced from A is
   the list runtime's; B's global 12 referenced from A is B's *)
Example ex_prog_resolves :
  forall md, resolve md ex_prog ex_main 10%N = Some 110%N /\ resolve md ex_prog ex_A 1%N = Some 50%N /\
             resolve md ex_prog ex_A 12%N = Some 112%N /\ link_ok md ex_prog = true.
Proof. intros [[|] [|]]; vm_compute; repeat split; reflexivity. Qed.
