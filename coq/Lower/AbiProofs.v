(* C18 — proofs about the foreign-function convention model (Lower/Abi.v). *)
From Coq Require Import List Bool Arith Lia.
Import ListNotations.
From DDP Require Import Gen.AbiTables Lower.Abi.

(* the regenerated tables agree class by class; these four facts are what a change of ddptypes.h or of the
   compiler's struct construction would falsify *)
Lemma prim_rep_agree : forall p, ll_rep (ll_prim p) = c_rep (c_prim p).
Proof. intros p; destruct p; reflexivity. Qed.
Lemma string_rep_agree : ll_rep ll_string = c_rep c_string.
Proof. reflexivity. Qed.
Lemma any_rep_agree : ll_rep ll_any = c_rep c_any.
Proof. reflexivity. Qed.
Lemma list_rep_agree : forall l c, ll_rep l = c_rep c -> ll_rep (ll_list l) = c_rep (c_list c).
Proof.
  intros l c H. unfold ll_list, c_list, go_list_fields, hdr_list_fields.
  cbn [ll_rep c_rep map]. rewrite H. reflexivity.
Qed.

(* the fields of a Kombination by an inner induction on their list *)
Fixpoint ty_rep_agree (t : ty) : ll_rep (ll_ty t) = c_rep (c_ty t).
Proof.
  destruct t as [p | | | e | fs | u]; cbn [ll_ty c_ty].
  - apply prim_rep_agree.
  - apply string_rep_agree.
  - apply any_rep_agree.
  - apply list_rep_agree, ty_rep_agree.
  - cbn [ll_rep c_rep]. f_equal. rewrite !map_map.
    induction fs as [| x fs IH]; [reflexivity |]. cbn [map]. rewrite (ty_rep_agree x), IH. reflexivity.
  - apply ty_rep_agree.
Qed.

Lemma param_rep_agree : forall p, ll_rep (ll_param p) = c_rep (c_param p).
Proof.
  intros p. unfold ll_param, c_param.
  destruct (negb (p_ref p) && is_prim (p_ty p)).
  - apply ty_rep_agree.
  - cbn [ll_rep c_rep]. rewrite ty_rep_agree. reflexivity.
Qed.

Lemma params_rep_agree : forall ps, map ll_rep (map ll_param ps) = map c_rep (map c_param ps).
Proof. intros ps. rewrite !map_map. apply map_ext. exact param_rep_agree. Qed.

Lemma sig_lowering_is_abi : forall s, abi_of_ir (lower_sig s) = abi_of_c (c_sig s).
Proof.
  intros [n ps r]. unfold lower_sig, c_sig, abi_of_ir, abi_of_c, ret_is_prim.
  cbn [s_ret s_params s_name].
  destruct r as [r |]; [destruct (is_prim r) |];
    cbn [negb is_name is_ret is_params cs_name cs_ret cs_params map ll_rep c_rep];
    rewrite ?ty_rep_agree, params_rep_agree; reflexivity.
Qed.

Lemma imported_decl_agrees : forall s, lower_sig_imported s = lower_sig s.
Proof.
  intros s. unfold lower_sig_imported, lower_sig. destruct (negb (ret_is_prim (s_ret s))); reflexivity.
Qed.

Lemma extern_visible_not_mangled :
  forall (M : Type) (modhash : M -> str) (d : fdecl) (m : M),
    d_extern_visible d = true -> mangled_name M modhash d m = d_name d.
Proof. intros M h d m H. unfold mangled_name. rewrite H, orb_true_r. reflexivity. Qed.

(* an ordinary function does carry the module suffix (so the statement above is not vacuous) *)
Lemma ordinary_is_mangled :
  forall (M : Type) (modhash : M -> str) (d : fdecl) (m : M),
    d_extern d = false -> d_extern_visible d = false ->
    exists pre, mangled_name M modhash d m = pre ++ mod_sep ++ modhash m.
Proof. intros M h d m H1 H2. unfold mangled_name. rewrite H1, H2. cbn [orb]. eexists. reflexivity. Qed.

(* the caller owns the parameter's value across the call *)
Definition owns (p : param) : bool := negb (p_ref p) && negb (is_prim (p_ty p)).
Definition make (k : argkind) (i : nat) : action := match k with ArgTemp => Claim i | ArgVar => Copy i end.

Lemma owns_true p : owns p = true <-> p_ref p = false /\ is_prim (p_ty p) = false.
Proof. unfold owns. rewrite andb_true_iff, !negb_true_iff. reflexivity. Qed.

Lemma arg_action_cases i p k :
  (p_ref p = true /\ arg_action i p k = PassRef i) \/
  (owns p = false /\ arg_action i p k = PassValue i) \/
  (owns p = true /\ arg_action i p k = make k i).
Proof. unfold arg_action, owns. destruct (p_ref p); [auto |]. destruct (is_prim (p_ty p)); auto. Qed.

Definition argval_of (i : nat) (p : param) : argval :=
  if p_ref p then VRefTo i else if is_prim (p_ty p) then VPrim i else VSlot i.
Fixpoint argvals (i : nat) (ps : list param) : list argval :=
  match ps with [] => [] | p :: r => argval_of i p :: argvals (S i) r end.

Lemma argvals_nth : forall ps i j p, nth_error ps j = Some p -> nth_error (argvals i ps) j = Some (argval_of (i + j) p).
Proof.
  induction ps as [| q ps IH]; intros i j p H; [destruct j; discriminate H |].
  destruct j as [| j]; cbn [nth_error argvals] in *.
  - injection H as H. subst q. rewrite Nat.add_0_r. reflexivity.
  - rewrite (IH (S i) j p H), Nat.add_succ_r. reflexivity.
Qed.

(* Abi.v spells owns out in owned_indices and temp_indices: their unfolding, stated with it *)
Lemma owned_cons b p ps : owned_indices b (p :: ps) = (if owns p then [b] else []) ++ owned_indices (S b) ps.
Proof. reflexivity. Qed.
Lemma temp_cons b p ps k ks : temp_indices b (p :: ps) (k :: ks) =
  (if owns p then match k with ArgTemp => [b] | ArgVar => [] end else []) ++ temp_indices (S b) ps ks.
Proof. reflexivity. Qed.

Lemma owned_spec : forall ps b n,
  In n (owned_indices b ps) <-> exists j p, nth_error ps j = Some p /\ owns p = true /\ n = b + j.
Proof.
  induction ps as [| q ps IH]; intros b n.
  - split; [intros [] | intros (j & p & H & _)]. destruct j; discriminate H.
  - rewrite owned_cons, in_app_iff, IH. split.
    + intros [H | (j & p & Hp & Ho & ->)].
      * destruct (owns q) eqn:Ho; [| destruct H]. destruct H as [<- | []]. exists 0, q. rewrite Nat.add_0_r. auto.
      * exists (S j), p. rewrite Nat.add_succ_r. auto.
    + intros (j & p & Hp & Ho & ->). destruct j as [| j]; cbn [nth_error] in Hp.
      * left. injection Hp as <-. rewrite Ho, Nat.add_0_r. left. reflexivity.
      * right. exists j, p. rewrite Nat.add_succ_r. auto.
Qed.

Lemma owned_nodup : forall ps b, NoDup (owned_indices b ps).
Proof.
  induction ps as [| p ps IH]; intros b; [constructor |].
  rewrite owned_cons. destruct (owns p); cbn [app]; [| apply IH].
  constructor; [| apply IH]. intros H. apply owned_spec in H. destruct H as (j & _ & _ & _ & H). lia.
Qed.

Lemma owned_slot ps n : In n (owned_indices 0 ps) -> nth_error (argvals 0 ps) n = Some (VSlot n).
Proof.
  intros H. apply owned_spec in H. destruct H as (j & p & Hp & Ho & ->). cbn [Nat.add].
  rewrite (argvals_nth _ 0 j p Hp). apply owns_true in Ho. destruct Ho as [Hr Hprim].
  unfold argval_of. rewrite Hr, Hprim. reflexivity.
Qed.

Lemma free_actions_owned (rp : bool) : forall ps b,
  free_actions rp b ps = map (fun j => FreeArg (if rp then j else S j)) (owned_indices b ps).
Proof.
  induction ps as [| p ps IH]; intros b; [reflexivity |].
  cbn [free_actions owned_indices]. rewrite map_app, IH.
  destruct (p_ref p); [reflexivity |]. destruct (is_prim (p_ty p)); reflexivity.
Qed.

Lemma run_app : forall a b st,
  run st (a ++ b) = match run st a with Some st' => run st' b | None => None end.
Proof.
  induction a as [| x a IH]; intros b st; [reflexivity |].
  cbn [app run]. destruct (step st x); [apply IH | reflexivity].
Qed.

Lemma mem_last : forall l i, mem i (l ++ [i]) = true.
Proof.
  induction l as [| y l IH]; intros i; cbn [app mem]; [rewrite Nat.eqb_refl; reflexivity |].
  rewrite IH. apply orb_true_r.
Qed.
Lemma remove_last : forall l i, ~ In i l -> remove_one i (l ++ [i]) = l.
Proof.
  induction l as [| y l IH]; intros i H; cbn [app remove_one]; [rewrite Nat.eqb_refl; reflexivity |].
  destruct (Nat.eqb i y) eqn:E.
  - apply Nat.eqb_eq in E. subst y. exfalso. apply H. left. reflexivity.
  - rewrite IH; [reflexivity |]. intros HI. apply H. right. exact HI.
Qed.

(* one argument: its temporary, if it has one, is first among the scope's *)
Lemma step_arg i p k A SL T ro F :
  step {| st_args := A; st_slots := SL;
          st_temps := (if owns p then match k with ArgTemp => [i] | ArgVar => [] end else []) ++ T;
          st_called := false; st_result_owned := ro; st_freed := F |} (arg_action i p k)
  = Some {| st_args := A ++ [argval_of i p]; st_slots := (if owns p then [i] else []) ++ SL; st_temps := T;
            st_called := false; st_result_owned := ro; st_freed := F |}.
Proof.
  unfold arg_action, argval_of, owns. destruct (p_ref p); [reflexivity |].
  destruct (is_prim (p_ty p)); [reflexivity |]. destruct k; cbn; rewrite ?Nat.eqb_refl; reflexivity.
Qed.

Lemma arg_phase : forall ps ks i A SL F ro,
  length ks = length ps ->
  run {| st_args := A; st_slots := SL; st_temps := temp_indices i ps ks; st_called := false;
         st_result_owned := ro; st_freed := F |} (arg_actions i ps ks)
  = Some {| st_args := A ++ argvals i ps; st_slots := rev (owned_indices i ps) ++ SL; st_temps := [];
            st_called := false; st_result_owned := ro; st_freed := F |}.
Proof.
  induction ps as [| p ps IH]; intros ks i A SL F ro Hlen; destruct ks as [| k ks]; try discriminate Hlen.
  - cbn. rewrite app_nil_r. reflexivity.
  - injection Hlen as Hlen. rewrite temp_cons, owned_cons. cbn [arg_actions run argvals].
    rewrite step_arg, IH by exact Hlen. rewrite <- app_assoc.
    destruct (owns p); cbn [rev app]; rewrite <- ?app_assoc; reflexivity.
Qed.

(* the slots were pushed in order, so each release takes the last one; it finds the slot at the parameter's position,
   one further behind an out-slot *)
Lemma free_run (rp : bool) A T ro : forall l F,
  NoDup l -> (forall j, In j l -> nth_error A (if rp then j else S j) = Some (VSlot j)) ->
  run {| st_args := A; st_slots := rev l; st_temps := T; st_called := true; st_result_owned := ro; st_freed := F |}
      (map (fun j => FreeArg (if rp then j else S j)) l)
  = Some {| st_args := A; st_slots := []; st_temps := T; st_called := true; st_result_owned := ro;
            st_freed := F ++ l |}.
Proof.
  induction l as [| j l IH]; intros F Hnd Hnth.
  - cbn. rewrite app_nil_r. reflexivity.
  - inversion Hnd as [| ? ? Hj Hnd']; subst.
    cbn [map run step rev st_called st_args st_slots st_temps st_result_owned st_freed].
    rewrite (Hnth j (or_introl eq_refl)), mem_last, remove_last by (rewrite <- in_rev; exact Hj).
    rewrite IH; [| exact Hnd' | intros j' Hj'; apply Hnth; right; exact Hj'].
    rewrite <- app_assoc. reflexivity.
Qed.

Definition final_state (s : signature) : cstate :=
  let rp := ret_is_prim (s_ret s) in
  {| st_args := (if rp then [] else [VRet]) ++ argvals 0 (s_params s);
     st_slots := []; st_temps := []; st_called := true; st_result_owned := negb rp;
     st_freed := owned_indices 0 (s_params s) |}.

Lemma call_plan_runs : forall s ks,
  length ks = length (s_params s) ->
  run (init_state (temp_indices 0 (s_params s) ks)) (call_plan s ks) = Some (final_state s).
Proof.
  intros s ks Hlen. unfold call_plan, init_state, final_state. rewrite free_actions_owned.
  destruct (ret_is_prim (s_ret s)); cbn [app negb].
  - rewrite run_app, arg_phase by exact Hlen.
    cbn [app run step st_called st_args st_slots st_temps st_result_owned st_freed]. rewrite app_nil_r.
    apply (free_run true); [apply owned_nodup | apply owned_slot].
  - cbn [run step st_called st_args st_slots st_temps st_result_owned st_freed app].
    rewrite run_app, arg_phase by exact Hlen.
    cbn [app run step st_called st_args st_slots st_temps st_result_owned st_freed andb negb]. rewrite app_nil_r.
    apply (free_run false); [apply owned_nodup | intros j Hj; cbn [nth_error]; apply owned_slot, Hj].
Qed.

(* call_plan and call_plan_g differ in the free loop only *)
Lemma in_arg_actions a : forall ps ks b,
  In a (arg_actions b ps ks) <->
  exists j p k, nth_error ps j = Some p /\ nth_error ks j = Some k /\ a = arg_action (b + j) p k.
Proof.
  induction ps as [| q ps IH]; intros ks b.
  - split; [intros [] | intros (j & p & k & H & _)]. destruct j; discriminate H.
  - destruct ks as [| k0 ks].
    + split; [intros [] | intros (j & p & k & _ & H & _)]. destruct j; discriminate H.
    + cbn [arg_actions In]. rewrite IH. split.
      * intros [<- | (j & p & k & Hp & Hk & ->)].
        -- exists 0, q, k0. rewrite Nat.add_0_r. auto.
        -- exists (S j), p, k. rewrite Nat.add_succ_r. auto.
      * intros (j & p & k & Hp & Hk & ->). destruct j as [| j]; cbn [nth_error] in Hp, Hk.
        -- left. injection Hp as <-. injection Hk as <-. rewrite Nat.add_0_r. reflexivity.
        -- right. exists j, p, k. rewrite Nat.add_succ_r. auto.
Qed.

Definition plan_with (s : signature) (ks : list argkind) (frees : list action) : list action :=
  (if ret_is_prim (s_ret s) then [] else [AllocRet]) ++ arg_actions 0 (s_params s) ks ++ [Call]
  ++ (if ret_is_prim (s_ret s) then [] else [ResultTemp]) ++ frees.

Lemma in_plan_with a s ks frees :
  In a (plan_with s ks frees) <->
  (ret_is_prim (s_ret s) = false /\ (a = AllocRet \/ a = ResultTemp)) \/ a = Call \/
  (exists j p k, nth_error (s_params s) j = Some p /\ nth_error ks j = Some k /\ a = arg_action j p k) \/
  In a frees.
Proof.
  unfold plan_with. rewrite !in_app_iff, (in_arg_actions a _ _ 0).
  destruct (ret_is_prim (s_ret s)); cbn [In]; intuition congruence.
Qed.

Lemma in_call_plan a s ks :
  In a (call_plan s ks) <->
  (ret_is_prim (s_ret s) = false /\ (a = AllocRet \/ a = ResultTemp)) \/ a = Call \/
  (exists j p k, nth_error (s_params s) j = Some p /\ nth_error ks j = Some k /\ a = arg_action j p k) \/
  (exists n, FreeArg (if ret_is_prim (s_ret s) then n else S n) = a /\ In n (owned_indices 0 (s_params s))).
Proof.
  rewrite <- in_map_iff, <- free_actions_owned.
  exact (in_plan_with a s ks (free_actions (ret_is_prim (s_ret s)) 0 (s_params s))).
Qed.
Lemma in_call_plan_g a s gs ks :
  In a (call_plan_g s gs ks) <->
  (ret_is_prim (s_ret s) = false /\ (a = AllocRet \/ a = ResultTemp)) \/ a = Call \/
  (exists j p k, nth_error (s_params s) j = Some p /\ nth_error ks j = Some k /\ a = arg_action j p k) \/
  In a (free_actions_g (ret_is_prim (s_ret s)) 0 (s_params s) gs).
Proof. exact (in_plan_with a s ks (free_actions_g (ret_is_prim (s_ret s)) 0 (s_params s) gs)). Qed.

Lemma plan_make s ks k i :
  In (make k i) (call_plan s ks) <->
  exists p, nth_error (s_params s) i = Some p /\ nth_error ks i = Some k /\ owns p = true.
Proof.
  rewrite in_call_plan. split.
  - intros [[_ [H | H]] | [H | [(j & p & k0 & Hp & Hk & H) | (n & H & _)]]]; try (destruct k; discriminate H).
    destruct (arg_action_cases j p k0) as [[_ E] | [[_ E] | [Ho E]]]; rewrite E in H;
      try (destruct k; discriminate H).
    exists p. destruct k, k0; try discriminate H; injection H as ->; auto.
  - intros (p & Hp & Hk & Ho). right. right. left. exists i, p, k.
    destruct (arg_action_cases i p k) as [[Hr _] | [[Hn _] | [_ E]]]; [| congruence | auto].
    apply owns_true in Ho. destruct Ho. congruence.
Qed.

Lemma plan_free s ks n :
  In (FreeArg n) (call_plan s ks) ->
  exists i p, nth_error (s_params s) i = Some p /\ owns p = true /\
              n = i + (if ret_is_prim (s_ret s) then 0 else 1).
Proof.
  rewrite in_call_plan.
  intros [[_ [H | H]] | [H | [(j & p & k & _ & _ & H) | (m & H & Hm)]]]; try discriminate H.
  - destruct (arg_action_cases j p k) as [[_ E] | [[_ E] | [_ E]]]; rewrite E in H; destruct k; discriminate H.
  - apply owned_spec in Hm. destruct Hm as (i & p & Hp & Ho & ->). exists i, p.
    injection H as <-. destruct (ret_is_prim (s_ret s)); auto using Nat.add_0_r, Nat.add_1_r with arith.
Qed.

Lemma plan_passref s ks i p :
  length ks = length (s_params s) -> nth_error (s_params s) i = Some p -> p_ref p = true -> In (PassRef i) (call_plan s ks).
Proof.
  intros Hlen Hp Hr. apply in_call_plan. right. right. left.
  destruct (nth_error ks i) as [k |] eqn:Hk; [exists i, p, k; unfold arg_action; rewrite Hr; auto |].
  apply nth_error_None in Hk. assert (i < length (s_params s)) by (apply nth_error_Some; congruence). lia.
Qed.

(* the statement of Props/C18.v *)
Lemma extern_call_ownership : forall s ks,
  length ks = length (s_params s) ->
  exists st,
    run (init_state (temp_indices 0 (s_params s) ks)) (call_plan s ks) = Some st /\
    (* every value the caller made for the call has been released, exactly once, after the call *)
    st_slots st = [] /\ NoDup (st_freed st) /\
    (forall i, In i (st_freed st) <->
       exists p, nth_error (s_params s) i = Some p /\ p_ref p = false /\ is_prim (p_ty p) = false) /\
    (* no argument temporary is left to the scope (it would be released a second time) *)
    st_temps st = [] /\
    (* the result is an owned temporary exactly when it is not primitive *)
    st_result_owned st = negb (ret_is_prim (s_ret s)) /\
    (* what the callee received per parameter *)
    (forall i p, nth_error (s_params s) i = Some p ->
       nth_error (st_args st) (i + (if ret_is_prim (s_ret s) then 0 else 1)) =
         Some (if p_ref p then VRefTo i else if is_prim (p_ty p) then VPrim i else VSlot i)) /\
    (ret_is_prim (s_ret s) = false -> nth_error (st_args st) 0 = Some VRet) /\
    (* copied iff the argument was not an owned temporary, claimed iff it was *)
    (forall i p k, nth_error (s_params s) i = Some p -> nth_error ks i = Some k ->
       p_ref p = false -> is_prim (p_ty p) = false ->
       In (match k with ArgTemp => Claim i | ArgVar => Copy i end) (call_plan s ks) /\
       ~ In (match k with ArgTemp => Copy i | ArgVar => Claim i end) (call_plan s ks)).
Proof.
  intros s ks Hlen. exists (final_state s). split; [apply call_plan_runs; exact Hlen |].
  unfold final_state. cbn [st_slots st_freed st_temps st_result_owned st_args].
  split; [reflexivity |]. split; [apply owned_nodup |]. split.
  { intros i. rewrite owned_spec. split.
    - intros (j & p & Hp & Ho & ->). exists p. split; [exact Hp | apply owns_true, Ho].
    - intros (p & Hp & Ho). exists i, p. split; [exact Hp |]. split; [apply owns_true, Ho | reflexivity]. }
  split; [reflexivity |]. split; [reflexivity |]. split.
  { intros i p H. destruct (ret_is_prim (s_ret s)); cbn [app].
    - rewrite Nat.add_0_r. rewrite (argvals_nth _ 0 i p H). reflexivity.
    - rewrite Nat.add_1_r. cbn [nth_error]. rewrite (argvals_nth _ 0 i p H). reflexivity. }
  split.
  { intros H. rewrite H. reflexivity. }
  intros i p k Hp Hk Hr Hprim. split.
  - apply (plan_make s ks k i). exists p. split; [exact Hp |]. split; [exact Hk | apply owns_true; auto].
  - intros H. assert (H' : In (make (match k with ArgTemp => ArgVar | ArgVar => ArgTemp end) i) (call_plan s ks))
      by (destruct k; exact H).
    apply plan_make in H'. destruct H' as (_ & _ & Hk' & _). destruct k; congruence.
Qed.

(* the index arithmetic of the free loop matters: with the off-by-one dropped (args[i] although the
   out-slot occupies position 0) the plan releases the out-slot or a wrong argument — the semantics
   rejects it. Witness: one Text parameter, Text result. *)
Definition bad_plan_example : list action := [AllocRet; Copy 0; Call; ResultTemp; FreeArg 0].
Lemma wrong_index_is_an_error : run (init_state []) bad_plan_example = None.
Proof. reflexivity. Qed.

Lemma gparam_compat : forall g, compat (ll_rep (ll_gparam g)) (c_rep (c_gparam g)).
Proof.
  intros [p | | [|]]; [left; apply param_rep_agree | right; reflexivity ..].
Qed.

Lemma gparams_compat : forall gs, Forall2 compat (map ll_rep (map ll_gparam gs)) (map c_rep (map c_gparam gs)).
Proof.
  induction gs as [| g gs IH]; [constructor |].
  cbn [map]. constructor; [apply gparam_compat | exact IH].
Qed.

(* ownership: the cast of the generic path does not change which slot is released *)
Lemma step_erase : forall st a, step st a = step st (erase_cast a).
Proof. intros st a; destruct a; reflexivity. Qed.

Lemma run_erase : forall p st, run st p = run st (map erase_cast p).
Proof.
  induction p as [| a p IH]; intros st; [reflexivity |].
  cbn [run map]. rewrite <- step_erase. destruct (step st a); [apply IH | reflexivity].
Qed.

Lemma free_actions_g_erase : forall ps gs rp i, map erase_cast (free_actions_g rp i ps gs) = free_actions rp i ps.
Proof.
  induction ps as [| p ps IH]; intros gs rp i; [reflexivity |].
  cbn [free_actions_g free_actions]. rewrite map_app, IH. f_equal.
  destruct (p_ref p); [reflexivity |]. destruct (is_prim (p_ty p)); [reflexivity |].
  destruct (is_list (p_ty p) && hd false gs); reflexivity.
Qed.

Lemma arg_actions_erase : forall ps ks i, map erase_cast (arg_actions i ps ks) = arg_actions i ps ks.
Proof.
  induction ps as [| p ps IH]; intros ks i; [reflexivity |].
  destruct ks as [| k ks]; [reflexivity |]. cbn [arg_actions map]. rewrite IH. f_equal.
  unfold arg_action. destruct (p_ref p); [reflexivity |]. destruct (is_prim (p_ty p)); [reflexivity |]. destruct k; reflexivity.
Qed.

Lemma call_plan_g_erase : forall s gs ks, map erase_cast (call_plan_g s gs ks) = call_plan s ks.
Proof.
  intros s gs ks. unfold call_plan_g, call_plan. rewrite !map_app, free_actions_g_erase, arg_actions_erase.
  destruct (ret_is_prim (s_ret s)); reflexivity.
Qed.

Lemma free_actions_g_casts : forall ps gs rp b k,
  In (FreeArgCast k) (free_actions_g rp b ps gs) ->
  exists j p, nth_error ps j = Some p /\ p_ref p = false /\ is_prim (p_ty p) = false /\ is_list (p_ty p) = true /\
              nth_error gs j = Some true /\ k = (b + j) + (if rp then 0 else 1).
Proof.
  induction ps as [| p ps IH]; intros gs rp b k H; [destruct H |].
  cbn [free_actions_g] in H. apply in_app_or in H. destruct H as [H | H].
  - destruct (p_ref p) eqn:Hr; [destruct H |]. destruct (is_prim (p_ty p)) eqn:Hp; [destruct H |].
    destruct H as [H | []]. destruct (is_list (p_ty p)) eqn:Hl; [| discriminate H].
    destruct gs as [| [|] gs]; try discriminate H. injection H as <-.
    exists 0, p. cbn [nth_error]. repeat split; try assumption. destruct rp; lia.
  - apply IH in H. destruct H as (j & q & H1 & H2 & H3 & H4 & H5 & ->).
    exists (S j), q. cbn [nth_error]. repeat split; try assumption; [| lia].
    destruct gs; [destruct j; discriminate H5 | exact H5].
Qed.

Lemma plan_cast s gs ks k : In (FreeArgCast k) (call_plan_g s gs ks) ->
  exists i p, nth_error (s_params s) i = Some p /\ p_ref p = false /\ is_prim (p_ty p) = false /\ is_list (p_ty p) = true /\
              nth_error gs i = Some true /\ k = i + (if ret_is_prim (s_ret s) then 0 else 1).
Proof.
  rewrite in_call_plan_g. intros [[_ [H | H]] | [H | [(j & p & k0 & _ & _ & H) | H]]]; try discriminate H.
  - destruct (arg_action_cases j p k0) as [[_ E] | [[_ E] | [_ E]]]; rewrite E in H; try discriminate H.
    destruct k0; discriminate H.
  - exact (free_actions_g_casts _ _ _ 0 k H).
Qed.

(* the un-shifted index in the cast branch, although an out-pointer occupies position 0, is an ownership error *)
Lemma generic_wrong_index_is_an_error :
  run (init_state []) [AllocRet; Copy 0; Call; ResultTemp; FreeArgCast 0] = None.
Proof. reflexivity. Qed.
