(* The generated list equality for lists of primitives (the equality function built in
   src/compiler/list_types.go): after the length test it calls libc memcmp on the element arrays and returns
   `icmp eq i32 %memcmp, 0`; memcmp is bound with its C return type int (6fc9b92).
   C specifies: memcmp returns 0 iff the two byte sequences are equal.  The element array of a Zahlen Liste is
   the sequence of the little-endian bytes of the 64-bit representatives. *)
From Coq Require Import ZArith List Bool Lia.
Import ListNotations.
From DDP Require Import Lang.F64 Lang.RefSem Lower.OpsProofs.
Open Scope Z_scope.

Fixpoint bytes (n : nat) (u : Z) : list Z :=
  match n with O => [] | S k => (u mod 256) :: bytes k (u / 256) end.

Definition le_bytes64 (u : Z) : list Z := bytes 8 u.

(* memcmp(p, q, n) == 0 *)
Definition memcmp_is_zero (a b : list Z) : bool := list_eqb Z.eqb a b.

Definition lower_list_eq_zahl (a b : list Z) : bool :=
  if negb (Nat.eqb (length a) (length b)) then false
  else memcmp_is_zero (flat_map (fun z => le_bytes64 (z mod 2^64)) a) (flat_map (fun z => le_bytes64 (z mod 2^64)) b).

Lemma list_eqb_spec : forall x y, list_eqb Z.eqb x y = true <-> x = y.
Proof.
  induction x as [|p x IH]; destruct y as [|q y]; cbn [list_eqb]; split; intros H; try reflexivity; try discriminate H.
  - apply andb_true_iff in H. destruct H as [H1 H2]. apply Z.eqb_eq in H1. apply IH in H2. now subst.
  - inversion H; subst. rewrite Z.eqb_refl. cbn. now apply IH.
Qed.

Lemma bytes_length : forall n u, length (bytes n u) = n.
Proof. induction n; intros; cbn [bytes length]; auto. Qed.

(* the little-endian bytes determine the number they were taken from, up to the width *)
Fixpoint unbytes (l : list Z) : Z := match l with [] => 0 | b :: r => b + 256 * unbytes r end.

Lemma unbytes_bytes : forall n u, unbytes (bytes n u) = u mod 256 ^ Z.of_nat n.
Proof.
  induction n as [|n IH]; intros u; cbn [bytes unbytes].
  - now rewrite Z.mod_1_r.
  - rewrite IH, Nat2Z.inj_succ, Z.pow_succ_r by lia. symmetry. apply Z.rem_mul_r; lia.
Qed.

Lemma app_inj_len : forall (A : Type) (l1 l2 r1 r2 : list A),
  length l1 = length l2 -> l1 ++ r1 = l2 ++ r2 -> l1 = l2 /\ r1 = r2.
Proof.
  induction l1 as [|x l1 IH]; destruct l2 as [|y l2]; cbn; intros r1 r2 HL H; try discriminate HL.
  - auto.
  - inversion H; subst. destruct (IH l2 r1 r2) as [E1 E2]; auto. now subst.
Qed.

Definition in_range (l : list Z) : Prop := Forall (fun z => min64 <= z <= max64) l.

(* gleich on Zahlen Listen: the emitted code answers wahr exactly for equal lists (same length, equal elements) *)
Theorem list_eq_lowering_correct : forall a b,
  in_range a -> in_range b -> (lower_list_eq_zahl a b = true <-> a = b).
Proof.
  unfold lower_list_eq_zahl, memcmp_is_zero.
  induction a as [|x a IH]; destruct b as [|y b]; intros Ha Hb; cbn [length Nat.eqb negb flat_map];
    split; intros H; try reflexivity; try discriminate H.
  - destruct (Nat.eqb (length a) (length b)) eqn:L; cbn [negb] in H; [|discriminate H].
    apply list_eqb_spec in H.
    apply app_inj_len in H; [|unfold le_bytes64; now rewrite !bytes_length].
    destruct H as [H1 H2].
    inversion Ha; subst. inversion Hb; subst.
    assert (E : x mod 2^64 = y mod 2^64).
    { apply (f_equal unbytes) in H1. unfold le_bytes64 in H1. rewrite !unbytes_bytes in H1.
      change (256 ^ Z.of_nat 8) with (2^64) in H1. now rewrite !Z.mod_mod in H1 by lia. }
    assert (x = y) by (rewrite <- (signed64_mod x), <- (signed64_mod y) by assumption; now rewrite E).
    subst. f_equal. apply (IH b); auto.
    rewrite L. cbn [negb]. now apply list_eqb_spec.
  - inversion H; subst. rewrite Nat.eqb_refl. cbn [negb]. now apply list_eqb_spec.
Qed.

(* Kommazahlen Listen (f7e8a0b): not memcmp but a loop over the elements that returns false at the first pair
   with `fcmp une` (unordered or not equal), true after the loop.  Elements are binary64 bit patterns. *)
Definition fcmp_une (x y : Z) : bool := negb (f_eq x y).

Fixpoint komma_loop (a b : list Z) : bool :=
  match a, b with
  | x :: a', y :: b' => if fcmp_une x y then false else komma_loop a' b'
  | _, _ => true
  end.

Definition lower_list_eq_komma (a b : list Z) : bool :=
  if negb (Nat.eqb (length a) (length b)) then false else komma_loop a b.
