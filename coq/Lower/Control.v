(* Block-level models of the control-flow lowering of src/compiler/compiler.go (DESIGN stage 3), over ABSTRACT
   sub-evaluators: the evaluation of an operand, a condition or a loop body is a parameter that may yield a value,
   stop the program (Laufzeitfehler) or diverge.

     short circuit                                  VisitBinaryExpr BIN_AND / BIN_OR (condbr + phi), VisitTernaryExpr TER_FALLS
     Solange / Mache ... Solange / Wiederhole n Mal  VisitWhileStmt (a Byte count is widened, f5edfd1)
     for-each over a list or a Text                 VisitForRangeStmt (cursor advanced by the element width)
     counting loop with a Kommazahl counter         VisitForStmt (bound and step cast to the index type, 37dd3f7)

   For each construct: a specification (sc_spec, while_spec, ...) over the same parameters, a small-step machine over the emitted
   basic blocks, and the theorem: the specification yields outcome r ==> the blocks reach exactly the exit that
   corresponds to r, with the same state.  Loops go by induction on the iteration count (the fuel of the
   specification).  The specifications transcribe RefSem's rules (shown in Lower/ControlRules.v) with eval /
   exec_block replaced by the parameters; no theorem connects them to RefSem.  A body's signals stand for RefSem's
   flow: BNext = FNext, BCont = FCont, BBreak = FBreak, BRet = FRet. *)
From Coq Require Import ZArith Bool List Lia.
Import ListNotations.
From DDP Require Import Lang.F64 Lang.RefSem Lower.Ops Lower.OpsProofs Lower.ForLoop.
Open Scope Z_scope.

(* outcome of a sub-evaluation *)
Inductive ores (St A : Type) : Type :=
| OVal (a : A) (s : St)      (* a value, new state *)
| OErr (s : St)              (* Laufzeitfehler: the program stops *)
| ODiv.                      (* the sub-evaluation does not terminate *)
Arguments OVal {St A}. Arguments OErr {St A}. Arguments ODiv {St A}.

(* how a loop body / statement block ends *)
Inductive bsig : Type := BNext | BCont | BBreak | BRet.

(* how a lowered construct ends *)
Inductive xres (St : Type) : Type := XLeave (s : St) | XRet (s : St) | XErr (s : St) | XDiv.
Arguments XLeave {St}. Arguments XRet {St}. Arguments XErr {St}. Arguments XDiv {St}.

Section ShortCircuit.
Variable St : Type.
Variable ev_l ev_r : St -> ores St bool.
Variable is_and : bool.       (* true: `und` (condbr lhs, trueBlock, leave); false: `oder` (condbr lhs, leave, falseBlock); the block that evaluates the right operand *)

(* the rule of RefSem.eval for und / oder: result, and how often the right operand was evaluated *)
Definition sc_spec (s : St) : ores St bool * nat :=
  match ev_l s with
  | OVal l s1 => if Bool.eqb l is_and then (ev_r s1, 1%nat) else (OVal l s1, 0%nat)
  | OErr s1 => (OErr s1, 0%nat)
  | ODiv => (ODiv, 0%nat)
  end.

Inductive scpc : Type := ScStart | ScRhs | ScLeave (from_rhs : bool) | ScDone | ScErr | ScDiv.
Record sccfg : Type := { sc_pc : scpc; sc_lhs : bool; sc_rhs : bool; sc_phi : bool; sc_st : St; sc_n : nat }.

Definition sc_step (c : sccfg) : sccfg :=
  match sc_pc c with
  | ScStart =>
      match ev_l (sc_st c) with
      | OVal l s1 =>
          {| sc_pc := if Bool.eqb l is_and then ScRhs else ScLeave false;
             sc_lhs := l; sc_rhs := sc_rhs c; sc_phi := sc_phi c; sc_st := s1; sc_n := sc_n c |}
      | OErr s1 => {| sc_pc := ScErr; sc_lhs := sc_lhs c; sc_rhs := sc_rhs c; sc_phi := sc_phi c; sc_st := s1; sc_n := sc_n c |}
      | ODiv => {| sc_pc := ScDiv; sc_lhs := sc_lhs c; sc_rhs := sc_rhs c; sc_phi := sc_phi c; sc_st := sc_st c; sc_n := sc_n c |}
      end
  | ScRhs =>
      match ev_r (sc_st c) with
      | OVal r s1 => {| sc_pc := ScLeave true; sc_lhs := sc_lhs c; sc_rhs := r; sc_phi := sc_phi c; sc_st := s1; sc_n := S (sc_n c) |}
      | OErr s1 => {| sc_pc := ScErr; sc_lhs := sc_lhs c; sc_rhs := sc_rhs c; sc_phi := sc_phi c; sc_st := s1; sc_n := S (sc_n c) |}
      | ODiv => {| sc_pc := ScDiv; sc_lhs := sc_lhs c; sc_rhs := sc_rhs c; sc_phi := sc_phi c; sc_st := sc_st c; sc_n := S (sc_n c) |}
      end
  | ScLeave from_rhs =>   (* phi [rhs, trueBlock / falseBlock], [lhs, startBlock] *)
      {| sc_pc := ScDone; sc_lhs := sc_lhs c; sc_rhs := sc_rhs c; sc_phi := if from_rhs then sc_rhs c else sc_lhs c;
         sc_st := sc_st c; sc_n := sc_n c |}
  | _ => c
  end.

Definition sc_obs (c : sccfg) : option (ores St bool * nat) :=
  match sc_pc c with
  | ScDone => Some (OVal (sc_phi c) (sc_st c), sc_n c)
  | ScErr => Some (OErr (sc_st c), sc_n c)
  | ScDiv => Some (ODiv, sc_n c)
  | _ => None
  end.

Definition sc_init (s : St) : sccfg :=
  {| sc_pc := ScStart; sc_lhs := false; sc_rhs := false; sc_phi := false; sc_st := s; sc_n := 0 |}.

Theorem shortcircuit_lowering_correct : forall s,
  sc_obs (sc_step (sc_step (sc_step (sc_init s)))) = Some (sc_spec s).
Proof.
  intros s. unfold sc_spec, sc_init.
  unfold sc_step at 3. cbn [sc_pc sc_st].
  destruct (ev_l s) as [l s1| s1|]; [|reflexivity|reflexivity].
  destruct (Bool.eqb l is_and) eqn:E.
  - unfold sc_step at 2. cbn [sc_pc sc_st].
    destruct (ev_r s1) as [r s2| s2|]; reflexivity.
  - reflexivity.
Qed.
End ShortCircuit.

Section Falls.
Variable St V : Type.
Variable ev_c : St -> ores St bool.
Variable ev_a ev_b : St -> ores St V.

(* the rule for falls: the condition first, then only the chosen side; (result, evaluations of a, of b) *)
Definition falls_spec (s : St) : ores St V * nat * nat :=
  match ev_c s with
  | OVal true s1 => (ev_a s1, 1%nat, 0%nat)
  | OVal false s1 => (ev_b s1, 0%nat, 1%nat)
  | OErr s1 => (OErr s1, 0%nat, 0%nat)
  | ODiv => (ODiv, 0%nat, 0%nat)
  end.

Inductive fpc : Type := FaStart | FaTrue | FaFalse | FaLeave (from_true : bool) | FaDone | FaErr | FaDiv.
Record facfg : Type := { fa_pc : fpc; fa_l : option V; fa_r : option V; fa_phi : option V; fa_st : St; fa_na : nat; fa_nb : nat }.

Definition fa_step (c : facfg) : facfg :=
  match fa_pc c with
  | FaStart =>
      match ev_c (fa_st c) with
      | OVal m s1 => {| fa_pc := if m then FaTrue else FaFalse; fa_l := fa_l c; fa_r := fa_r c; fa_phi := fa_phi c; fa_st := s1; fa_na := fa_na c; fa_nb := fa_nb c |}
      | OErr s1 => {| fa_pc := FaErr; fa_l := fa_l c; fa_r := fa_r c; fa_phi := fa_phi c; fa_st := s1; fa_na := fa_na c; fa_nb := fa_nb c |}
      | ODiv => {| fa_pc := FaDiv; fa_l := fa_l c; fa_r := fa_r c; fa_phi := fa_phi c; fa_st := fa_st c; fa_na := fa_na c; fa_nb := fa_nb c |}
      end
  | FaTrue =>
      match ev_a (fa_st c) with
      | OVal v s1 => {| fa_pc := FaLeave true; fa_l := Some v; fa_r := fa_r c; fa_phi := fa_phi c; fa_st := s1; fa_na := S (fa_na c); fa_nb := fa_nb c |}
      | OErr s1 => {| fa_pc := FaErr; fa_l := fa_l c; fa_r := fa_r c; fa_phi := fa_phi c; fa_st := s1; fa_na := S (fa_na c); fa_nb := fa_nb c |}
      | ODiv => {| fa_pc := FaDiv; fa_l := fa_l c; fa_r := fa_r c; fa_phi := fa_phi c; fa_st := fa_st c; fa_na := S (fa_na c); fa_nb := fa_nb c |}
      end
  | FaFalse =>
      match ev_b (fa_st c) with
      | OVal v s1 => {| fa_pc := FaLeave false; fa_l := fa_l c; fa_r := Some v; fa_phi := fa_phi c; fa_st := s1; fa_na := fa_na c; fa_nb := S (fa_nb c) |}
      | OErr s1 => {| fa_pc := FaErr; fa_l := fa_l c; fa_r := fa_r c; fa_phi := fa_phi c; fa_st := s1; fa_na := fa_na c; fa_nb := S (fa_nb c) |}
      | ODiv => {| fa_pc := FaDiv; fa_l := fa_l c; fa_r := fa_r c; fa_phi := fa_phi c; fa_st := fa_st c; fa_na := fa_na c; fa_nb := S (fa_nb c) |}
      end
  | FaLeave from_true =>   (* phi [lhs, trueBlock], [rhs, falseBlock] *)
      {| fa_pc := FaDone; fa_l := fa_l c; fa_r := fa_r c; fa_phi := if from_true then fa_l c else fa_r c;
         fa_st := fa_st c; fa_na := fa_na c; fa_nb := fa_nb c |}
  | _ => c
  end.

Definition fa_obs (c : facfg) : option (ores St V * nat * nat) :=
  match fa_pc c, fa_phi c with
  | FaDone, Some v => Some (OVal v (fa_st c), fa_na c, fa_nb c)
  | FaErr, _ => Some (OErr (fa_st c), fa_na c, fa_nb c)
  | FaDiv, _ => Some (ODiv, fa_na c, fa_nb c)
  | _, _ => None
  end.

Definition fa_init (s : St) : facfg :=
  {| fa_pc := FaStart; fa_l := None; fa_r := None; fa_phi := None; fa_st := s; fa_na := 0; fa_nb := 0 |}.

Theorem falls_lowering_correct : forall s,
  fa_obs (fa_step (fa_step (fa_step (fa_init s)))) = Some (falls_spec s).
Proof.
  intros s. unfold falls_spec, fa_init.
  unfold fa_step at 3. cbn [fa_pc fa_st].
  destruct (ev_c s) as [m s1| s1|]; [|reflexivity|reflexivity].
  destruct m; unfold fa_step at 2; cbn [fa_pc fa_st].
  - destruct (ev_a s1) as [v s2| s2|]; reflexivity.
  - destruct (ev_b s1) as [v s2| s2|]; reflexivity.
Qed.
End Falls.

Section WhileLoops.
Variable St : Type.
Variable ev_c : St -> ores St bool.
Variable body : St -> ores St bsig.

(* what the body's end means for the loop *)
Definition after_body (r : ores St bsig) (continue_with : St -> option (xres St)) : option (xres St) :=
  match r with
  | OVal BBreak s2 => Some (XLeave s2)
  | OVal BRet s2 => Some (XRet s2)
  | OVal _ s2 => continue_with s2          (* falls through or `Fahre mit der Schleife fort`: next test *)
  | OErr s2 => Some (XErr s2)
  | ODiv => Some XDiv
  end.

(* the rule of RefSem.loop_while over these parameters; None = more than n iterations *)
Fixpoint while_spec (n : nat) (s : St) : option (xres St) :=
  match n with
  | O => None
  | S n =>
    match ev_c s with
    | OVal false s1 => Some (XLeave s1)
    | OVal true s1 => after_body (body s1) (while_spec n)
    | OErr s1 => Some (XErr s1)
    | ODiv => Some XDiv
    end
  end.

(* Mache: ... Solange c.   (RefSem: SDoWhile = body, then loop_while) *)
Definition dowhile_spec (n : nat) (s : St) : option (xres St) := after_body (body s) (while_spec n).

(* blocks: condBlock (evaluate, condbr body leaveBlock), body (falls through / continue -> condBlock,
   break -> breakLeave), leaveBlock/breakLeave -> trueLeave *)
Inductive wpc : Type := WCond | WBody | WLeave | WRet | WErr | WDiv.

Definition w_step (c : wpc * St) : wpc * St :=
  let '(p, s) := c in
  match p with
  | WCond => match ev_c s with
             | OVal true s1 => (WBody, s1)
             | OVal false s1 => (WLeave, s1)
             | OErr s1 => (WErr, s1)
             | ODiv => (WDiv, s)
             end
  | WBody => match body s with
             | OVal BBreak s1 => (WLeave, s1)
             | OVal BRet s1 => (WRet, s1)
             | OVal _ s1 => (WCond, s1)
             | OErr s1 => (WErr, s1)
             | ODiv => (WDiv, s)
             end
  | _ => c
  end.

Fixpoint w_steps (k : nat) (c : wpc * St) : wpc * St :=
  match k with O => c | S k => w_steps k (w_step c) end.

Definition w_final (r : xres St) (c : wpc * St) : Prop :=
  match r with
  | XLeave s => c = (WLeave, s)
  | XRet s => c = (WRet, s)
  | XErr s => c = (WErr, s)
  | XDiv => fst c = WDiv
  end.

(* from the body block: the exits are reached in one step, otherwise the condition block is next *)
Lemma w_after_body : forall s1 r cont,
  after_body (body s1) cont = Some r ->
  (forall s2, cont s2 = Some r -> exists k, w_final r (w_steps k (WCond, s2))) ->
  exists k, w_final r (w_steps k (WBody, s1)).
Proof.
  intros s1 r cont H K. unfold after_body in H.
  destruct (body s1) as [[] s2|s2|] eqn:EB;
    try (injection H as <-; exists 1%nat; cbn [w_steps w_step]; rewrite EB; reflexivity);
    destruct (K s2 H) as [k Hk]; exists (S k); cbn [w_steps w_step]; rewrite EB; exact Hk.
Qed.

Theorem while_lowering_correct : forall n s r,
  while_spec n s = Some r -> exists k, w_final r (w_steps k (WCond, s)).
Proof.
  induction n as [|n IH]; intros s r H; [discriminate H|].
  cbn [while_spec] in H.
  destruct (ev_c s) as [[] s1|s1|] eqn:EC;
    try (injection H as <-; exists 1%nat; cbn [w_steps w_step]; rewrite EC; reflexivity).
  destruct (w_after_body s1 r _ H (fun s2 => IH s2 r)) as [k Hk].
  exists (S k). cbn [w_steps w_step]. rewrite EC. exact Hk.
Qed.

(* Wiederhole n Mal: i64 counter, decremented at the head of the body, tested `icmp ne counter, 0`.
   The rule of RefSem.loop_repeat: *)
Fixpoint repeat_spec (n : nat) (k : Z) (s : St) : option (xres St) :=
  match n with
  | O => None
  | S n => if k <=? 0 then Some (XLeave s) else after_body (body s) (repeat_spec n (k - 1))
  end.

Inductive rpc : Type := RpCond | RpBody | RpLeave | RpRet | RpErr | RpDiv.

Definition r_step (c : rpc * Z * St) : rpc * Z * St :=
  let '(p, m, s) := c in
  match p with
  | RpCond => if negb (m =? 0) then (RpBody, m, s) else (RpLeave, m, s)
  | RpBody =>
      let m' := sub64 m 1 in
      match body s with
      | OVal BBreak s1 => (RpLeave, m', s1)
      | OVal BRet s1 => (RpRet, m', s1)
      | OVal _ s1 => (RpCond, m', s1)
      | OErr s1 => (RpErr, m', s1)
      | ODiv => (RpDiv, m', s)
      end
  | _ => c
  end.

Fixpoint r_steps (k : nat) (c : rpc * Z * St) : rpc * Z * St :=
  match k with O => c | S k => r_steps k (r_step c) end.

Definition r_final (r : xres St) (c : rpc * Z * St) : Prop :=
  match r with
  | XLeave s => fst (fst c) = RpLeave /\ snd c = s
  | XRet s => fst (fst c) = RpRet /\ snd c = s
  | XErr s => fst (fst c) = RpErr /\ snd c = s
  | XDiv => fst (fst c) = RpDiv
  end.

(* the count as the code stores it: floatOrByteAsInt of the evaluated count (a Byte is zero-extended) *)
Definition repeat_counter (v : value) : option Z :=
  match as_int (repr v) with LOk (MI64 u) => Some u | _ => None end.

Theorem repeat_lowering_correct : forall n k s r,
  0 <= k <= max64 ->
  repeat_spec n k s = Some r -> exists j, r_final r (r_steps j (RpCond, k mod 2^64, s)).
Proof.
  induction n as [|n IH]; intros k s r Hk H; [discriminate H|].
  cbn [repeat_spec] in H. unfold max64 in Hk. rewrite (Z.mod_small k) by lia.
  destruct (Z.leb_spec k 0) as [K|K].
  - injection H as <-. exists 1%nat. replace k with 0 by lia. cbn. auto.
  - assert (NZ : (k =? 0) = false) by (apply Z.eqb_neq; lia).
    assert (DEC : sub64 k 1 = (k - 1) mod 2^64) by (unfold sub64, m64; reflexivity).
    assert (Hk' : 0 <= k - 1 <= max64) by (unfold max64; lia).
    unfold after_body in H.
    destruct (body s) as [[] s2|s2|] eqn:EB;
      try (injection H as <-; exists 2%nat; cbn [r_steps r_step]; rewrite NZ; cbn [negb r_step]; rewrite EB; cbn; auto);
      destruct (IH _ _ _ Hk' H) as [j Hj]; exists (S (S j)); cbn [r_steps r_step]; rewrite NZ;
      cbn [negb r_step]; rewrite EB, DEC; exact Hj.
Qed.
End WhileLoops.

(* The iterated value was copied first; it is a sequence of (element, width) pairs: for a list every width is
   the element size, for a Text the width is the number of UTF-8 bytes of the Buchstabe (what
   utf8_string_to_char returns).  The code keeps a cursor (iter_ptr, here the byte offset), tests
   `iter_ptr != end_ptr`, fetches the element at the cursor into the loop variable, runs the body and advances
   the cursor by the width of the element just fetched; the optional index variable is an ordinary variable
   that is loaded, incremented and stored in the increment block. *)
Section ForEach.
Variable St : Type.
Variable body : St -> ores St bsig.
Variable set_var : St -> value -> St.        (* loop variable := element (copy) *)
Variable has_idx : bool.
Variable get_idx : St -> Z.
Variable set_idx : St -> Z -> St.

Fixpoint total (es : list (value * Z)) : Z :=
  match es with [] => 0 | e :: rest => snd e + total rest end.

(* the element that starts at byte offset o, with its width *)
Fixpoint fetch (es : list (value * Z)) (o : Z) : option (value * Z) :=
  match es with
  | [] => None
  | (v, w) :: rest => if o =? 0 then Some (v, w) else if o <? w then None else fetch rest (o - w)
  end.

Definition bump_idx (s : St) : St := if has_idx then set_idx s (wrap64 (get_idx s + 1)) else s.
Definition bump_idx_m (s : St) : St :=
  if has_idx then set_idx s (signed64 (add64 ((get_idx s) mod 2^64) 1)) else s.

(* the rule of RefSem.loop_each, the index variable through get_idx / set_idx (in RefSem it is a cell that is
   read and written) *)
Fixpoint each_spec (es : list (value * Z)) (s : St) : xres St :=
  match es with
  | [] => XLeave s
  | (v, _) :: rest =>
      match body (set_var s v) with
      | OVal BBreak s2 => XLeave s2
      | OVal BRet s2 => XRet s2
      | OVal _ s2 => each_spec rest (bump_idx s2)
      | OErr s2 => XErr s2
      | ODiv => XDiv
      end
  end.

Inductive epc : Type := ECond | EBody | EIncr (w : Z) | ELeave | ERet | EErr | EDiv | EStuck.

Section Machine.
Variable all : list (value * Z).       (* the copied container *)

Definition e_step (c : epc * Z * St) : epc * Z * St :=
  let '(p, o, s) := c in
  match p with
  | ECond => if negb (o =? total all) then (EBody, o, s) else (ELeave, o, s)
  | EBody =>
      match fetch all o with
      | None => (EStuck, o, s)            (* cursor inside an element: never reached, see the theorem *)
      | Some (v, w) =>
          match body (set_var s v) with
          | OVal BBreak s1 => (ELeave, o, s1)
          | OVal BRet s1 => (ERet, o, s1)
          | OVal _ s1 => (EIncr w, o, s1)   (* falls through, or continueBlock -> incrementBlock *)
          | OErr s1 => (EErr, o, s1)
          | ODiv => (EDiv, o, s)
          end
      end
  | EIncr w => (ECond, o + w, bump_idx_m s)
  | _ => c
  end.

Fixpoint e_steps (k : nat) (c : epc * Z * St) : epc * Z * St :=
  match k with O => c | S k => e_steps k (e_step c) end.

End Machine.

Definition e_final (r : xres St) (c : epc * Z * St) : Prop :=
  match r with
  | XLeave s => fst (fst c) = ELeave /\ snd c = s
  | XRet s => fst (fst c) = ERet /\ snd c = s
  | XErr s => fst (fst c) = EErr /\ snd c = s
  | XDiv => fst (fst c) = EDiv
  end.

Definition widths_pos (es : list (value * Z)) : Prop := Forall (fun e => 0 < snd e) es.

Lemma total_app : forall a b, total (a ++ b) = total a + total b.
Proof. induction a as [|[v w] a IH]; intros; cbn [total app snd]; [lia|]. rewrite IH. lia. Qed.

Lemma total_nonneg : forall es, widths_pos es -> 0 <= total es.
Proof.
  induction es as [|[v w] es IH]; intros H; cbn [total snd]; [lia|].
  inversion H; subst. cbn [snd] in *. specialize (IH H3). lia.
Qed.

Lemma fetch_at : forall pre v w rest, widths_pos pre ->
  fetch (pre ++ (v, w) :: rest) (total pre) = Some (v, w).
Proof.
  induction pre as [|[v0 w0] pre IH]; intros v w rest H.
  - cbn. reflexivity.
  - inversion H; subst. cbn [snd] in *. cbn [app fetch total snd].
    pose proof (total_nonneg pre H3).
    replace (w0 + total pre =? 0) with false by (symmetry; apply Z.eqb_neq; lia).
    replace (w0 + total pre <? w0) with false by (symmetry; apply Z.ltb_ge; lia).
    replace (w0 + total pre - w0) with (total pre) by lia. now apply IH.
Qed.

Lemma bump_agree : forall s, bump_idx_m s = bump_idx s.
Proof.
  intros s. unfold bump_idx_m, bump_idx. destruct has_idx; [|reflexivity]. f_equal.
  unfold add64, m64. change 1 with (1 mod 2^64) at 1. rewrite <- Zplus_mod.
  rewrite <- (wrap64_mod (get_idx s + 1)). apply signed64_mod. apply wrap64_in64.
Qed.

(* from any cursor position that is an element boundary *)
Theorem foreach_lowering_correct : forall rest pre s,
  widths_pos pre -> widths_pos rest ->
  exists k, e_final (each_spec rest s) (e_steps (pre ++ rest) k (ECond, total pre, s)).
Proof.
  induction rest as [|[v w] rest IH]; intros pre s Hp Hr.
  - exists 1%nat. cbn [e_steps e_step each_spec]. rewrite app_nil_r. rewrite Z.eqb_refl. cbn. auto.
  - inversion Hr; subst. cbn [snd] in *.
    assert (NE : negb (total pre =? total (pre ++ (v, w) :: rest)) = true).
    { rewrite total_app. cbn [total snd]. pose proof (total_nonneg rest H2).
      apply negb_true_iff. apply Z.eqb_neq. lia. }
    (* the next round starts at the boundary after (v, w) *)
    destruct (IH (pre ++ [(v, w)]) (bump_idx_m (match body (set_var s v) with OVal _ s2 => s2 | _ => s end)))
      as [k Hk]; [apply Forall_app; split; auto|assumption|].
    rewrite <- app_assoc, total_app in Hk. cbn [app total snd] in Hk. rewrite Z.add_0_r, bump_agree in Hk.
    cbn [each_spec].
    destruct (body (set_var s v)) as [[] s2|s2|] eqn:EB;
      try (exists 2%nat; cbn [e_steps e_step]; rewrite NE; cbn [e_step]; rewrite fetch_at, EB by assumption; cbn; now auto);
      exists (S (S (S k))); cbn [e_steps e_step]; rewrite NE; cbn [e_step]; rewrite fetch_at, EB by assumption;
      cbn [e_step]; rewrite bump_agree; exact Hk.
Qed.

End ForEach.

(* the two instances: lists (constant element size) and Texts (UTF-8 widths) *)
Definition list_cells (size : Z) (vs : list value) : list (value * Z) := map (fun v => (v, size)) vs.
Definition text_cells (cs : list Z) : list (value * Z) := map (fun c => (VC c, Z.of_nat (length (utf8 c)))) cs.

Section ForKomma.
Variable St : Type.
Variable eval_to : St -> ores St value.         (* the end value: any numeric value *)
Variable body : St -> ores St bsig.
Variable set_var : St -> value -> St.

Definition numeric (v : value) : Prop := match v with VZ _ | VB _ | VK _ => wf v | _ => False end.

(* intOrByteAsFloat *)
Definition as_f (v : value) : option Z :=
  match as_float (repr v) with LOk (MF64 x) => Some x | _ => None end.

Lemma as_f_to_f : forall v, numeric v -> as_f v = to_f v.
Proof.
  intros v H. destruct v; cbn in H; try contradiction; unfold as_f; cbn [repr as_float to_f].
  - now rewrite tof_Z.
  - reflexivity.
  - reflexivity.
Qed.

(* the rule of RefSem.loop_for_k; the step arrives converted to double (stpf), as RefSem.exec converts it once
   before the loop *)
Fixpoint fork_spec (n : nat) (stpf i : Z) (s : St) : option (xres St) :=
  match n with
  | O => None
  | S n =>
    match eval_to s with
    | OVal tv s1 =>
        match to_f tv with
        | None => Some (XErr s1)
        | Some lim =>
            if (if f_lt stpf f_pos_zero then f_ge i lim else f_le i lim) then
              match body s1 with
              | OVal BBreak s2 => Some (XLeave s2)
              | OVal BRet s2 => Some (XRet s2)
              | OVal _ s2 => let i' := f_add i stpf in fork_spec n stpf i' (set_var s2 (VK i'))
              | OErr s2 => Some (XErr s2)
              | ODiv => Some XDiv
              end
            else Some (XLeave s1)
        end
    | OErr s1 => Some (XErr s1)
    | ODiv => Some XDiv
    end
  end.

Inductive kpc : Type := KCond | KUp | KDown | KBody | KIncr | KLeave | KRet | KErr | KDiv.

(* condBlock: fcmp olt (step as double) 0.0; loopUp/loopDown: evaluate To, cast to double, fcmp ole/oge;
   incrementBlock: fadd index, (step as double); store to the variable and to the index *)
Definition k_step (stpm : Z) (c : kpc * Z * St) : kpc * Z * St :=
  let '(p, idx, s) := c in
  match p with
  | KCond => if fcmp FOlt stpm (sitofp64 0) then (KDown, idx, s) else (KUp, idx, s)
  | KUp => match eval_to s with
           | OVal tv s1 => match as_f tv with
                           | Some lim => if fcmp FOle idx lim then (KBody, idx, s1) else (KLeave, idx, s1)
                           | None => (KErr, idx, s1)
                           end
           | OErr s1 => (KErr, idx, s1)
           | ODiv => (KDiv, idx, s)
           end
  | KDown => match eval_to s with
             | OVal tv s1 => match as_f tv with
                             | Some lim => if fcmp FOge idx lim then (KBody, idx, s1) else (KLeave, idx, s1)
                             | None => (KErr, idx, s1)
                             end
             | OErr s1 => (KErr, idx, s1)
             | ODiv => (KDiv, idx, s)
             end
  | KBody => match body s with
             | OVal BBreak s1 => (KLeave, idx, s1)
             | OVal BRet s1 => (KRet, idx, s1)
             | OVal _ s1 => (KIncr, idx, s1)
             | OErr s1 => (KErr, idx, s1)
             | ODiv => (KDiv, idx, s)
             end
  | KIncr => let add := f_add idx stpm in (KCond, add, set_var s (VK add))
  | _ => c
  end.

Fixpoint k_steps (stpm : Z) (k : nat) (c : kpc * Z * St) : kpc * Z * St :=
  match k with O => c | S k => k_steps stpm k (k_step stpm c) end.

Definition k_final (r : xres St) (c : kpc * Z * St) : Prop :=
  match r with
  | XLeave s => fst (fst c) = KLeave /\ snd c = s
  | XRet s => fst (fst c) = KRet /\ snd c = s
  | XErr s => fst (fst c) = KErr /\ snd c = s
  | XDiv => fst (fst c) = KDiv
  end.

Hypothesis to_numeric : forall s tv s1, eval_to s = OVal tv s1 -> numeric tv.

Lemma zero_f : sitofp64 0 = f_pos_zero.
Proof. vm_compute. reflexivity. Qed.

Lemma k_steps_add : forall m a b c, k_steps m (a + b) c = k_steps m b (k_steps m a c).
Proof. induction a; intros; cbn [k_steps Nat.add]; auto. Qed.

(* condBlock, then loopUp / loopDown: two steps to the body block or to an exit *)
Lemma k_entry : forall stpf i s,
  k_steps stpf 2 (KCond, i, s) =
  match eval_to s with
  | OVal tv s1 =>
      match to_f tv with
      | Some lim => if (if f_lt stpf f_pos_zero then f_ge i lim else f_le i lim) then (KBody, i, s1) else (KLeave, i, s1)
      | None => (KErr, i, s1)
      end
  | OErr s1 => (KErr, i, s1)
  | ODiv => (KDiv, i, s)
  end.
Proof.
  intros. cbn [k_steps k_step fcmp]. rewrite zero_f.
  destruct (eval_to s) as [tv s1| s1|] eqn:ET; [rewrite <- (as_f_to_f tv (to_numeric _ _ _ ET))|..];
    destruct (f_lt stpf f_pos_zero); cbn [k_step fcmp]; rewrite ET; reflexivity.
Qed.

Theorem forkomma_lowering_correct : forall stpf n i s r,
  fork_spec n stpf i s = Some r -> exists k, k_final r (k_steps stpf k (KCond, i, s)).
Proof.
  intros stpf. induction n as [|n IH]; intros i s r H; [discriminate H|].
  cbn [fork_spec] in H. pose proof (k_entry stpf i s) as TWO.
  destruct (eval_to s) as [tv s1| s1|]; [destruct (to_f tv) as [lim|]|..];
    try (injection H as <-; exists 2%nat; rewrite TWO; cbn; now auto).
  destruct (if f_lt stpf f_pos_zero then f_ge i lim else f_le i lim);
    [|injection H as <-; exists 2%nat; rewrite TWO; cbn; now auto].
  destruct (body s1) as [[] s2|s2|] eqn:EB;
    try (injection H as <-; exists (2 + 1)%nat; rewrite k_steps_add, TWO; cbn [k_steps k_step]; rewrite EB; cbn; now auto);
    destruct (IH _ _ _ H) as [k Hk]; exists (2 + S (S k))%nat; rewrite k_steps_add, TWO;
    cbn [k_steps k_step]; rewrite EB; exact Hk.
Qed.
End ForKomma.
