(* Operator lowering is correct: for every scalar operator, every admissible operand-type combination and ALL
   operand values, the LLVM operation the compiler emits (Lower/Ops.v) computes the value RefSem prescribes, on the
   machine representation [repr] of well-formed values [wf]. *)
From Coq Require Import ZArith Znumtheory Bool Lia List.
Import ListNotations.
From DDP Require Import Lang.Syntax Lang.F64 Lang.RefSem Lower.Ops.
Open Scope Z_scope.

(* Exported on purpose: importers' cbn / simpl leave integer and binary64 arithmetic alone (no `2^64` is computed);
   Lower/ExprCompile.v and Lower/StmtCompile.v check three times slower without it. *)
Arguments wrap64 : simpl never.
Arguments wrap32 : simpl never.
Arguments wrap8 : simpl never.
Arguments min64 : simpl never.
Arguments max64 : simpl never.
Arguments Z.pow : simpl never.
Arguments Z.modulo : simpl never.
Arguments Z.div : simpl never.
Arguments Z.rem : simpl never.
Arguments Z.mul : simpl never.
Arguments Z.add : simpl never.
Arguments Z.sub : simpl never.
Arguments Z.opp : simpl never.
Arguments Z.land : simpl never.
Arguments Z.lor : simpl never.
Arguments Z.lxor : simpl never.
Arguments f_of_Z : simpl never.
Arguments f_add : simpl never.
Arguments f_sub : simpl never.
Arguments f_mul : simpl never.
Arguments f_div : simpl never.
Arguments f_neg : simpl never.
Arguments f_canon : simpl never.
Arguments f_trunc : simpl never.
Arguments f_eq : simpl never.
Arguments f_lt : simpl never.
Arguments f_le : simpl never.
Arguments f_gt : simpl never.
Arguments f_ge : simpl never.
Arguments f_pos_zero : simpl never.

(* well-formed scalar values and their machine representation (Text and lists are outside: wf excludes them,
   repr gives them a dummy) *)
Definition wf (v : value) : Prop :=
  match v with
  | VZ z => min64 <= z <= max64
  | VB z => 0 <= z < 256
  | VC c => - 2^31 <= c < 2^31
  | VK b => f_canon b = b
  | VW _ => True
  | VT _ | VL _ _ => False
  end.

Definition repr (v : value) : mval :=
  match v with
  | VZ z => MI64 (z mod 2^64)
  | VB z => MI8 z
  | VW b => MI1 b
  | VC c => MI32 (c mod 2^32)
  | VK b => MF64 b
  | VT _ | VL _ _ => MI1 false
  end.

(* the signed interpretation of an n-bit representative, for any half range h = 2^(n-1) *)
Lemma wrap_mod : forall m h z, ((z + h) mod m - h) mod m = z mod m.
Proof. intros. rewrite Zminus_mod_idemp_l. f_equal. lia. Qed.

Lemma signed_mod : forall h z, 0 < h -> - h <= z < h ->
  (if z mod (2 * h) <? h then z mod (2 * h) else z mod (2 * h) - 2 * h) = z.
Proof.
  intros h z Hh H. destruct (Z_lt_le_dec z 0).
  - replace (z mod (2 * h)) with (z + 2 * h) by (apply Z.mod_unique with (q := -1); lia).
    destruct (Z.ltb_spec (z + 2 * h) h); lia.
  - rewrite Z.mod_small by lia. destruct (Z.ltb_spec z h); lia.
Qed.

Lemma retract_eqb : forall (f g : Z -> Z) x y, f (g x) = x -> f (g y) = y -> (g x =? g y) = (x =? y).
Proof.
  intros f g x y Hx Hy. destruct (Z.eqb_spec x y) as [->|N]; [apply Z.eqb_refl|].
  apply Z.eqb_neq. congruence.
Qed.

Lemma wrap64_mod : forall z, (wrap64 z) mod 2^64 = z mod 2^64.
Proof. intros z. apply wrap_mod. Qed.
Lemma wrap32_mod : forall z, (wrap32 z) mod 2^32 = z mod 2^32.
Proof. intros z. apply wrap_mod. Qed.

Lemma signed64_mod : forall z, min64 <= z <= max64 -> signed64 (z mod 2^64) = z.
Proof. intros z H. apply (signed_mod (2^63)); unfold min64, max64 in H; lia. Qed.
Lemma signed32_mod : forall z, - 2^31 <= z < 2^31 -> signed32 (z mod 2^32) = z.
Proof. intros z H. apply (signed_mod (2^31)); lia. Qed.

Lemma signed64_small : forall y, 0 <= y < 256 -> signed64 y = y.
Proof. intros y H. unfold signed64. destruct (y <? 2^63) eqn:C; [reflexivity|apply Z.ltb_ge in C; lia]. Qed.

Lemma mod64_eqb : forall x y, min64 <= x <= max64 -> min64 <= y <= max64 ->
  (x mod 2^64 =? y mod 2^64) = (x =? y).
Proof. intros x y Hx Hy. apply (retract_eqb signed64 (fun z => z mod 2^64)); now apply signed64_mod. Qed.
Lemma mod32_eqb : forall x y, - 2^31 <= x < 2^31 -> - 2^31 <= y < 2^31 ->
  (x mod 2^32 =? y mod 2^32) = (x =? y).
Proof. intros x y Hx Hy. apply (retract_eqb signed32 (fun z => z mod 2^32)); now apply signed32_mod. Qed.

Lemma bitwise_mod : forall (f : Z -> Z -> Z) (fb : bool -> bool -> bool),
  (forall a b i, Z.testbit (f a b) i = fb (Z.testbit a i) (Z.testbit b i)) -> fb false false = false ->
  forall k x y, 0 <= k -> f (x mod 2^k) (y mod 2^k) = f x y mod 2^k.
Proof.
  intros f fb S F k x y Hk. apply Z.bits_inj'. intros i _.
  rewrite S, !Z.testbit_mod_pow2, S by assumption. destruct (i <? k); [reflexivity|exact F].
Qed.

Lemma lnot_mod : forall z k, 0 <= k -> Z.lxor (z mod 2^k) (2^k - 1) = (- z - 1) mod 2^k.
Proof.
  intros z k Hk. replace (- z - 1) with (Z.lnot z) by (unfold Z.lnot; lia).
  replace (2^k - 1) with (Z.ones k) by (rewrite Z.ones_equiv; lia).
  apply Z.bits_inj'. intros i Hi.
  rewrite Z.lxor_spec, !Z.testbit_mod_pow2, Z.testbit_ones, Z.lnot_spec by assumption.
  rewrite (proj2 (Z.leb_le 0 i) Hi). destruct (i <? k), (Z.testbit z i); reflexivity.
Qed.

Lemma mod_mod_256 : forall z, (z mod 2^64) mod 256 = z mod 256.
Proof.
  intros. symmetry. apply Zmod_div_mod; try lia. exists (2^56). reflexivity.
Qed.
Lemma mod_mod_32 : forall z, (z mod 2^64) mod 2^32 = z mod 2^32.
Proof.
  intros. symmetry. apply Zmod_div_mod; try lia. exists (2^32). reflexivity.
Qed.

Ltac inv H := inversion H; subst; clear H.

Section Proofs.
Variable pow : Z -> Z -> Z.
Variable log10 : Z -> Z.
Variable fmt_float : Z -> list Z.

Notation bin_op := (RefSem.bin_op pow log10).
Notation lower_bin := (Ops.lower_bin pow log10).

Definition scalar_binop (op : binop) : bool :=
  match op with BConcat | BIndex | BSliceTo | BSliceFrom => false | _ => true end.

Lemma small_byte_mod : forall y, 0 <= y < 256 -> y mod 2^64 = y.
Proof. intros. apply Z.mod_small. lia. Qed.

Lemma zext_mod : forall y, 0 <= y < 256 -> zext8_64 y = y mod 2^64.
Proof. intros. unfold zext8_64. now rewrite small_byte_mod. Qed.

Lemma tof_Z : forall z, min64 <= z <= max64 -> sitofp64 (z mod 2^64) = f_of_Z z.
Proof. intros. unfold sitofp64. now rewrite signed64_mod. Qed.

(* what the integer / float view of a value is on its representation (floatOrByteAsInt, intOrByteAsFloat) *)
Lemma to_i_repr : forall v z, wf v -> to_i v = Some z ->
  min64 <= z <= max64 /\ as_int (repr v) = LOk (MI64 (z mod 2^64)).
Proof.
  intros v z W H. destruct v; inv H; cbn in W; cbn [repr as_int].
  - split; [exact W|reflexivity].
  - unfold zext8_64, min64, max64. rewrite small_byte_mod by assumption. split; [lia|reflexivity].
Qed.

Lemma to_f_repr : forall v x, wf v -> to_f v = Some x -> as_float (repr v) = LOk (MF64 x).
Proof.
  intros v x W H. destruct v; inv H; cbn in W; cbn [repr as_float]; try reflexivity.
  now rewrite tof_Z.
Qed.

Lemma is_f_repr : forall v, is_f (repr v) = is_K v.
Proof. destruct v; reflexivity. Qed.

Lemma add64_wrap : forall x y, add64 (x mod 2^64) (y mod 2^64) = wrap64 (x + y) mod 2^64.
Proof. intros. unfold add64, m64. now rewrite wrap64_mod, <- Zplus_mod. Qed.

Lemma sub64_wrap : forall x y, sub64 (x mod 2^64) (y mod 2^64) = wrap64 (x - y) mod 2^64.
Proof. intros. unfold sub64, m64. now rewrite wrap64_mod, <- Zminus_mod. Qed.

Lemma arith_correct : forall fz ff i64op i8op a b v,
  (forall x y, i64op (x mod 2^64) (y mod 2^64) = (fz x y) mod 2^64) ->
  (forall x y, i8op x y = wrap8 (fz x y)) ->
  wf a -> wf b ->
  arith fz ff a b = ROk v ->
  lower_arith i64op i8op ff (repr a) (repr b) = LOk (repr v).
Proof.
  intros fz ff i64op i8op a b v H64 H8 Wa Wb H.
  destruct a, b; cbn in Wa, Wb; try contradiction; cbn in H; inv H; cbn [repr lower_arith];
    rewrite ?tof_Z, ?zext_mod, ?wrap64_mod, ?H8, ?H64 by assumption; reflexivity.
Qed.

Lemma cmp_correct : forall fi ff sp up fp a b v,
  (forall x y, min64 <= x <= max64 -> min64 <= y <= max64 -> icmp64 sp (x mod 2^64) (y mod 2^64) = fi x y) ->
  (forall x y, icmp8 up x y = fi x y) ->
  (forall x y, fcmp fp x y = ff x y) ->
  wf a -> wf b ->
  compare fi ff a b = ROk v ->
  lower_cmp sp up fp (repr a) (repr b) = LOk (repr v).
Proof.
  intros fi ff sp up fp a b v H64 H8 HF Wa Wb H.
  assert (BR : forall y, 0 <= y < 256 -> min64 <= y <= max64) by (unfold min64, max64; intros; lia).
  destruct a, b; cbn in Wa, Wb; try contradiction; cbn in H; inv H; cbn [repr lower_cmp];
    rewrite ?tof_Z, ?zext_mod, ?HF, ?H8, ?H64 by auto; reflexivity.
Qed.

Lemma icmp_slt : forall x y, min64 <= x <= max64 -> min64 <= y <= max64 -> icmp64 ISlt (x mod 2^64) (y mod 2^64) = (x <? y).
Proof. intros. cbn. now rewrite !signed64_mod. Qed.
Lemma icmp_sle : forall x y, min64 <= x <= max64 -> min64 <= y <= max64 -> icmp64 ISle (x mod 2^64) (y mod 2^64) = (x <=? y).
Proof. intros. cbn. now rewrite !signed64_mod. Qed.
Lemma icmp_sgt : forall x y, min64 <= x <= max64 -> min64 <= y <= max64 -> icmp64 ISgt (x mod 2^64) (y mod 2^64) = (x >? y).
Proof. intros. cbn. now rewrite !signed64_mod. Qed.
Lemma icmp_sge : forall x y, min64 <= x <= max64 -> min64 <= y <= max64 -> icmp64 ISge (x mod 2^64) (y mod 2^64) = (x >=? y).
Proof. intros. cbn. now rewrite !signed64_mod. Qed.
Lemma icmp_slt0 : forall z, min64 <= z <= max64 -> icmp64 ISlt (z mod 2^64) 0 = (z <? 0).
Proof. intros z H. apply (icmp_slt z 0); [exact H|unfold min64, max64; lia]. Qed.

Lemma bit_correct : forall f a b v,
  (forall x y, f (x mod 2^64) (y mod 2^64) = (f x y) mod 2^64) ->
  wf a -> wf b ->
  bitop f a b = ROk v ->
  lower_bit f (repr a) (repr b) = LOk (repr v).
Proof.
  intros f a b v HF Wa Wb H.
  destruct a, b; cbn in Wa, Wb; try contradiction; cbn in H; inv H; cbn [repr lower_bit];
    rewrite ?zext_mod, ?wrap64_mod, ?HF by assumption; reflexivity.
Qed.

Lemma fbin_correct : forall ff a b v,
  wf a -> wf b -> fbin ff a b = ROk v ->
  lower_fcall ff (repr a) (repr b) = LOk (repr v).
Proof.
  intros ff a b v Wa Wb H.
  destruct a, b; cbn in Wa, Wb; try contradiction; cbn in H; inv H; cbn [repr lower_fcall as_float];
    repeat rewrite tof_Z by assumption; reflexivity.
Qed.

(* DURCH converts both operands like the libm calls do *)
Lemma lower_div_fcall : forall a b, lower_div a b = lower_fcall f_div a b.
Proof. destruct a, b; reflexivity. Qed.

(* the srem sequence of lower_mod on representatives: zero test, divisor -1 replaced by 1, srem *)
Lemma lower_srem : forall x y, min64 <= x <= max64 -> min64 <= y <= max64 ->
  (if y mod 2^64 =? 0 then LRtErr
   else of_opt MI64 (srem64 (x mod 2^64) (if y mod 2^64 =? m64 - 1 then 1 else y mod 2^64))) =
  (if y =? 0 then LRtErr else LOk (MI64 (Z.rem x y mod 2^64))).
Proof.
  intros x y Hx Hy.
  assert (B0 : min64 <= 0 <= max64) by (unfold min64, max64; lia).
  assert (B1 : min64 <= -1 <= max64) by (unfold min64, max64; lia).
  change 0 with (0 mod 2^64) at 1. change (m64 - 1) with ((-1) mod 2^64).
  rewrite !mod64_eqb by assumption. destruct (Z.eqb_spec y 0) as [|NZ]; [reflexivity|].
  unfold srem64, m64. destruct (Z.eqb_spec y (-1)) as [->|N1].
  - (* x rem -1 = 0, computed as x rem 1 *)
    change (1 =? 0) with false. change (signed64 1 =? -1) with false.
    rewrite andb_false_r, !Z.rem_1_r. change (-1) with (- (1)). rewrite Z.rem_opp_r, Z.rem_1_r by lia. reflexivity.
  - change 0 with (0 mod 2^64) at 1. rewrite mod64_eqb, !signed64_mod by assumption.
    rewrite (proj2 (Z.eqb_neq y 0) NZ), (proj2 (Z.eqb_neq y (-1)) N1), andb_false_r. reflexivity.
Qed.

Lemma mod_correct : forall a b,
  wf a -> wf b ->
  match modulo a b with
  | ROk v => lower_mod (repr a) (repr b) = LOk (repr v)
  | RErr => lower_mod (repr a) (repr b) = LRtErr
  | RUndef _ => True
  end.
Proof.
  intros a b Wa Wb.
  assert (BR : forall y, 0 <= y < 256 -> min64 <= y <= max64) by (unfold min64, max64; intros; lia).
  destruct a, b; cbn in Wa, Wb; try contradiction; cbn [modulo to_i]; try exact I; cbn [repr lower_mod].
  - (* Z Z *) rewrite lower_srem by assumption. destruct (z0 =? 0); reflexivity.
  - (* Z B *) rewrite (zext_mod z0 Wb), lower_srem by auto. destruct (z0 =? 0); reflexivity.
  - (* B Z *) rewrite (zext_mod z Wa), lower_srem by auto. destruct (z0 =? 0); reflexivity.
  - (* B B *) unfold urem8. destruct (z0 =? 0); reflexivity.
Qed.

Lemma sel64_ok : forall left z n, 0 <= n < 64 ->
  sel_shift64 left (z mod 2^64) n =
  (if left then wrap64 (z * 2 ^ n) else wrap64 ((z mod 2^64) / 2 ^ n)) mod 2^64.
Proof.
  intros left z n Hn. unfold sel_shift64. rewrite (proj2 (Z.ltb_lt n 64)) by lia.
  destruct left; rewrite wrap64_mod.
  - unfold m64. now rewrite Zmult_mod_idemp_l.
  - (* a logical shift right of a representative is a representative *)
    symmetry. apply Z.mod_small.
    assert (0 <= z mod 2^64 < 2^64) by (apply Z.mod_pos_bound; lia).
    assert (0 < 2 ^ n) by (apply Z.pow_pos_nonneg; lia).
    split; [apply Z.div_pos; lia|]. apply Z.div_lt_upper_bound; nia.
Qed.

Lemma sel64_out : forall left x n, 64 <= n -> sel_shift64 left x n = 0.
Proof. intros. unfold sel_shift64. rewrite (proj2 (Z.ltb_ge n 64)) by assumption. reflexivity. Qed.

(* a Zahl shift count as the unsigned count the instruction sees *)
Lemma shift_count : forall n, min64 <= n <= max64 ->
  if (n <? 0) || (64 <=? n) then 64 <= n mod 2^64 else 0 <= n < 64 /\ n mod 2^64 = n.
Proof.
  intros n H. unfold min64, max64 in H. destruct (Z.ltb_spec n 0); cbn [orb].
  - replace (n mod 2^64) with (n + 2^64) by (apply Z.mod_unique with (q := -1); lia). lia.
  - rewrite Z.mod_small by lia. destruct (Z.leb_spec 64 n); lia.
Qed.

Lemma shift_correct : forall left a b v,
  wf a -> wf b -> shift left a b = ROk v ->
  lower_shift left (repr a) (repr b) = LOk (repr v).
Proof.
  intros left a b v Wa Wb H.
  assert (BR : forall y, 0 <= y < 256 -> min64 <= y <= max64) by (unfold min64, max64; intros; lia).
  destruct a, b; cbn in Wa, Wb; try contradiction; cbn [shift to_i] in H; unfold ill in H; try discriminate H;
    cbn [repr lower_shift]; rewrite ?zext_mod by assumption.
  1, 2: (* a Zahl shifted *)
    pose proof (shift_count z0 ltac:(auto)) as C; destruct ((z0 <? 0) || (64 <=? z0)); inv H; cbn [repr];
    [now rewrite sel64_out|destruct C as [C ->]; rewrite sel64_ok by assumption; destruct left; reflexivity].
  - (* a Byte by a Zahl: the count truncated to i8 *)
    unfold trunc64_8, sel_shift8. rewrite mod_mod_256, Z.ltb_antisym.
    destruct (8 <=? z0 mod 256); inv H; destruct left; reflexivity.
  - unfold sel_shift8. rewrite Z.ltb_antisym. destruct (8 <=? z0); inv H; destruct left; reflexivity.
Qed.

Lemma eq_correct : forall a b r,
  wf a -> wf b -> ty_eqb (type_of a) (type_of b) = true -> value_eqb a b = Some r ->
  lower_eq (repr a) (repr b) = LOk (MI1 r).
Proof.
  intros a b r Wa Wb TE H.
  destruct a, b; cbn in Wa, Wb; try contradiction; cbn in TE; try discriminate TE; cbn in H; inv H;
    cbn [repr lower_eq fcmp]; try reflexivity.
  - now rewrite mod64_eqb.
  - now rewrite mod32_eqb.
Qed.

(* binary operators: on well-formed operands, whenever RefSem gives a value (no guard, no Laufzeitfehler) the
   emitted instructions compute its representation; all scalar operators, operand types and operand values *)
Theorem bin_lowering_correct : forall op a b v,
  wf a -> wf b -> scalar_binop op = true ->
  bin_op op a b = ROk v ->
  lower_bin op (repr a) (repr b) = LOk (repr v).
Proof.
  intros op a b v Wa Wb SC H.
  destruct op; cbn [scalar_binop] in SC; try discriminate SC; cbn [RefSem.bin_op] in H; cbn [Ops.lower_bin].
  - (* And *) destruct a, b; try discriminate H; inv H. cbn. destruct b0, b; reflexivity.
  - (* Or *) destruct a, b; try discriminate H; inv H. cbn. destruct b0, b; reflexivity.
  - (* Xor *) destruct a, b; try discriminate H; inv H. reflexivity.
  - (* Plus *) eapply arith_correct; eauto.
    + intros. unfold add64, m64. now rewrite <- Zplus_mod.
    + reflexivity.
  - (* Minus *) eapply arith_correct; eauto.
    + intros. unfold sub64, m64. now rewrite <- Zminus_mod.
    + reflexivity.
  - (* Mult *) eapply arith_correct; eauto.
    + intros. unfold mul64, m64. now rewrite <- Zmult_mod.
    + reflexivity.
  - (* Div *) rewrite lower_div_fcall. apply fbin_correct; auto.
  - (* Pow *) apply fbin_correct; auto.
  - (* Log *) apply fbin_correct; auto.
  - (* LogicAnd *) apply bit_correct; auto. intros. now apply (bitwise_mod Z.land andb Z.land_spec).
  - (* LogicOr *) apply bit_correct; auto. intros. now apply (bitwise_mod Z.lor orb Z.lor_spec).
  - (* LogicXor *) apply bit_correct; auto. intros. now apply (bitwise_mod Z.lxor xorb Z.lxor_spec).
  - (* Mod *) pose proof (mod_correct a b Wa Wb) as M. rewrite H in M. exact M.
  - (* Shl *) apply shift_correct; auto.
  - (* Shr *) apply shift_correct; auto.
  - (* Eq *)
    destruct (ty_eqb (type_of a) (type_of b)) eqn:TE; [|discriminate H].
    destruct (value_eqb a b) eqn:VE; [|discriminate H]. inv H.
    now apply eq_correct.
  - (* Ne *)
    destruct (ty_eqb (type_of a) (type_of b)) eqn:TE; [|discriminate H].
    destruct (value_eqb a b) eqn:VE; [|discriminate H]. inv H.
    rewrite (eq_correct a b b0) by assumption. cbn [repr]. destruct b0; reflexivity.
  - (* Lt *) eapply cmp_correct; eauto using icmp_slt; reflexivity.
  - (* Gt *) eapply cmp_correct; eauto using icmp_sgt; reflexivity.
  - (* Le *) eapply cmp_correct; eauto using icmp_sle; reflexivity.
  - (* Ge *) eapply cmp_correct; eauto using icmp_sge; reflexivity.
Qed.

(* a zero divisor: RefSem says Laufzeitfehler, the emitted code calls the runtime error before the instruction *)
Theorem mod_zero_lowering_correct : forall a b,
  wf a -> wf b -> bin_op BMod a b = RErr -> lower_bin BMod (repr a) (repr b) = LRtErr.
Proof. intros a b Wa Wb H. pose proof (mod_correct a b Wa Wb) as M. cbn [RefSem.bin_op] in H. rewrite H in M. exact M. Qed.

(* 200 als Byte durch 2,0 is 100: the Byte operand is converted unsigned (uitofp; sitofp would give -28) *)
Definition two_f : Z := 4611686018427387904.   (* 2.0 *)
Example div_byte_komma_witness :
  lower_bin BDiv (repr (VB 200)) (repr (VK two_f)) = LOk (repr (VK (f_of_Z 100))).
Proof. vm_compute. reflexivity. Qed.

Theorem un_lowering_correct : forall op a v,
  wf a -> op <> ULen ->
  un_op op a = ROk v ->
  lower_un op (repr a) = LOk (repr v).
Proof.
  intros op a v Wa NL H.
  destruct op; try congruence; destruct a; cbn in Wa; try contradiction;
    cbn in H; inv H; cbn [repr lower_un].
  - (* Abs Z *)
    rewrite icmp_slt0 by assumption. destruct (z <? 0); [|reflexivity]. f_equal. f_equal. apply (sub64_wrap 0 z).
  - (* Abs K *) cbn [fcmp]. rewrite Wa. reflexivity.
  - (* Abs B *) now rewrite zext_mod.
  - (* Neg Z *) f_equal. f_equal. apply (sub64_wrap 0 z).
  - (* Neg K *) reflexivity.
  - (* Neg B *) reflexivity.
  - (* Not *) destruct b; reflexivity.
  - (* LogicNot Z *) f_equal. f_equal. unfold m64. apply (lnot_mod z 64). lia.
  - (* LogicNot B *)
    f_equal. f_equal. pose proof (lnot_mod z 8) as L. rewrite Z.mod_small in L by lia.
    change (2^8 - 1) with 255 in L. rewrite L by lia.
    symmetry. apply Z.mod_unique with (q := -1); lia.
Qed.

(* `als` between scalar types; the implicit numeric conversions of declarations and assignments are the same *)
Definition scalar_ty (t : ty) : bool := match t with TText | TList _ => false | _ => true end.

Theorem cast_lowering_correct : forall t a v,
  wf a -> scalar_ty t = true ->
  cast_to fmt_float t a = ROk v ->
  lower_cast t (repr a) = LOk (repr v).
Proof.
  intros t a v Wa ST H.
  destruct t; cbn in ST; try discriminate ST; destruct a; cbn in Wa; try contradiction; cbn [cast_to] in H;
    try discriminate H; inv H; cbn [repr lower_cast as_int as_float as_byte];
    unfold sext32_64, trunc64_8, trunc64_32, zext8_32, wrap8;
    rewrite ?zext_mod, ?tof_Z, ?signed32_mod, ?mod_mod_256, ?wrap32_mod, ?mod_mod_32 by assumption;
    try reflexivity.
  - (* Zahl <- W *) destruct b; reflexivity.
  - (* Komma <- K *) now rewrite Wa.
  - (* Bool <- Z *) rewrite <- (mod64_eqb z 0 Wa) by (unfold min64, max64; lia). reflexivity.
  - (* Char <- B *) now rewrite Z.mod_small by lia.
Qed.

Theorem between_lowering_correct : forall x a b v,
  wf x -> wf a -> wf b ->
  between x a b = ROk v ->
  lower_between (repr x) (repr a) (repr b) = LOk (repr v).
Proof.
  intros x a b v Wx Wa Wb H. unfold between in H. unfold lower_between, ill in *. rewrite !is_f_repr.
  replace (is_K x || is_K b || is_K a) with (is_K x || is_K a || is_K b)
    by (destruct (is_K x), (is_K a), (is_K b); reflexivity).
  destruct (is_K x || is_K a || is_K b).
  - (* a Kommazahl among them: all three as double, ordered comparisons *)
    destruct (to_f x) as [fx|] eqn:Ex, (to_f a) as [fa|] eqn:Ea, (to_f b) as [fb|] eqn:Eb; try discriminate H.
    inv H. rewrite (to_f_repr x fx), (to_f_repr a fa), (to_f_repr b fb) by assumption. reflexivity.
  - destruct (to_i x) as [ix|] eqn:Ex, (to_i a) as [ia|] eqn:Ea, (to_i b) as [ib|] eqn:Eb; try discriminate H.
    inv H.
    destruct (to_i_repr x ix Wx Ex) as [Rx Ix], (to_i_repr a ia Wa Ea) as [Ra Ia], (to_i_repr b ib Wb Eb) as [Rb Ib].
    destruct (is_b (repr x) && is_b (repr b) && is_b (repr a)) eqn:B.
    + (* three Bytes: unsigned comparisons on i8 *)
      destruct x; try discriminate B; destruct a; try discriminate B; destruct b; try discriminate B.
      inv Ex. inv Ea. inv Eb. reflexivity.
    + (* otherwise widened to i64, signed comparisons *)
      rewrite Ix, Ia, Ib. cbn [repr]. rewrite !icmp_sgt, !icmp_slt by assumption. reflexivity.
Qed.

End Proofs.
