(* C02 — proofs over the finite cell space: completeness of the enumerations (so that a table decided by
   vm_compute is a statement about ALL cells), lowering_total for every cell, the consistency of the value
   contexts, the verdict of concatenated code, and the statement-level tables. *)
From Coq Require Import List Bool.
Import ListNotations.
From DDP Require Import Gen.OperatorEnum Lower.TcTable Lower.LowerTable Lower.Cells.

Ltac in_enum := cbv; repeat (first [left; reflexivity | right]).

Lemma all_unops_complete : forall op : unop, In op all_unops.
Proof. destruct op; in_enum. Qed.
Lemma all_binops_complete : forall op : binop, In op all_binops.
Proof. destruct op; in_enum. Qed.
Lemma all_terops_complete : forall op : terop, In op all_terops.
Proof. destruct op; in_enum. Qed.
Lemma all_castops_complete : forall op : castop, In op all_castops.
Proof. destruct op; in_enum. Qed.
Lemma all_bases_complete : forall b : base, In b all_bases.
Proof. destruct b; in_enum. Qed.
Lemma all_fields_complete : forall f : field, In f all_fields.
Proof. destruct f; in_enum. Qed.

(* the enumerations of Cells.v are products written with flat_map and map *)
Lemma in_map2 {A B C} (f : A -> B -> C) la lb a b :
  In a la -> In b lb -> In (f a b) (flat_map (fun a => map (f a) lb) la).
Proof. intros Ha Hb. apply in_flat_map. exists a. split; [exact Ha | apply in_map, Hb]. Qed.

Lemma in_map3 {A B C D} (f : A -> B -> C -> D) la lb lc a b c :
  In a la -> In b lb -> In c lc ->
  In (f a b c) (flat_map (fun a => flat_map (fun b => map (f a b) lc) lb) la).
Proof. intros Ha Hb Hc. apply in_flat_map. exists a. split; [exact Ha | apply (in_map2 (f a)); assumption]. Qed.

Lemma in_map4 {A B C D E} (f : A -> B -> C -> D -> E) la lb lc ld a b c d :
  In a la -> In b lb -> In c lc -> In d ld ->
  In (f a b c d) (flat_map (fun a => flat_map (fun b => flat_map (fun c => map (f a b c) ld) lc) lb) la).
Proof. intros Ha Hb Hc Hd. apply in_flat_map. exists a. split; [exact Ha | apply (in_map3 (f a)); assumption]. Qed.

Lemma all_tys_complete : forall t : ty, In t all_tys.
Proof.
  intros t. unfold all_tys. rewrite !in_app_iff.
  destruct t as [b | b | ]; auto using in_map, in_eq, all_bases_complete.
Qed.

Create HintDb enum.
Local Hint Resolve in_eq in_cons in_map all_unops_complete all_binops_complete all_terops_complete
  all_castops_complete all_fields_complete all_tys_complete : enum.

(* each constructor lies in its own segment of the enumeration *)
Lemma all_cells_complete : forall c : cell, In c all_cells.
Proof.
  intros c. unfold all_cells. rewrite !in_app_iff.
  destruct c;
    auto 8 using (in_map2 CUn), (in_map3 CBin), (in_map2 CField), (in_map4 CTer), (in_map3 CCast) with enum.
Qed.

Lemma all_ctxs_complete : forall x : ctx, In x all_ctxs.
Proof. intros x. unfold all_ctxs. rewrite !in_app_iff. destruct x; auto 8 with enum. Qed.

Lemma irty_eqb_eq : forall a b, irty_eqb a b = true <-> a = b.
Proof.
  intros [x | x] [y | y]; destruct x, y; cbn; split; intro H; try reflexivity; try discriminate H.
Qed.

Lemma any_judged_app j a b : any_judged j (a ++ b) = any_judged j a || any_judged j b.
Proof. induction a as [| i a IH]; [reflexivity |]. cbn [app any_judged]. rewrite IH. apply orb_assoc. Qed.

Lemma code_verdict_ok c : code_verdict c = VOk <-> any_judged Panic c = false /\ any_judged Ill c = false.
Proof.
  unfold code_verdict. split.
  - intros H. destruct (any_judged Panic c); [discriminate H |]. destruct (any_judged Ill c); [discriminate H |].
    split; reflexivity.
  - intros [-> ->]. reflexivity.
Qed.

Lemma code_verdict_app a b : code_verdict a = VOk -> code_verdict b = VOk -> code_verdict (a ++ b) = VOk.
Proof. rewrite !code_verdict_ok, !any_judged_app. intros [-> ->] [-> ->]. split; reflexivity. Qed.

Lemma code_verdict_not_reject c : code_verdict c <> VReject.
Proof. unfold code_verdict. destruct (any_judged Panic c), (any_judged Ill c); discriminate. Qed.

(* the boolean form in which ir_well_typed, ctx_ok and stmt_well_typed test a verdict *)
Lemma verdict_ok_true v : match v with VOk => true | _ => false end = true -> v = VOk.
Proof. destruct v; (reflexivity || discriminate). Qed.

Lemma cell_ok_spec : forall c, cell_ok c = true <->
  (forall t, tc c = Some t ->
     exists d v code, lower c = Ok d v code /\ ir_well_typed (Ok d v code) = true /\ d = ir t).
Proof.
  intros c. unfold cell_ok. split.
  - intros H t Ht. rewrite Ht in H. destruct (lower c) as [ | d v code] eqn:El; [discriminate H | ].
    apply andb_true_iff in H. destruct H as [Hw He].
    exists d, v, code. split; [reflexivity | ]. split; [exact Hw | ]. apply irty_eqb_eq. exact He.
  - intros H. destruct (tc c) as [t | ] eqn:Et; [ | reflexivity].
    destruct (H t eq_refl) as (d & v & code & El & Hw & He).
    rewrite El. apply andb_true_iff. split; [exact Hw | ]. apply irty_eqb_eq. exact He.
Qed.

Lemma bad_cells_computed : bad_cells = [].
Proof. vm_compute. reflexivity. Qed.

(* bad_cells is unfolded by hand: left to unification or to the conversion at Qed, comparing it with
   `filter _ all_cells` can evaluate the filter over all cells once more *)
Lemma all_cells_ok : forall c, cell_ok c = true.
Proof.
  intros c. destruct (cell_ok c) eqn:E; [reflexivity |]. exfalso.
  assert (H : In c bad_cells).
  { unfold bad_cells. rewrite filter_In. split; [apply all_cells_complete | rewrite E; reflexivity]. }
  rewrite bad_cells_computed in H. exact H.
Qed.

Lemma lowering_total :
  forall c t, tc c = Some t ->
    exists d v code, lower c = Ok d v code /\ ir_well_typed (Ok d v code) = true /\ d = ir t.
Proof. intros c t Ht. exact (proj1 (cell_ok_spec c) (all_cells_ok c) t Ht). Qed.

Lemma bad_ctxs_computed : bad_ctxs = [].
Proof. vm_compute. reflexivity. Qed.

(* every context the checker admits for a type is served by the code generator when the operand was lowered
   consistently *)
Lemma context_consistent :
  forall x t, ctx_admits x t = true -> ctx_ok x t = true.
Proof.
  intros x t Ha. destruct (ctx_ok x t) eqn:E; [reflexivity |]. exfalso.
  assert (H : In (x, t) bad_ctxs).
  { unfold bad_ctxs. rewrite filter_In. split; [apply (in_map2 pair); [apply all_ctxs_complete | apply all_tys_complete] |].
    cbn [fst snd]. rewrite Ha, E. reflexivity. }
  rewrite bad_ctxs_computed in H. exact H.
Qed.

Lemma all_stmts_complete : forall s : stmt, In s all_stmts.
Proof.
  intros s. unfold all_stmts. rewrite !in_app_iff.
  destruct s;
    auto 12 using (in_map2 SListCount), (in_map2 SListLit), (in_map3 SIndexAssign), (in_map3 SFor),
                  (in_map4 SForStep), (in_map2 SForRange) with enum.
Qed.

Definition every_in (g p : ty -> bool) : bool := forallb p (filter g all_tys).
Definition every : (ty -> bool) -> bool := every_in (fun _ => true).

Lemma every_in_spec g p : every_in g p = true -> forall t, g t = true -> p t = true.
Proof.
  intros H t Hg. apply (proj1 (forallb_forall _ _) H). apply filter_In. split; [apply all_tys_complete | exact Hg].
Qed.
Lemma every_spec p : every p = true -> forall t, p t = true.
Proof. intros H t. exact (every_in_spec _ p H t eq_refl). Qed.

(* counting loops: the checker demands a numeric class for counter, end and step, so of the 19^4 cells only the
   rows over those classes are evaluated *)
Lemma for_ok : forall cnt from to step,
  is_numeric cnt = true -> is_numeric to = true -> is_numeric step = true ->
  stmt_ok (SForStep cnt from to step) = true.
Proof.
  intros cnt from to step Hc Ht. revert step. apply every_in_spec. revert to Ht. apply every_in_spec.
  revert from. apply every_spec. revert cnt Hc. apply every_in_spec. vm_compute. reflexivity.
Qed.

Lemma all_stmts_ok : forall s, stmt_ok s = true.
Proof.
  intros s. destruct (tc_stmt s) eqn:Ht; [| unfold stmt_ok; rewrite Ht; reflexivity].
  destruct s as [n | c | c | n v | a b | cont idx val | cnt from to | cnt from to step | el inn]; cbn [tc_stmt] in Ht.
  - clear Ht. revert n. apply every_spec. vm_compute. reflexivity.
  - clear Ht. revert c. apply every_spec. vm_compute. reflexivity.
  - clear Ht. revert c. apply every_spec. vm_compute. reflexivity.
  - clear Ht. revert v. apply every_spec. revert n. apply every_spec. vm_compute. reflexivity.
  - clear Ht. revert b. apply every_spec. revert a. apply every_spec. vm_compute. reflexivity.
  - (* the index is a Zahl or a Byte *)
    rewrite !andb_true_iff in Ht. destruct Ht as [[Hi _] _].
    revert val. apply every_spec. revert idx Hi. apply every_in_spec. revert cont. apply every_spec.
    vm_compute. reflexivity.
  - (* the step the parser supplies: SFor is SForStep with default_step *)
    unfold tc_for in Ht. rewrite !andb_true_iff in Ht. destruct Ht as [[[_ Hc] Hto] Hs].
    exact (for_ok cnt from to (default_step cnt) Hc Hto Hs).
  - unfold tc_for in Ht. rewrite !andb_true_iff in Ht. destruct Ht as [[[_ Hc] Hto] Hs].
    exact (for_ok cnt from to step Hc Hto Hs).
  - clear Ht. revert inn. apply every_spec. revert el. apply every_spec. vm_compute. reflexivity.
Qed.

Lemma stmt_lowering_total :
  forall s, tc_stmt s = true ->
    exists code, lower_stmt s = SOk code /\ stmt_well_typed (SOk code) = true.
Proof.
  intros s Ht. pose proof (all_stmts_ok s) as H.
  unfold stmt_ok in H. rewrite Ht in H. cbn [negb orb] in H.
  destruct (lower_stmt s) as [ | code]; [discriminate H | ]. exists code. split; [reflexivity | exact H].
Qed.

Lemma stmt_verdict_ok :
  forall s, tc_stmt s = true -> verdict_stmt s = VOk.
Proof.
  intros s Ht. destruct (stmt_lowering_total s Ht) as (code & El & Hw).
  unfold verdict_stmt. rewrite Ht, El. cbn [negb]. apply verdict_ok_true, Hw.
Qed.
