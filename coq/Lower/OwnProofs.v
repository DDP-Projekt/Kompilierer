(* Soundness of the static ownership discipline (OwnCheck.own_check) for the run-time meaning of
   ownership actions (Own.run): accepted code yields a balanced ledger on every path. *)
From Coq Require Import List NArith Bool Arith Lia Permutation.
Import ListNotations.
From DDP Require Import Lower.ListFacts Rt.Heap Rt.HeapProofs Lower.Own Lower.OwnCheck.
Open Scope N_scope.

Lemma mem_In : forall x l, mem x l = true <-> In x l.
Proof.
  induction l as [|y l IH]; cbn [mem In].
  - split; [discriminate | tauto].
  - rewrite orb_true_iff, IH, Nat.eqb_eq. split; intros [H|H]; auto.
Qed.
Lemma mem_false : forall x l, mem x l = false <-> ~ In x l.
Proof. intros x l. rewrite <- mem_In. destruct (mem x l); split; congruence. Qed.
Lemma mem_spec : forall x l, reflect (In x l) (mem x l).
Proof. intros x l. apply iff_reflect. symmetry. apply mem_In. Qed.

Lemma ins_In : forall d l x, In x (ins d l) <-> x = d \/ In x l.
Proof.
  induction l as [|y l IH]; intro x; cbn [ins In].
  - intuition congruence.
  - destruct (Nat.ltb d y).
    + cbn [In]. intuition congruence.
    + destruct (Nat.eqb_spec d y) as [E|E].
      * subst y. cbn [In]. intuition congruence.
      * cbn [In]. rewrite IH. intuition congruence.
Qed.
Lemma ins_perm : forall d l, ~ In d l -> Permutation (ins d l) (d :: l).
Proof.
  induction l as [|y l IH]; intro H; cbn [ins].
  - apply Permutation_refl.
  - destruct (Nat.ltb d y); [apply Permutation_refl|].
    destruct (Nat.eqb_spec d y) as [E|E].
    + exfalso. apply H. left. auto.
    + eapply Permutation_trans; [apply perm_skip, IH | apply perm_swap].
      intro Hin. apply H. right. exact Hin.
Qed.
Lemma ins_nodup : forall d l, ~ In d l -> NoDup l -> NoDup (ins d l).
Proof.
  intros d l H N. eapply Permutation_NoDup; [apply Permutation_sym, ins_perm; exact H|].
  constructor; assumption.
Qed.
Lemma del_In : forall s l x, In x (del s l) <-> In x l /\ x <> s.
Proof.
  intros s l x. unfold del. rewrite filter_In. rewrite negb_true_iff, Nat.eqb_neq. intuition.
Qed.
Lemma del_nodup : forall s l, NoDup l -> NoDup (del s l).
Proof. intros. apply NoDup_filter. assumption. Qed.
Lemma del_notin : forall s l, ~ In s l -> del s l = l.
Proof.
  intros s l H. apply filter_all. intros x Hx. apply negb_true_iff, Nat.eqb_neq. intro E. subst x. exact (H Hx).
Qed.
Lemma del_perm : forall s l, NoDup l -> In s l -> Permutation l (s :: del s l).
Proof.
  induction l as [|y l IH]; intros N H.
  - destruct H.
  - inversion N as [|? ? Hn Hd]; subst. cbn [del filter].
    destruct (Nat.eqb_spec s y) as [E|E]; cbn [negb].
    + subst y. fold (del s l). rewrite (del_notin s l Hn). apply Permutation_refl.
    + destruct H as [H|H]; [congruence|].
      eapply Permutation_trans; [apply perm_skip, (IH Hd H) | apply perm_swap].
Qed.
Lemma leq_eq : forall a b, leq a b = true -> a = b.
Proof.
  induction a as [|x a IH]; destruct b as [|y b]; cbn [leq]; intro H; try discriminate H; [reflexivity|].
  apply andb_true_iff in H. destruct H as [H1 H2]. apply Nat.eqb_eq in H1. f_equal; [exact H1 | apply IH; exact H2].
Qed.
Lemma subset_incl : forall a b, subset a b = true <-> incl a b.
Proof.
  intros a b. unfold subset. rewrite forallb_forall. unfold incl.
  split; intros H x Hx; apply mem_In, H, Hx.
Qed.
Lemma inter_In : forall a b x, In x (inter a b) <-> In x a /\ In x b.
Proof. intros. unfold inter. rewrite filter_In, mem_In. tauto. Qed.

Lemma sub_refl_own : forall l, leq l l = true.
Proof. induction l as [|x l IH]; cbn [leq]; [reflexivity|]. rewrite Nat.eqb_refl. exact IH. Qed.
Lemma sub_refl : forall G, sub G G = true.
Proof.
  intro G. unfold sub. rewrite sub_refl_own. apply subset_incl, incl_refl.
Qed.


Definition somes (l : list (option blk)) : list blk :=
  flat_map (fun x => match x with Some b => [b] | None => [] end) l.
Definition slot_blocks (st : rstate) (s : nat) : list blk := somes (blocks_of (sget (r_store st) s)).
Definition owned (st : rstate) (own : list nat) : list blk := flat_map (slot_blocks st) own.

Lemma somes_app : forall a b, somes (a ++ b) = somes a ++ somes b.
Proof. intros. unfold somes. apply flat_map_app. Qed.
Lemma somes_cons : forall x l, somes (x :: l) = somes [x] ++ somes l.
Proof. intros. apply (somes_app [x] l). Qed.
Lemma somes_hd_tl : forall l, somes l = somes [hd None l] ++ somes (tl l).
Proof. intros [|x l]; [reflexivity | apply somes_cons]. Qed.

(* st' is st with slot d set to c, whatever else of the state changed *)
Definition stored (st st' : rstate) (d : nat) (c : content) : Prop :=
  forall s, sget (r_store st') s = if Nat.eqb s d then c else sget (r_store st) s.

Lemma stored_sset : forall st st1 d c, r_store st1 = r_store st -> stored st (sset st1 d c) d c.
Proof. intros st st1 d c E s. cbn. rewrite E. reflexivity. Qed.
Lemma stored_same : forall st st' d c, stored st st' d c -> sget (r_store st') d = c.
Proof. intros st st' d c H. rewrite H, Nat.eqb_refl. reflexivity. Qed.
Lemma stored_other : forall st st' d c s, stored st st' d c -> s <> d -> sget (r_store st') s = sget (r_store st) s.
Proof. intros st st' d c s H Hne. rewrite H. apply Nat.eqb_neq in Hne. rewrite Hne. reflexivity. Qed.

Lemma owned_ext : forall st st' own, (forall s, In s own -> sget (r_store st') s = sget (r_store st) s) ->
  owned st' own = owned st own.
Proof.
  intros st st' own H. unfold owned. induction own as [|s own IH]; [reflexivity|]. cbn [flat_map].
  rewrite IH; [|intros x Hx; apply H; right; exact Hx]. unfold slot_blocks. rewrite (H s); [reflexivity | left; reflexivity].
Qed.
Lemma owned_store : forall st st' own, r_store st' = r_store st -> owned st' own = owned st own.
Proof. intros st st' own E. apply owned_ext. intros s _. rewrite E. reflexivity. Qed.
Lemma owned_perm : forall st a b, Permutation a b -> Permutation (owned st a) (owned st b).
Proof. intros. unfold owned. apply Permutation_flat_map. assumption. Qed.
Lemma slot_blocks_in_owned : forall st s own b, In s own -> In b (slot_blocks st s) -> In b (owned st own).
Proof. intros st s own b Hs Hb. unfold owned. apply in_flat_map. exists s. split; assumption. Qed.

Lemma owned_del : forall st s own, NoDup own -> In s own ->
  Permutation (owned st own) (slot_blocks st s ++ owned st (del s own)).
Proof. intros st s own N H. apply (owned_perm st own (s :: del s own)), del_perm; assumption. Qed.
Lemma owned_give : forall st st' d l own, stored st st' d (Res l) -> ~ In d own ->
  Permutation (owned st' (ins d own)) (somes l ++ owned st own).
Proof.
  intros st st' d l own S H. eapply Permutation_trans; [apply owned_perm, ins_perm, H|]. cbn [owned flat_map].
  unfold slot_blocks at 1. rewrite (stored_same _ _ _ _ S). apply Permutation_app_head. fold (owned st' own).
  rewrite (owned_ext st st' own); [apply Permutation_refl|].
  intros s Hs. apply (stored_other _ _ _ _ _ S). intro E. subst s. exact (H Hs).
Qed.
Lemma owned_set : forall st st' d l own, stored st st' d (Res l) -> NoDup own -> In d own ->
  Permutation (owned st' own) (somes l ++ owned st (del d own)).
Proof.
  intros st st' d l own S N H. eapply Permutation_trans; [apply owned_del; eassumption|].
  unfold slot_blocks. rewrite (stored_same _ _ _ _ S). apply Permutation_app_head.
  rewrite (owned_ext st st'); [apply Permutation_refl|].
  intros s Hs. apply del_In in Hs. apply (stored_other _ _ _ _ _ S). tauto.
Qed.

Fixpoint afold (a : aheap) (L : ledger) : option aheap :=
  match L with
  | [] => Some a
  | e :: L' => match astep a e with inl a' => afold a' L' | inr _ => None end
  end.

Lemma afold_sound : forall L a h a', repr a h -> afold a L = Some a' -> exists h', steps h L h' /\ repr a' h'.
Proof.
  induction L as [|e L IH]; intros a h a' R H; cbn [afold] in H.
  - inversion H; subst. exists h. split; [constructor | exact R].
  - destruct (astep a e) as [a1|] eqn:E; [|discriminate H]. destruct (astep_sound _ _ _ _ R E) as [h1 [S1 R1]].
    destruct (IH _ _ _ R1 H) as [h' [S' R']]. exists h'. split; [econstructor; eassumption | exact R'].
Qed.
Lemma afold_complete : forall L a h h', repr a h -> steps h L h' -> exists a', afold a L = Some a' /\ repr a' h'.
Proof.
  induction L as [|e L IH]; intros a h h' R S; inversion S; subst; cbn [afold].
  - exists a. split; [reflexivity | exact R].
  - destruct (astep_complete _ _ _ _ R H2) as [a1 [E R1]]. rewrite E. eapply IH; eassumption.
Qed.


Definition heap_is (st : rstate) (B : list blk) : Prop :=
  exists a, afold [] (rev (r_led st)) = Some a /\ forall id n, alook a id = Some n <-> In (id, n) B.

Record Inv (G : ost) (st : rstate) : Prop := mkInv {
  inv_nd : NoDup (o_own G);
  inv_res : forall s, In s (o_own G) -> exists l, sget (r_store st) s = Res l;
  inv_dead : forall s, In s (o_dead G) -> exists l, sget (r_store st) s = Res l /\ somes l = [];
  inv_disj : forall s, In s (o_dead G) -> ~ In s (o_own G);
  inv_heap : heap_is st (owned st (o_own G));
  inv_uniq : NoDup (map fst (owned st (o_own G)));
  inv_fresh : forall id n, In (id, n) (owned st (o_own G)) -> 2 <= id < r_next st /\ n <> 0;
  inv_next : 2 <= r_next st
}.

(* The invariant has two independent halves: what the store holds in the owning and the emptied slots (shape), and
   that the ledger replays to exactly the multiset of blocks the owners hold (heap_ok). *)
Record shape (G : ost) (st : rstate) : Prop := mkShape {
  sh_nd : NoDup (o_own G);
  sh_res : forall s, In s (o_own G) -> exists l, sget (r_store st) s = Res l;
  sh_dead : forall s, In s (o_dead G) -> exists l, sget (r_store st) s = Res l /\ somes l = [];
  sh_disj : forall s, In s (o_dead G) -> ~ In s (o_own G)
}.
Definition hmap_is (h : hmap) (B : list blk) : Prop := forall id n, h id = Some n <-> In (id, n) B.
Record heap_ok (st : rstate) (B : list blk) : Prop := mkHeapOk {
  hk_heap : exists h, steps hempty (rev (r_led st)) h /\ hmap_is h B;
  hk_uniq : NoDup (map fst B);
  hk_fresh : forall id n, In (id, n) B -> 2 <= id < r_next st /\ n <> 0;
  hk_next : 2 <= r_next st
}.

Lemma Inv_shape : forall G st, Inv G st -> shape G st.
Proof. intros G st []. constructor; assumption. Qed.
Lemma Inv_heap : forall G st, Inv G st -> heap_ok st (owned st (o_own G)).
Proof.
  intros G st [? ? ? ? [a [Ha Hl]] ? ? ?]. constructor; try assumption.
  destruct (afold_sound _ _ _ _ repr_empty Ha) as [h [S [_ Rl]]]. exists h. split; [exact S|].
  intros id n. rewrite <- Rl. apply Hl.
Qed.

Lemma hmap_is_perm : forall h B B', Permutation B B' -> hmap_is h B -> hmap_is h B'.
Proof. intros h B B' P H id n. rewrite (H id n). split; apply Permutation_in; [|apply Permutation_sym]; exact P. Qed.
Lemma heap_ok_perm : forall st B B', Permutation B B' -> heap_ok st B -> heap_ok st B'.
Proof.
  intros st B B' P [[h [S Hh]] Hu Hf Hn]. constructor.
  - exists h. split; [exact S | exact (hmap_is_perm _ _ _ P Hh)].
  - eapply Permutation_NoDup; [apply Permutation_map; exact P | exact Hu].
  - intros id n Hin. apply Hf. eapply Permutation_in; [apply Permutation_sym; exact P | exact Hin].
  - exact Hn.
Qed.
Lemma heap_ok_frame : forall st st' B, r_led st' = r_led st -> r_next st' = r_next st -> heap_ok st B -> heap_ok st' B.
Proof. intros st st' B El En [Hh Hu Hf Hn]. constructor; rewrite ?El, ?En; assumption. Qed.

Lemma Inv_intro : forall G st B, shape G st -> heap_ok st B -> Permutation B (owned st (o_own G)) -> Inv G st.
Proof.
  intros G st B [] H P. destruct (heap_ok_perm _ _ _ P H) as [[h [S Hh]] ? ? ?]. constructor; try assumption.
  destruct (afold_complete _ _ _ _ repr_empty S) as [a [Ha [_ Rl]]]. exists a. split; [exact Ha|].
  intros id n. rewrite Rl. apply Hh.
Qed.

Lemma Inv_iff : forall G st, Inv G st <-> shape G st /\ heap_ok st (owned st (o_own G)).
Proof.
  intros G st. split; [intro I; split; [apply Inv_shape, I | apply Inv_heap, I]|].
  intros [S H]. exact (Inv_intro G st _ S H (Permutation_refl _)).
Qed.

Lemma Inv_sub : forall G' G st, Inv G' st -> sub G' G = true -> Inv G st.
Proof.
  intros G' G st [Hnd Hres Hdead Hdisj Hheap Huniq Hfresh Hnext] H.
  unfold sub in H. apply andb_true_iff in H. destruct H as [H1 H2].
  apply leq_eq in H1. apply subset_incl in H2.
  constructor; try rewrite <- H1; try assumption.
  - intros s Hs. apply Hdead. apply H2. exact Hs.
  - intros s Hs. apply Hdisj. apply H2. exact Hs.
Qed.

Lemma Inv_frame : forall G st st', r_store st' = r_store st -> r_led st' = r_led st -> r_next st' = r_next st ->
  Inv G st -> Inv G st'.
Proof.
  intros G st st' Es El En I. destruct (Inv_shape _ _ I) as [S1 S2 S3 S4].
  apply Inv_intro with (B := owned st (o_own G)).
  - constructor; rewrite ?Es; assumption.
  - apply (heap_ok_frame st); [exact El | exact En | apply Inv_heap, I].
  - rewrite (owned_store st st' _ Es). apply Permutation_refl.
Qed.

Lemma shape_ext : forall G st st', (forall s, sget (r_store st') s = sget (r_store st) s) -> shape G st -> shape G st'.
Proof. intros G st st' E [S1 S2 S3 S4]. constructor; try assumption; intros s Hs; rewrite E; auto. Qed.
Lemma shape_take : forall G st s, shape G st -> shape (take s G) st.
Proof.
  intros G st s [S1 S2 S3 S4]. constructor; cbn [take o_own o_dead].
  - apply del_nodup, S1.
  - intros x Hx. apply del_In in Hx. apply S2. tauto.
  - exact S3.
  - intros x Hx Hin. apply del_In in Hin. apply (S4 x Hx). tauto.
Qed.
Lemma shape_give : forall G st st' d l, shape G st -> stored st st' d (Res l) -> ~ In d (o_own G) -> shape (give d G) st'.
Proof.
  intros G st st' d l [S1 S2 S3 S4] S W. constructor; cbn [give o_own o_dead].
  - apply ins_nodup; assumption.
  - intros x Hx. apply ins_In in Hx. rewrite S. destruct (Nat.eqb_spec x d) as [E|E]; [eexists; reflexivity|].
    destruct Hx as [Hx|Hx]; [congruence | apply S2, Hx].
  - intros x Hx. apply del_In in Hx. destruct Hx as [Hx Hne]. rewrite (stored_other _ _ _ _ _ S Hne). apply S3, Hx.
  - intros x Hx. apply del_In in Hx. destruct Hx as [Hx Hne]. rewrite ins_In. intros [E|Hin]; [congruence | exact (S4 x Hx Hin)].
Qed.
Lemma shape_set : forall G st st' d l, shape G st -> stored st st' d (Res l) -> In d (o_own G) -> shape G st'.
Proof.
  intros G st st' d l [S1 S2 S3 S4] S M. constructor; try assumption.
  - intros x Hx. rewrite S. destruct (Nat.eqb x d); [eexists; reflexivity | apply S2, Hx].
  - intros x Hx. rewrite (stored_other _ _ _ _ _ S); [apply S3, Hx|]. intro E. subst x. exact (S4 d Hx M).
Qed.
Lemma shape_empty : forall G st st' a, shape G st -> stored st st' a (Res [None]) ->
  shape (mkO (del a (o_own G)) (ins a (o_dead G))) st'.
Proof.
  intros G st st' a [S1 S2 S3 S4] S. constructor; cbn [o_own o_dead].
  - apply del_nodup, S1.
  - intros x Hx. apply del_In in Hx. destruct Hx as [Hx Hne]. rewrite (stored_other _ _ _ _ _ S Hne). apply S2, Hx.
  - intros x Hx. apply ins_In in Hx. rewrite S. destruct (Nat.eqb_spec x a) as [E|E]; [exists [None]; split; reflexivity|].
    destruct Hx as [Hx|Hx]; [congruence | apply S3, Hx].
  - intros x Hx Hin. apply ins_In in Hx. apply del_In in Hin. destruct Hx as [Hx|Hx]; [tauto | exact (S4 x Hx (proj1 Hin))].
Qed.

Lemma hmap_add : forall h B r n, hmap_is h B -> (forall m, ~ In (r, m) B) -> hmap_is (hset h r (Some n)) ((r, n) :: B).
Proof.
  intros h B r n H Hr id m. unfold hset. cbn [In]. destruct (N.eqb_spec id r) as [E|E].
  - subst id. split; [intros [= <-]; left; reflexivity | intros [[= <-]|Hin]; [reflexivity | destruct (Hr m Hin)]].
  - rewrite (H id m). split; [auto | intros [[= E' _]|Hin]; [congruence | exact Hin]].
Qed.
Lemma hmap_del : forall h B p n, hmap_is h ((p, n) :: B) -> ~ In p (map fst B) -> hmap_is (hset h p None) B.
Proof.
  intros h B p n H Hp id m. unfold hset. destruct (N.eqb_spec id p) as [E|E].
  - subst id. split; [discriminate | intro Hin; destruct Hp; exact (in_map fst _ _ Hin)].
  - rewrite (H id m). split; [intros [[= E' _]|Hin]; [congruence | exact Hin] | intro Hin; right; exact Hin].
Qed.

Lemma heap_ok_event : forall st st' e B B', r_led st' = e :: r_led st ->
  (exists h, steps hempty (rev (r_led st)) h /\ hmap_is h B) ->
  (forall h, hmap_is h B -> exists h', step h e h' /\ hmap_is h' B') ->
  exists h', steps hempty (rev (r_led st')) h' /\ hmap_is h' B'.
Proof.
  intros st st' e B B' El [h [S Hh]] Hstep. destruct (Hstep h Hh) as [h' [S' Hh']].
  exists h'. split; [|exact Hh']. rewrite El. cbn [rev]. exact (steps_snoc _ _ _ _ _ S S').
Qed.

(* ddp_reallocate(NULL, 0, n): a block that was never handed out *)
Lemma heap_ok_new : forall st st' B n, heap_ok st B -> n <> 0 ->
  r_led st' = Ev 0 0 n (r_next st) :: r_led st -> r_next st' = N.succ (r_next st) ->
  heap_ok st' ((r_next st, n) :: B).
Proof.
  intros st st' B n [Hh Hu Hf Hn] Hn0 El En.
  assert (Hnew : forall m, ~ In (r_next st, m) B) by (intros m Hin; apply Hf in Hin; lia).
  constructor.
  - apply (heap_ok_event st st' _ B _ El Hh). intros h H. eexists. split; [|exact (hmap_add _ _ _ n H Hnew)].
    apply step_alloc; [exact Hn0 | lia|]. destruct (h (r_next st)) as [m|] eqn:E; [|reflexivity]. apply H in E. destruct (Hnew m E).
  - cbn [map fst]. constructor; [|exact Hu]. intro Hin. apply in_map_iff in Hin. destruct Hin as [[i m] [E Hin]].
    cbn [fst] in E. subst i. exact (Hnew m Hin).
  - rewrite En. intros id m [[= <- <-]|Hin]; [split; [lia | exact Hn0] | apply Hf in Hin; lia].
  - rewrite En. lia.
Qed.

(* ddp_reallocate(p, n, 0) of a live block *)
Lemma heap_ok_del : forall st st' B id n, heap_ok st ((id, n) :: B) ->
  r_led st' = Ev id n 0 0 :: r_led st -> r_next st' = r_next st -> heap_ok st' B.
Proof.
  intros st st' B id n [Hh Hu Hf Hn] El En. cbn [map fst] in Hu. inversion Hu as [|? ? Hni Hu']; subst.
  assert (Hid : id <> 0) by (destruct (Hf id n (or_introl eq_refl)); lia).
  constructor; rewrite ?En; [|exact Hu' | intros i m Hin; apply Hf; right; exact Hin | exact Hn].
  apply (heap_ok_event st st' _ _ _ El Hh). intros h H. eexists. split; [|exact (hmap_del _ _ _ _ H Hni)].
  apply step_free; [exact Hid | apply H; left; reflexivity].
Qed.

(* ddp_reallocate(p, n, n) *)
Lemma heap_ok_same : forall st st' B id n, heap_ok st B -> In (id, n) B ->
  r_led st' = Ev id n n id :: r_led st -> r_next st' = r_next st -> heap_ok st' B.
Proof.
  intros st st' B id n [Hh Hu Hf Hn] Hin El En. destruct (Hf id n Hin) as [Hid Hn0].
  constructor; rewrite ?En; try assumption.
  apply (heap_ok_event st st' _ _ _ El Hh). intros h H. exists h. split; [|exact H].
  apply step_same; [lia | exact Hn0 | apply H, Hin].
Qed.

(* ddp_reallocate(p, na, n) to another size: the block moves *)
Lemma heap_ok_resize : forall st st' B ida na n, heap_ok st ((ida, na) :: B) -> n <> 0 -> na <> n ->
  r_led st' = Ev ida na n (r_next st) :: r_led st -> r_next st' = N.succ (r_next st) ->
  heap_ok st' ((r_next st, n) :: B).
Proof.
  intros st st' B ida na n [Hh Hu Hf Hn] Hn0 Hne El En. cbn [map fst] in Hu. inversion Hu as [|? ? Hni Hu']; subst.
  assert (Hida : ida <> 0) by (destruct (Hf ida na (or_introl eq_refl)); lia).
  assert (Hnew : forall m, ~ In (r_next st, m) B) by (intros m Hin; destruct (Hf _ m (or_intror Hin)); lia).
  constructor.
  - apply (heap_ok_event st st' _ _ _ El Hh). intros h H. pose proof (hmap_del _ _ _ _ H Hni) as H1.
    eexists. split; [|exact (hmap_add _ _ _ n H1 Hnew)].
    apply step_realloc; [exact Hida | apply H; left; reflexivity | exact Hne | exact Hn0 | lia|].
    destruct (hset h ida None (r_next st)) as [m|] eqn:E; [|reflexivity]. apply H1 in E. destruct (Hnew m E).
  - cbn [map fst]. constructor; [|exact Hu']. intro Hin. apply in_map_iff in Hin. destruct Hin as [[i m] [E Hin]].
    cbn [fst] in E. subst i. exact (Hnew m Hin).
  - rewrite En. intros id m [[= <- <-]|Hin]; [split; [lia | exact Hn0] | destruct (Hf id m (or_intror Hin)); lia].
  - rewrite En. lia.
Qed.

Lemma heap_ok_alloc : forall st n b st1 B, alloc st n = (b, st1) -> heap_ok st B ->
  r_store st1 = r_store st /\ heap_ok st1 (somes [b] ++ B).
Proof.
  intros st n b st1 B H HB. unfold alloc in H. destruct (N.eqb_spec n 0) as [E|E]; inversion H; subst; clear H.
  - split; [reflexivity | exact HB].
  - split; [reflexivity|]. apply (heap_ok_new st _ B n HB E); reflexivity.
Qed.

Lemma heap_ok_copy : forall l st l' st' B, copy_blocks st l = (l', st') -> heap_ok st B ->
  r_store st' = r_store st /\ heap_ok st' (somes l' ++ B).
Proof.
  induction l as [|[[idx nx]|] l IH]; intros st l' st' B H HB; cbn [copy_blocks] in H.
  - inversion H; subst. split; [reflexivity | exact HB].
  - destruct (alloc st nx) as [b st1] eqn:Ea. destruct (copy_blocks st1 l) as [r' st2] eqn:Ec. inversion H; subst l' st'. clear H.
    destruct (heap_ok_alloc _ _ _ _ _ Ea HB) as [E1 H1]. destruct (IH _ _ _ _ Ec H1) as [E2 H2].
    split; [congruence|]. apply (heap_ok_perm _ _ _ (Permutation_app_swap_app _ _ _)) in H2.
    rewrite somes_cons, <- app_assoc. exact H2.
  - destruct (copy_blocks st l) as [r' st2] eqn:Ec. inversion H; subst l' st'. clear H. exact (IH _ _ _ _ Ec HB).
Qed.

Lemma heap_ok_free : forall l st B, heap_ok st (somes l ++ B) ->
  r_store (free_blocks st l) = r_store st /\ heap_ok (free_blocks st l) B.
Proof.
  induction l as [|[[id n]|] l IH]; intros st B HB; cbn [free_blocks].
  - split; [reflexivity | exact HB].
  - apply (IH (emit st (Ev id n 0 0))). apply (heap_ok_del st _ _ id n HB); reflexivity.
  - apply IH. exact HB.
Qed.

Lemma nth_somes_incl : forall (l : list (option blk)) k, incl (somes [nth k l None]) (somes l).
Proof.
  intros l k b Hb. destruct (nth_in_or_default k l None) as [Hn|Hn]; [|rewrite Hn in Hb; destruct Hb].
  unfold somes. apply in_flat_map. exists (nth k l None). split; [exact Hn|]. cbn [somes flat_map] in Hb. rewrite app_nil_r in Hb. exact Hb.
Qed.

Lemma read_place_in : forall st p, incl (somes (read_place st p)) (slot_blocks st (root p)).
Proof.
  intros st [s|s k|s]; cbn [read_place root]; unfold slot_blocks.
  - apply incl_refl.
  - apply nth_somes_incl.
  - rewrite (somes_hd_tl (blocks_of _)). apply incl_appr, incl_refl.
Qed.

Lemma read_place_store : forall st st' p, r_store st' = r_store st -> read_place st' p = read_place st p.
Proof. intros st st' [s|s k|s] E; cbn [read_place]; rewrite E; reflexivity. Qed.

(* Every action without control flow is accepted under a condition on the static state and has one effect on it. *)
Definition atomic (i : instr) : bool :=
  match i with
  | ISeq _ _ | IIf _ _ | ILoop _ _ _ _ _ _ _ | IBreak | IContinue | IRet | IFun _ _ _ => false
  | _ => true
  end.
Definition pre (i : instr) (G : ost) : Prop :=
  match i with
  | ISkip => True
  | IUse p => In (root p) (o_own G)
  | INew d _ => ~ In d (o_own G)
  | ICopy d p => ~ In d (o_own G) /\ In (root p) (o_own G)
  | IMove d s => ~ In d (o_own G) /\ In s (o_own G) /\ d <> s
  | IFree s => In s (o_own G) \/ In s (o_dead G)
  | IConcat d a pb => ~ In d (o_own G) /\ In a (o_own G) /\ In (root pb) (o_own G) /\ d <> a /\ root pb <> a
  | IGrow d a _ => ~ In d (o_own G) /\ In a (o_own G) /\ d <> a
  | IAbsorb d s => In d (o_own G) /\ In s (o_own G) /\ d <> s
  | IAbsorbCopy d p => In d (o_own G) /\ In (root p) (o_own G)
  | IAssignPart s _ src => In s (o_own G) /\ In src (o_own G) /\ s <> src
  | IAssignPartCopy s _ p => In s (o_own G) /\ In (root p) (o_own G) /\ root p <> s
  | _ => False
  end.
Definition eff (i : instr) (G : ost) : ost :=
  match i with
  | INew d _ | ICopy d _ => give d G
  | IMove d s => give d (take s G)
  | IFree s => if mem s (o_own G) then take s G else G
  | IConcat d a _ | IGrow d a _ => give d (mkO (del a (o_own G)) (ins a (o_dead G)))
  | IAbsorb _ s | IAssignPart _ _ s => take s G
  | _ => G
  end.

Lemma guarded_some : forall (b : bool) (X : ost) R, (if b then Some (Some X) else None) = Some R <-> b = true /\ R = Some X.
Proof.
  intros [] X R; split; [intros [= <-]; auto | intros [_ ->]; reflexivity | discriminate | intros [H _]; discriminate H].
Qed.

Lemma own_check_atomic : forall K i G R, atomic i = true ->
  (own_check K i G = Some R <-> pre i G /\ R = Some (eff i G)).
Proof.
  intros K i G R A. destruct i; try discriminate A; cbn [own_check pre eff]; unfold writable;
    rewrite ?guarded_some, ?andb_true_iff, ?negb_true_iff, ?mem_In, ?mem_false, ?Nat.eqb_neq; try tauto.
  - intuition congruence.
  - destruct (mem_spec s (o_own G)), (mem_spec s (o_dead G)); intuition congruence.
  - intuition congruence.
Qed.

Lemma own_check_pre : forall K i G, atomic i = true -> pre i G -> own_check K i G = Some (Some (eff i G)).
Proof. intros K i G A H. apply own_check_atomic; auto. Qed.

Lemma owned_take : forall st s l own, NoDup own -> In s own -> sget (r_store st) s = Res l ->
  Permutation (owned st own) (somes l ++ owned st (del s own)).
Proof. intros st s l own N H E. rewrite (owned_del st s own N H). unfold slot_blocks. rewrite E. apply Permutation_refl. Qed.

Lemma Inv_give : forall G st st1 d l, Inv G st -> ~ In d (o_own G) -> r_store st1 = r_store st ->
  heap_ok st1 (somes l ++ owned st (o_own G)) -> Inv (give d G) (sset st1 d (Res l)).
Proof.
  intros G st st1 d l I W Es H. pose proof (stored_sset st st1 d (Res l) Es) as S.
  apply Inv_intro with (B := somes l ++ owned st (o_own G)).
  - exact (shape_give _ _ _ _ _ (Inv_shape _ _ I) S W).
  - apply (heap_ok_frame st1); [reflexivity | reflexivity | exact H].
  - apply Permutation_sym, (owned_give _ _ _ _ _ S W).
Qed.

Lemma sound_INew : forall K G st d n G', Inv G st -> own_check K (INew d n) G = Some (Some G') ->
  forall fuel, exists st', run fuel (INew d n) st = (ONormal, st') /\ Inv G' st'.
Proof.
  intros K G st d n G' I H fuel. apply own_check_atomic in H; [|reflexivity]. destruct H as [W [= ->]].
  cbn [run]. destruct (alloc st n) as [b st1] eqn:Ea. eexists. split; [reflexivity|].
  destruct (heap_ok_alloc _ _ _ _ _ Ea (Inv_heap _ _ I)) as [Es H1]. exact (Inv_give _ _ _ _ _ I W Es H1).
Qed.

Lemma sound_ICopy : forall K G st d p G', Inv G st -> own_check K (ICopy d p) G = Some (Some G') ->
  forall fuel, exists st', run fuel (ICopy d p) st = (ONormal, st') /\ Inv G' st'.
Proof.
  intros K G st d p G' I H fuel. apply own_check_atomic in H; [|reflexivity]. destruct H as [[W M] [= ->]].
  cbn [run]. assert (Hpe : place_eqb p (PSlot d) = false).
  { destruct p as [s|s k|s]; cbn [place_eqb]; [|reflexivity|reflexivity]. apply Nat.eqb_neq. intro E. subst s. exact (W M). }
  rewrite Hpe. destruct (copy_blocks st (read_place st p)) as [l st1] eqn:Ec. eexists. split; [reflexivity|].
  destruct (heap_ok_copy _ _ _ _ _ Ec (Inv_heap _ _ I)) as [Es H1]. exact (Inv_give _ _ _ _ _ I W Es H1).
Qed.

Lemma sound_IMove : forall K G st d s G', Inv G st -> own_check K (IMove d s) G = Some (Some G') ->
  forall fuel, exists st', run fuel (IMove d s) st = (ONormal, st') /\ Inv G' st'.
Proof.
  intros K G st d s G' I H fuel. apply own_check_atomic in H; [|reflexivity]. destruct H as [(W & M & Ne) [= ->]].
  cbn [run eff]. eexists. split; [reflexivity|]. destruct (inv_res _ _ I s M) as [l El]. rewrite El.
  pose proof (stored_sset st st d (Res l) eq_refl) as S.
  assert (Wd : ~ In d (o_own (take s G))) by (cbn [take o_own]; rewrite del_In; tauto).
  apply Inv_intro with (B := owned st (o_own G)).
  - exact (shape_give _ _ _ _ _ (shape_take _ _ s (Inv_shape _ _ I)) S Wd).
  - apply (heap_ok_frame st); [reflexivity | reflexivity | apply Inv_heap, I].
  - rewrite (owned_take st s l _ (inv_nd _ _ I) M El). apply Permutation_sym, (owned_give _ _ _ _ _ S Wd).
Qed.

Lemma free_blocks_nones : forall l st, somes l = [] -> free_blocks st l = st.
Proof.
  induction l as [|[[id n]|] l IH]; intros st H; [reflexivity | discriminate H | apply IH, H].
Qed.

Lemma sound_IFree : forall K G st s G', Inv G st -> own_check K (IFree s) G = Some (Some G') ->
  forall fuel, exists st', run fuel (IFree s) st = (ONormal, st') /\ Inv G' st'.
Proof.
  intros K G st s G' I H fuel. apply own_check_atomic in H; [|reflexivity]. destruct H as [Hp [= ->]].
  cbn [run eff pre] in *. eexists. split; [reflexivity|]. destruct (mem_spec s (o_own G)) as [M|M]; cbv iota.
  - destruct (inv_res _ _ I s M) as [l El]. rewrite El. cbn [blocks_of].
    (* the components first, then the own buffer: all of what s holds *)
    assert (HB : heap_ok st (somes (tl l ++ [hd None l]) ++ owned st (del s (o_own G)))).
    { apply (heap_ok_perm st (owned st (o_own G))); [|apply Inv_heap, I]. rewrite (owned_take st s l _ (inv_nd _ _ I) M El).
      apply Permutation_app_tail. rewrite somes_app, (somes_hd_tl l). apply Permutation_app_comm. }
    destruct (heap_ok_free _ _ _ HB) as [Es H1].
    apply Inv_intro with (B := owned st (del s (o_own G))).
    + apply (shape_ext _ st); [intro x; rewrite Es; reflexivity | apply shape_take, Inv_shape, I].
    + exact H1.
    + cbn [take o_own]. rewrite (owned_store _ _ _ Es). apply Permutation_refl.
  - destruct Hp as [Hp|Md]; [contradiction|]. destruct (inv_dead _ _ I s Md) as [l [El Hs]]. rewrite El. cbn [blocks_of].
    rewrite free_blocks_nones; [exact I|]. rewrite (somes_hd_tl l) in Hs. apply app_eq_nil in Hs. destruct Hs as [Hh Ht].
    rewrite somes_app, Hh, Ht. reflexivity.
Qed.

Lemma heap_ok_head : forall G st a ba, Inv G st -> In a (o_own G) -> sget (r_store st) a = Res ba ->
  heap_ok st (somes [hd None ba] ++ somes (tl ba) ++ owned st (del a (o_own G))).
Proof.
  intros G st a ba I M E. apply (heap_ok_perm st (owned st (o_own G))); [|apply Inv_heap, I].
  rewrite (owned_take st a ba _ (inv_nd _ _ I) M E), (somes_hd_tl ba), <- app_assoc. apply Permutation_refl.
Qed.

(* the result d takes over the buffer b and the components of a, a is emptied *)
Lemma Inv_move_head : forall G st st1 d a ba b,
  Inv G st -> ~ In d (o_own G) -> In a (o_own G) -> d <> a -> sget (r_store st) a = Res ba -> r_store st1 = r_store st ->
  heap_ok st1 (somes [b] ++ somes (tl ba) ++ owned st (del a (o_own G))) ->
  Inv (give d (mkO (del a (o_own G)) (ins a (o_dead G)))) (sset (sset st1 d (Res (b :: tl ba))) a (Res [None])).
Proof.
  intros G st st1 d a ba b I W M Hda E Es H.
  set (st2 := sset st1 a (Res [None])). set (st' := sset (sset st1 d (Res (b :: tl ba))) a (Res [None])).
  set (G1 := mkO (del a (o_own G)) (ins a (o_dead G))).
  assert (S1 : stored st st2 a (Res [None])) by (apply stored_sset; exact Es).
  assert (S2 : stored st2 st' d (Res (b :: tl ba))).
  { intro s. cbn. destruct (Nat.eqb_spec s a), (Nat.eqb_spec s d); try reflexivity. congruence. }
  assert (Wd : ~ In d (o_own G1)) by (cbn [G1 o_own]; rewrite del_In; tauto).
  apply Inv_intro with (B := somes (b :: tl ba) ++ owned st (del a (o_own G))).
  - exact (shape_give _ _ _ _ _ (shape_empty _ _ _ _ (Inv_shape _ _ I) S1) S2 Wd).
  - rewrite somes_cons, <- app_assoc. apply (heap_ok_frame st1); [reflexivity | reflexivity | exact H].
  - apply Permutation_sym. rewrite (owned_give _ _ _ _ _ S2 Wd). apply Permutation_app_head. cbn [G1 o_own].
    rewrite (owned_ext st st2); [apply Permutation_refl|].
    intros s Hs. apply del_In in Hs. apply (stored_other _ _ _ _ _ S1). tauto.
Qed.

Lemma sound_IConcat : forall K G st d a pb G', Inv G st -> own_check K (IConcat d a pb) G = Some (Some G') ->
  forall fuel, exists st', run fuel (IConcat d a pb) st = (ONormal, st') /\ Inv G' st'.
Proof.
  intros K G st d a pb G' I H fuel. apply own_check_atomic in H; [|reflexivity]. destruct H as [(W & Ma & Mb & Hda & Hba) [= ->]].
  destruct (inv_res _ _ I a Ma) as [ba Eba]. pose proof (heap_ok_head _ _ _ _ I Ma Eba) as HB.
  assert (Hnb : forall ib nb, hd None (read_place st pb) = Some (ib, nb) -> nb <> 0).
  { intros ib nb E. apply (inv_fresh _ _ I ib nb). apply (slot_blocks_in_owned _ _ _ _ Mb), read_place_in.
    rewrite (somes_hd_tl (read_place st pb)), E. left. reflexivity. }
  cbn [run eff]. rewrite Eba. cbn [blocks_of].
  destruct (hd None ba) as [[ida na]|]; destruct (hd None (read_place st pb)) as [[ib nb]|] eqn:El; cbn [somes flat_map app] in HB.
  - (* realloc(left, cap_l, cap_l - 1 + cap_r) *)
    pose proof (Hnb _ _ eq_refl) as Hb0. destruct (hk_fresh _ _ HB ida na (or_introl eq_refl)) as [_ Ha0].
    destruct (N.eqb_spec (na - 1 + nb) na) as [En|En]; (eexists; split; [reflexivity|]); apply (Inv_move_head _ st); auto;
      cbn [somes flat_map app].
    + apply (heap_ok_same st _ _ ida na HB); [left|..]; reflexivity.
    + apply (heap_ok_resize st _ _ ida na _ HB); [lia | exact (not_eq_sym En) | reflexivity | reflexivity].
  - (* right operand empty: the left operand's buffer is the result *)
    eexists. split; [reflexivity|]. apply (Inv_move_head _ st); auto.
  - (* left operand empty: copy of the right operand *)
    destruct (alloc st nb) as [b st1] eqn:Ea. eexists. split; [reflexivity|].
    destruct (heap_ok_alloc _ _ _ _ _ Ea HB) as [Es H1]. apply (Inv_move_head _ st); auto.
  - eexists. split; [reflexivity|]. apply (Inv_move_head _ st); auto.
Qed.

Lemma sound_IGrow : forall K G st d a n G', Inv G st -> own_check K (IGrow d a n) G = Some (Some G') ->
  forall fuel, exists st', run fuel (IGrow d a n) st = (ONormal, st') /\ Inv G' st'.
Proof.
  intros K G st d a n G' I H fuel. apply own_check_atomic in H; [|reflexivity]. destruct H as [(W & Ma & Hda) [= ->]].
  destruct (inv_res _ _ I a Ma) as [ba Eba]. pose proof (heap_ok_head _ _ _ _ I Ma Eba) as HB.
  cbn [run eff]. rewrite Eba. cbn [blocks_of].
  destruct (hd None ba) as [[ida na]|]; cbn [somes flat_map app] in HB.
  - destruct (N.eqb_spec n 0) as [E0|E0]; [|destruct (N.eqb_spec n na) as [En|En]]; (eexists; split; [reflexivity|]);
      apply (Inv_move_head _ st); auto; cbn [somes flat_map app].
    + apply (heap_ok_del st _ _ ida na HB); reflexivity.
    + subst n. apply (heap_ok_same st _ _ ida na HB); [left|..]; reflexivity.
    + apply (heap_ok_resize st _ _ ida na n HB E0 (not_eq_sym En)); reflexivity.
  - destruct (alloc st n) as [b st1] eqn:Ea. eexists. split; [reflexivity|].
    destruct (heap_ok_alloc _ _ _ _ _ Ea HB) as [Es H1]. apply (Inv_move_head _ st); auto.
Qed.

Lemma set_nth_perm : forall l k (v : option blk), (k < length l)%nat ->
  Permutation (somes (set_nth l k v) ++ somes [nth k l None]) (somes l ++ somes [v]).
Proof.
  induction l as [|x l IH]; intros k v Hk; [cbn in Hk; lia|]. destruct k as [|k]; cbn [set_nth nth].
  - rewrite (somes_cons v l), (somes_cons x l).
    eapply Permutation_trans; [apply Permutation_app_comm|].
    rewrite <- app_assoc. apply Permutation_app_head. apply Permutation_app_comm.
  - cbn [length] in Hk. rewrite (somes_cons x (set_nth l k v)), (somes_cons x l).
    rewrite <- !app_assoc. apply Permutation_app_head. apply IH. lia.
Qed.

Lemma put_part_perm : forall l k v,
  Permutation (somes (put_part l k v) ++ somes [nth k l None]) (somes l ++ somes v).
Proof.
  intros l k v. unfold put_part. destruct (Nat.ltb_spec k (length l)) as [Hk|Hk].
  - rewrite somes_app. rewrite (somes_hd_tl v). rewrite <- app_assoc.
    eapply Permutation_trans; [apply Permutation_app_head, Permutation_app_comm|]. rewrite !app_assoc.
    apply Permutation_app_tail. apply set_nth_perm. exact Hk.
  - rewrite (nth_overflow _ _ Hk). cbn [somes flat_map app]. rewrite app_nil_r. rewrite somes_app. apply Permutation_refl.
Qed.

(* the stored value and what stays of the container: put_part_perm with the replaced component cancelled on both sides *)
Lemma put_part_split : forall l k v, Permutation (somes (put_part l k v)) (somes v ++ somes (put_part l k [])).
Proof.
  intros l k v. apply (Permutation_app_inv_r (somes [nth k l None])).
  rewrite put_part_perm, <- app_assoc, (put_part_perm l k []). cbn [somes flat_map]. rewrite app_nil_r. apply Permutation_app_comm.
Qed.

Lemma sound_IAbsorb : forall K G st d s G', Inv G st -> own_check K (IAbsorb d s) G = Some (Some G') ->
  forall fuel, exists st', run fuel (IAbsorb d s) st = (ONormal, st') /\ Inv G' st'.
Proof.
  intros K G st d s G' I H fuel. apply own_check_atomic in H; [|reflexivity]. destruct H as [(Md & Ms & Hds) [= ->]].
  destruct (inv_res _ _ I d Md) as [bd Ebd]. destruct (inv_res _ _ I s Ms) as [bs Ebs].
  cbn [run eff]. rewrite Ebd, Ebs. cbn [blocks_of]. eexists. split; [reflexivity|].
  pose proof (stored_sset st st d (Res (bd ++ bs)) eq_refl) as S.
  pose proof (del_nodup s _ (inv_nd _ _ I)) as N'. assert (Md' : In d (del s (o_own G))) by (apply del_In; tauto).
  apply Inv_intro with (B := owned st (o_own G)).
  - exact (shape_set _ _ _ _ _ (shape_take _ _ s (Inv_shape _ _ I)) S Md').
  - apply (heap_ok_frame st); [reflexivity | reflexivity | apply Inv_heap, I].
  - cbn [take o_own]. rewrite (owned_set _ _ _ _ _ S N' Md'), somes_app.
    rewrite (owned_take st s bs _ (inv_nd _ _ I) Ms Ebs), (owned_take st d bd _ N' Md' Ebd).
    rewrite !app_assoc. apply Permutation_app_tail, Permutation_app_comm.
Qed.

Lemma sound_IAbsorbCopy : forall K G st d p G', Inv G st -> own_check K (IAbsorbCopy d p) G = Some (Some G') ->
  forall fuel, exists st', run fuel (IAbsorbCopy d p) st = (ONormal, st') /\ Inv G' st'.
Proof.
  intros K G st d p G' I H fuel. apply own_check_atomic in H; [|reflexivity]. destruct H as [[Md Mp] [= ->]].
  cbn [run eff]. destruct (copy_blocks st (read_place st p)) as [l st1] eqn:Ec. eexists. split; [reflexivity|].
  destruct (heap_ok_copy _ _ _ _ _ Ec (Inv_heap _ _ I)) as [Es H1].
  destruct (inv_res _ _ I d Md) as [bd Ebd]. rewrite Es, Ebd. cbn [blocks_of].
  pose proof (stored_sset st st1 d (Res (bd ++ l)) Es) as S.
  apply Inv_intro with (B := somes l ++ owned st (o_own G)).
  - exact (shape_set _ _ _ _ _ (Inv_shape _ _ I) S Md).
  - apply (heap_ok_frame st1); [reflexivity | reflexivity | exact H1].
  - rewrite (owned_set _ _ _ _ _ S (inv_nd _ _ I) Md), somes_app, (owned_take st d bd _ (inv_nd _ _ I) Md Ebd).
    rewrite !app_assoc. apply Permutation_app_tail, Permutation_app_comm.
Qed.

Lemma sound_IAssignPart : forall K G st s k src G', Inv G st -> own_check K (IAssignPart s k src) G = Some (Some G') ->
  forall fuel, exists st', run fuel (IAssignPart s k src) st = (ONormal, st') /\ Inv G' st'.
Proof.
  intros K G st s k src G' I H fuel. apply own_check_atomic in H; [|reflexivity]. destruct H as [(Ms & Mr & Hne) [= ->]].
  destruct (inv_res _ _ I s Ms) as [ls Els]. destruct (inv_res _ _ I src Mr) as [bs Ebs].
  cbn [run eff]. rewrite Els, Ebs. cbn [blocks_of]. eexists. split; [reflexivity|].
  pose proof (del_nodup src _ (inv_nd _ _ I)) as N'. assert (Ms' : In s (del src (o_own G))) by (apply del_In; tauto).
  set (F := [nth k ls None]). set (R := owned st (del s (del src (o_own G)))).
  (* what s and src hold is the released component and the new contents of s *)
  assert (HP : Permutation (owned st (o_own G)) (somes F ++ somes (put_part ls k bs) ++ R)).
  { rewrite (owned_take st src bs _ (inv_nd _ _ I) Mr Ebs), (owned_take st s ls _ N' Ms' Els). fold R.
    rewrite !app_assoc. apply Permutation_app_tail.
    unfold F. rewrite (Permutation_app_comm (somes [nth k ls None])), (put_part_perm ls k bs). apply Permutation_app_comm. }
  destruct (heap_ok_free F st _ (heap_ok_perm _ _ _ HP (Inv_heap _ _ I))) as [Es H1].
  pose proof (stored_sset st (free_blocks st F) s (Res (put_part ls k bs)) Es) as S.
  apply Inv_intro with (B := somes (put_part ls k bs) ++ R).
  - exact (shape_set _ _ _ _ _ (shape_take _ _ src (Inv_shape _ _ I)) S Ms').
  - apply (heap_ok_frame (free_blocks st F)); [reflexivity | reflexivity | exact H1].
  - apply Permutation_sym, (owned_set _ _ _ _ _ S N' Ms').
Qed.

Lemma sound_IAssignPartCopy : forall K G st s k p G', Inv G st -> own_check K (IAssignPartCopy s k p) G = Some (Some G') ->
  forall fuel, exists st', run fuel (IAssignPartCopy s k p) st = (ONormal, st') /\ Inv G' st'.
Proof.
  intros K G st s k p G' I H fuel. apply own_check_atomic in H; [|reflexivity]. destruct H as [(Ms & Mp & Hne) [= ->]].
  cbn [run eff]. assert (Hpe : place_eqb p (PPart s k) = false).
  { destruct p as [x|x j|x]; cbn [place_eqb]; [reflexivity| |reflexivity]. cbn [root] in Hne. apply Nat.eqb_neq in Hne. rewrite Hne. reflexivity. }
  rewrite Hpe. destruct (inv_res _ _ I s Ms) as [ls Els]. rewrite Els. cbn [blocks_of].
  set (F := [nth k ls None]). set (R := owned st (del s (o_own G))).
  (* s without the component that is released *)
  set (X := somes (put_part ls k [])).
  assert (HX : Permutation (somes ls) (somes F ++ X)).
  { rewrite <- (app_nil_r (somes ls)). apply Permutation_sym. rewrite (Permutation_app_comm (somes F)). apply (put_part_perm ls k []). }
  assert (HP : Permutation (owned st (o_own G)) (somes F ++ X ++ R)).
  { rewrite (owned_take st s ls _ (inv_nd _ _ I) Ms Els), HX, <- app_assoc. apply Permutation_refl. }
  destruct (heap_ok_free F st _ (heap_ok_perm _ _ _ HP (Inv_heap _ _ I))) as [Es H1].
  rewrite (read_place_store _ _ p Es). destruct (copy_blocks (free_blocks st F) (read_place st p)) as [l st2] eqn:Ec.
  eexists. split; [reflexivity|]. destruct (heap_ok_copy _ _ _ _ _ Ec H1) as [Es2 H2].
  pose proof (stored_sset st st2 s (Res (put_part ls k l)) (eq_trans Es2 Es)) as S.
  apply Inv_intro with (B := somes l ++ X ++ R).
  - exact (shape_set _ _ _ _ _ (Inv_shape _ _ I) S Ms).
  - apply (heap_ok_frame st2); [reflexivity | reflexivity | exact H2].
  - rewrite (owned_set _ _ _ _ _ S (inv_nd _ _ I) Ms). fold R. rewrite app_assoc. apply Permutation_app_tail.
    apply Permutation_sym, put_part_split.
Qed.

Lemma sound_atomic : forall K i G G' st, atomic i = true -> Inv G st -> own_check K i G = Some (Some G') ->
  forall fuel, exists st', run fuel i st = (ONormal, st') /\ Inv G' st'.
Proof.
  intros K i G G' st A I H fuel. destruct i; try discriminate A.
  - cbn in H. inversion H; subst. exists st. split; [reflexivity | exact I].
  - apply own_check_atomic in H; [|reflexivity]. destruct H as [_ [= ->]]. exists st. split; [reflexivity | exact I].
  - eapply sound_INew; eassumption.
  - eapply sound_ICopy; eassumption.
  - eapply sound_IMove; eassumption.
  - eapply sound_IFree; eassumption.
  - eapply sound_IConcat; eassumption.
  - eapply sound_IGrow; eassumption.
  - discriminate H.
  - eapply sound_IAbsorb; eassumption.
  - eapply sound_IAbsorbCopy; eassumption.
  - eapply sound_IAssignPart; eassumption.
  - eapply sound_IAssignPartCopy; eassumption.
Qed.

Lemma check_simple_own_check : forall i G G', check_simple i G = Some G' -> forall K, own_check K i G = Some (Some G').
Proof.
  induction i; intros G G' H K; cbn [check_simple] in H; try discriminate H; cbn [own_check].
  - inversion H; reflexivity.
  - destruct (check_simple i1 G) as [G1|] eqn:E1; [|discriminate H].
    rewrite (IHi1 _ _ E1 K). apply IHi2. exact H.
  - destruct (mem s (o_own G)); [inversion H; reflexivity|]. destruct (mem s (o_dead G)); [inversion H; reflexivity | discriminate H].
Qed.

Lemma run_simple : forall i G G' fuel st, check_simple i G = Some G' -> Inv G st ->
  exists st', run fuel i st = (ONormal, st') /\ Inv G' st'.
Proof.
  induction i; intros G G' fuel st H I; try discriminate H.
  - inversion H; subst. exists st. split; [reflexivity | exact I].
  - cbn [check_simple] in H. destruct (check_simple i1 G) as [G1|] eqn:E1; [|discriminate H].
    destruct (IHi1 _ _ fuel st E1 I) as [st1 [R1 I1]]. destruct (IHi2 _ _ fuel st1 H I1) as [st2 [R2 I2]].
    exists st2. split; [|exact I2]. cbn [run]. rewrite R1. exact R2.
  - exact (sound_IFree ctx0 G st s G' I (check_simple_own_check _ _ _ H ctx0) fuel).
Qed.

(* a break / continue has arrived where the frees recorded for it lead to the state recorded for it *)
Definition jump_ok (tgt : option (instr * ost)) (st : rstate) : Prop :=
  exists code Gt Gk Gk', tgt = Some (code, Gt) /\ Inv Gk st /\ check_simple code Gk = Some Gk' /\ sub Gk' Gt = true.
Definition ret_ok (K : ctx) (st : rstate) : Prop :=
  exists R Gr, k_ret K = Some R /\ Inv Gr st /\ sub Gr R = true.

Definition exit_ok (K : ctx) (R : option ost) (o : outcome) (st : rstate) : Prop :=
  match o with
  | ONormal => exists G', R = Some G' /\ Inv G' st
  | OBreak => jump_ok (k_brk K) st
  | OContinue => jump_ok (k_cont K) st
  | ORet => ret_ok K st
  | OFuel => True
  end.

Lemma jump_lands : forall fuel code Gt st, jump_ok (Some (code, Gt)) st ->
  exists st', run fuel code st = (ONormal, st') /\ Inv Gt st'.
Proof.
  intros fuel code Gt st (c & Gt' & Gk & Gk' & [= <- <-] & Ik & Ec & Es).
  destruct (run_simple _ _ _ fuel st Ec Ik) as [st' [Hr I']]. exists st'. split; [exact Hr | exact (Inv_sub _ _ _ I' Es)].
Qed.
Lemma jump_none : forall st, ~ jump_ok None st.
Proof. intros st (c & Gt & Gk & Gk' & E & _). discriminate E. Qed.

Lemma own_check_jump : forall K i G R st, own_check K i G = Some R -> Inv G st ->
  match i with IBreak => jump_ok (k_brk K) st | IContinue => jump_ok (k_cont K) st | _ => True end.
Proof.
  intros K i G R st H I. destruct i; try exact Logic.I; cbn [own_check] in H;
    [destruct (k_brk K) as [[code Gx]|] | destruct (k_cont K) as [[code Gx]|]]; try discriminate H;
    (destruct (check_simple code G) as [G1|] eqn:Ec; [|discriminate H]);
    (destruct (sub G1 Gx) eqn:Es; [|discriminate H]); exists code, Gx, G, G1; auto.
Qed.

Lemma atomic_exit : forall K i G R fuel st o st', atomic i = true ->
  own_check K i G = Some R -> Inv G st -> run fuel i st = (o, st') -> exit_ok K R o st'.
Proof.
  intros K i G R fuel st o st' A H I Hr. pose proof (proj1 (own_check_atomic K i G R A) H) as [_ ->].
  destruct (sound_atomic K i G _ st A I H fuel) as [st1 [E I1]]. rewrite E in Hr. inversion Hr; subst.
  eexists. split; [reflexivity | exact I1].
Qed.

Lemma join_sound : forall ra rb R, join ra rb = Some R ->
  (forall G st, ra = Some G -> Inv G st -> exists G', R = Some G' /\ Inv G' st) /\
  (forall G st, rb = Some G -> Inv G st -> exists G', R = Some G' /\ Inv G' st).
Proof.
  intros ra rb R H. unfold join in H. destruct ra as [A|]; destruct rb as [B|].
  - destruct (leq (o_own A) (o_own B)) eqn:E; [|discriminate H]. inversion H; subst R. clear H. apply leq_eq in E.
    split; intros G st HG I; inversion HG; subst G; eexists; (split; [reflexivity|]); eapply Inv_sub; try exact I;
      unfold sub; cbn [o_own o_dead]; rewrite <- ?E, sub_refl_own; apply subset_incl; intros x Hx; apply inter_In in Hx; tauto.
  - inversion H; subst. split; intros G st HG I; [|discriminate HG]. exists G. split; [exact HG | exact I].
  - inversion H; subst. split; intros G st HG I; [discriminate HG|]. exists G. split; [exact HG | exact I].
  - inversion H; subst. split; intros G st HG I; discriminate HG.
Qed.

Lemma Inv_oracle : forall G st, Inv G st -> Inv G (snd (next_bool st)).
Proof.
  intros G st I. unfold next_bool. destruct (r_oracle st); [exact I|]. apply (Inv_frame G st); [reflexivity | reflexivity | reflexivity | exact I].
Qed.

(* the result of a loop body or an inlined function body: no fallthrough, or a state that fits the one required *)
Lemma body_result : forall (rb : option (option ost)) (X T : ost) R,
  match rb with
  | Some None => Some (Some X)
  | Some (Some Sb) => if sub Sb T then Some (Some X) else None
  | None => None
  end = Some R -> R = Some X /\ forall Gb, rb = Some (Some Gb) -> sub Gb T = true.
Proof.
  intros [[Sb|]|] X T R H; try discriminate H.
  - destruct (sub Sb T) eqn:E; [|discriminate H]. inversion H. split; [reflexivity|]. intros Gb [= <-]. exact E.
  - inversion H. split; [reflexivity|]. intros Gb HH. discriminate HH.
Qed.

Lemma loop_sound : forall K G Gout fuel test body oncont onbrk onexit,
  let K' := mkCtx (Some (oncont, G)) (Some (onbrk, Gout)) (k_ret K) in
  (forall st o st', Inv G st -> run fuel test st = (o, st') -> exit_ok ctx0 (Some G) o st') ->
  (forall st o st', Inv G st -> run fuel body st = (o, st') -> exit_ok K' (Some G) o st') ->
  check_simple onexit G = Some Gout ->
  forall n skip cnt st o st', Inv G st ->
    loop_iter (run fuel test) (run fuel body) (run fuel oncont) (run fuel onbrk) (run fuel onexit) n skip cnt st = (o, st') ->
    exit_ok K (Some Gout) o st'.
Proof.
  intros K G Gout fuel test body oncont onbrk onexit K' Htest Hbody Hexit.
  induction n as [|n IH]; intros skip cnt st o st' I Hr; cbn [loop_iter] in Hr.
  - inversion Hr; subst. exact Logic.I.
  - assert (Hleave : forall st2, Inv G st2 -> run fuel onexit st2 = (o, st') -> exit_ok K (Some Gout) o st').
    { intros st2 I2 Hr2. destruct (run_simple _ _ _ fuel st2 Hexit I2) as [st5 [R5 I5]]. rewrite R5 in Hr2. inversion Hr2; subst.
      exists Gout. split; [reflexivity | exact I5]. }
    assert (Hgo : forall cnt' st2, Inv G st2 ->
              match run fuel body st2 with
              | (ONormal, st3) => loop_iter (run fuel test) (run fuel body) (run fuel oncont) (run fuel onbrk) (run fuel onexit) n false cnt' st3
              | (OContinue, st3) => match run fuel oncont st3 with
                                    | (ONormal, st4) => loop_iter (run fuel test) (run fuel body) (run fuel oncont) (run fuel onbrk) (run fuel onexit) n false cnt' st4
                                    | r => r
                                    end
              | (OBreak, st3) => run fuel onbrk st3
              | r => r
              end = (o, st') -> exit_ok K (Some Gout) o st').
    { intros cnt' st2 I2 Hg. destruct (run fuel body st2) as [ob st3] eqn:Eb.
      pose proof (Hbody st2 ob st3 I2 Eb) as Hx. destruct ob; cbn [exit_ok] in Hx.
      - destruct Hx as [G' [[= <-] I3]]. eapply IH; eassumption.
      - destruct (jump_lands fuel onbrk Gout st3 Hx) as [st4 [R4 I4]]. rewrite R4 in Hg. inversion Hg; subst.
        exists Gout. split; [reflexivity | exact I4].
      - destruct (jump_lands fuel oncont G st3 Hx) as [st4 [R4 I4]]. rewrite R4 in Hg. eapply IH; eassumption.
      - inversion Hg; subst. exact Hx.
      - inversion Hg; subst. exact Logic.I. }
    destruct skip; [eapply Hgo; eassumption|].
    destruct (run fuel test st) as [ot st1] eqn:Et. pose proof (Htest st ot st1 I Et) as Hx.
    destruct ot; cbn [exit_ok] in Hx.
    + destruct Hx as [G' [[= <-] I1]]. destruct cnt as [[|c]|].
      * eapply Hleave; eassumption.
      * eapply Hgo; eassumption.
      * pose proof (Inv_oracle _ _ I1) as I2. destruct (next_bool st1) as [c st2].
        destruct c; [eapply Hgo; eassumption | eapply Hleave; eassumption].
    + destruct (jump_none _ Hx).
    + destruct (jump_none _ Hx).
    + destruct Hx as [R [Gr [Ek _]]]. discriminate Ek.
    + inversion Hr; subst. exact Logic.I.
Qed.

(* only a fallthrough looks at the static result: it may be replaced by anything the state also satisfies *)
Lemma exit_ok_weaken : forall K R R' o st, exit_ok K R o st ->
  (forall G, R = Some G -> Inv G st -> exists G', R' = Some G' /\ Inv G' st) -> exit_ok K R' o st.
Proof. intros K R R' [] st Hx H; try exact Hx. destruct Hx as [G [E I]]. exact (H G E I). Qed.

Lemma run_seq : forall fuel a b st o st', run fuel (ISeq a b) st = (o, st') ->
  (exists st1, run fuel a st = (ONormal, st1) /\ run fuel b st1 = (o, st')) \/ (o <> ONormal /\ run fuel a st = (o, st')).
Proof.
  intros fuel a b st o st' H. cbn [run] in H. destruct (run fuel a st) as [[] st1]; [left; eauto | right..].
  all: inversion H; subst; split; [discriminate | reflexivity].
Qed.

Theorem own_check_sound : forall i K G R fuel st o st',
  own_check K i G = Some R -> Inv G st -> run fuel i st = (o, st') -> exit_ok K R o st'.
Proof.
  induction i; intros K G R fuel st o st' H I Hr;
    try (refine (atomic_exit K _ G R fuel st o st' _ H I Hr); reflexivity).
  - (* ISeq *) cbn [own_check] in H. destruct (own_check K i1 G) as [r1|] eqn:E1; [|discriminate H].
    destruct (run_seq _ _ _ _ _ _ Hr) as [[st1 [Ra Rb]]|[Hne Ra]]; pose proof (IHi1 _ _ _ _ _ _ _ E1 I Ra) as Hx.
    + destruct Hx as [G1 [-> I1]]. exact (IHi2 _ _ _ _ _ _ _ H I1 Rb).
    + destruct o; [contradiction|..]; exact Hx.
  - (* IIf *) cbn [own_check] in H. cbn [run] in Hr.
    destruct (own_check K i1 G) as [ra|] eqn:E1; [|discriminate H].
    destruct (own_check K i2 G) as [rb|] eqn:E2; [|discriminate H].
    destruct (join_sound _ _ _ H) as [Ja Jb].
    pose proof (Inv_oracle _ _ I) as I1. destruct (next_bool st) as [c st1]. cbn [snd] in I1.
    destruct c; [apply (exit_ok_weaken _ _ _ _ _ (IHi1 _ _ _ _ _ _ _ E1 I1 Hr)); intro G1; apply Ja
               | apply (exit_ok_weaken _ _ _ _ _ (IHi2 _ _ _ _ _ _ _ E2 I1 Hr)); intro G1; apply Jb].
  - (* ILoop *) cbn [own_check] in H. cbn [run] in Hr.
    destruct (own_check ctx0 i1 G) as [[Gt|]|] eqn:Et; try discriminate H.
    destruct (sub Gt G) eqn:Es; [|discriminate H].
    destruct (check_simple i5 G) as [Gout|] eqn:Ex; [|discriminate H].
    set (K' := mkCtx (Some (i3, G)) (Some (i4, Gout)) (k_ret K)) in *.
    destruct (body_result _ _ _ _ H) as [-> Hsb].
    destruct (own_check K' i2 G) as [rb|] eqn:Eb; [|discriminate H].
    eapply (loop_sound K G Gout fuel i1 i2 i3 i4 i5); try eassumption.
    + intros st0 o0 st0' I0 Hr0. apply (exit_ok_weaken _ _ _ _ _ (IHi1 _ _ _ _ _ _ _ Et I0 Hr0)).
      intros G' [= <-] I2. exists G. split; [reflexivity | exact (Inv_sub _ _ _ I2 Es)].
    + intros st0 o0 st0' I0 Hr0. apply (exit_ok_weaken _ _ _ _ _ (IHi2 _ _ _ _ _ _ _ Eb I0 Hr0)).
      intros G' -> I2. exists G. split; [reflexivity | exact (Inv_sub _ _ _ I2 (Hsb G' eq_refl))].
  - (* IBreak *) cbn [run] in Hr. inversion Hr; subst. exact (own_check_jump K IBreak G R st' H I).
  - (* IContinue *) cbn [run] in Hr. inversion Hr; subst. exact (own_check_jump K IContinue G R st' H I).
  - (* IRet *) cbn [own_check] in H. cbn [run] in Hr. inversion Hr; subst.
    destruct (k_ret K) as [Rr|] eqn:Ek; [|discriminate H].
    destruct (sub G Rr) eqn:Es; [|discriminate H]. cbn [exit_ok]. exists Rr, G. auto.
  - (* IFun *) cbn [own_check] in H. cbn [run] in Hr.
    match type of H with (if ?c then _ else _) = _ => destruct c; [|discriminate H] end.
    set (R0 := fold_right take G consumed) in *.
    set (Rf := match ret with Some r => give r R0 | None => R0 end) in *.
    destruct (body_result _ _ _ _ H) as [-> Hsb].
    destruct (own_check (mkCtx None None (Some Rf)) i G) as [rb|] eqn:Eb; [|discriminate H].
    destruct (run fuel i st) as [ob st1] eqn:Erb. pose proof (IHi _ _ _ _ _ _ _ Eb I Erb) as Hx.
    destruct ob; cbn [exit_ok] in Hx; inversion Hr; subst; cbn [exit_ok].
    + destruct Hx as [G' [EG I2]]. exists Rf. split; [reflexivity|]. eapply Inv_sub; [exact I2|]. apply Hsb. congruence.
    + destruct (jump_none _ Hx).
    + destruct (jump_none _ Hx).
    + destruct Hx as [Rr [Gr [[= <-] [Ir Es]]]]. exists Rf. split; [reflexivity|]. eapply Inv_sub; eassumption.
    + exact Logic.I.
Qed.

Lemma Inv_init : forall oracle, Inv (mkO [] []) (init_rstate oracle).
Proof.
  intro oracle. apply Inv_intro with (B := []).
  - constructor; cbn; [constructor | intros s [] ..].
  - constructor; cbn; [|constructor | intros id n [] | lia].
    exists hempty. split; [constructor|]. intros id n. split; [discriminate | intros []].
  - apply Permutation_refl.
Qed.

Theorem program_ok_balanced : forall P fuel oracle L,
  program_ok P = true -> run_program fuel oracle P = Some L -> balanced L.
Proof.
  intros P fuel oracle L Hok Hrun. unfold program_ok in Hok. unfold run_program in Hrun.
  destruct (compile P) as [code|]; [|discriminate Hok].
  destruct (own_check ctx0 code (mkO [] [])) as [[G|]|] eqn:Ec; try discriminate Hok.
  destruct (o_own G) as [|x l] eqn:Eo; [|discriminate Hok].
  destruct (run fuel code (init_rstate oracle)) as [o st] eqn:Er.
  destruct o; try discriminate Hrun. inversion Hrun; subst L. clear Hrun.
  pose proof (own_check_sound _ _ _ _ _ _ _ _ Ec (Inv_init oracle) Er) as Hx. cbn [exit_ok] in Hx.
  destruct Hx as [G' [[= <-] I]]. destruct (Inv_heap _ _ I) as [[h [S Hh]] _ _ _]. rewrite Eo in Hh.
  exists h. split; [exact S|]. intro p. destruct (h p) as [n|] eqn:E; [destruct (proj1 (Hh p n) E) | reflexivity].
Qed.

(* self-assignment; temporaries in a Solange condition, in a `bis` bound, in a loop header; continue; return out of such a
   loop: the cases /repo repaired in 6711de1 2f9971e bf84b8a 597753d *)
Definition wit_self_assign : program := mkProg [] (SSeq (SDecl 0%nat (ELit 6)) (SAssign 0%nat (EVar 0%nat))).
Definition wit_while_cond : program := mkProg [] (SWhile (EUse1 (ELit 4)) (SBlock SSkip)).
Definition wit_for_bound : program := mkProg [] (SFor EPrim (EUse1 (ELit 4)) EPrim false 2%nat (SBlock SSkip)).
Definition wit_continue_header : program :=
  mkProg [] (SFor (EUse1 (ELit 3)) EPrim EPrim false 2%nat (SBlock SContinue)).
Definition wit_continue_foreach : program :=
  mkProg [] (SForEach 0%nat None (EDerive (ELit 6) 5) 2%nat (SBlock SContinue)).
Definition wit_return_in_while : program :=
  mkProg [mkFun [] true (SSeq (SWhile (EUse1 (ELit 4)) (SBlock (SReturn (Some (ELit 2))))) (SReturn (Some (ELit 3))))]
         (SExpr (ECall 0%nat ANil)).

(* `(f an der Stelle 2), falls c, ansonsten v` and `v, falls c, ansonsten (<literal> an der Stelle 1)` where f returns a
   list: BIN_INDEX copies the element of the TEMPORARY list into a temporary of its own inside the arm, before the arm's
   scope releases the list; the compiled program is accepted *)
Definition wit_elem_of_temp : program :=
  mkProg [mkFun [] true (SReturn (Some (EBuild 32 (XCons (ELit 5) (XCons (ELit 7) XNil)))))]
    (SSeq (SDecl 0%nat (ELit 8))
    (SSeq (SDecl 1%nat (EFalls EPrim (EElem (ECall 0%nat ANil) 2%nat) (EVar 0%nat)))
    (SSeq (SDecl 2%nat (EFalls EPrim (EVar 0%nat) (EElem (EBuild 32 (XCons (ELit 5) XNil)) 1%nat)))
          (SWhile (EUse2 (EElem (ECall 0%nat ANil) 1%nat) (EVar 0%nat)) (SBlock SSkip))))).

(* the arm of `falls` as emitted for that expression (slot 0 the temporary list with one element, 4 the copy of the
   element, 2 the result of `falls`, 1 the other arm) ... *)
Definition arm_copy_then_release : instr :=
  iseq [IIf (iseq [INew 0 32; INew 3 5; IAbsorb 0 3; ICopy 4 (PPart 0 1); IFree 0; IMove 2 4]) (iseq [INew 1 4; IMove 2 1]); IFree 2].
(* ... and with a plain reference into the temporary list handed out of the arm instead (the element is copied when
   `falls` joins its arms, after the arm's scope released the list) *)
Definition arm_release_then_copy : instr :=
  iseq [IIf (iseq [INew 0 32; INew 3 5; IAbsorb 0 3; IFree 0; ICopy 2 (PPart 0 1)]) (iseq [INew 1 4; IMove 2 1]); IFree 2].
(* ... or merely read in place (compared) after the arm *)
Definition arm_release_then_read : instr :=
  iseq [IIf (iseq [INew 0 32; INew 3 5; IAbsorb 0 3; IFree 0]) ISkip; IUse (PPart 0 1)].
