(* program_ok (hence: every normally terminating run is balanced, on every path) for an explicitly enumerated,
   bounded family of skeleton programs.  The family is the product of
     - 14 non-primitive expressions `np_exprs` (literal, variable, both concatenation forms, `falls` with
       temporary / variable arms, slice, element read, calls by value, with an elided copy and of a function that
       returns out of a loop; an element of a TEMPORARY list (function result, list literal) on its own and as the
       taken / other arm of `falls`),
     - 5 conditions `conds` (plain, with an unused temporary, und/oder with temporaries on both sides, a call result,
       und/oder whose operands compare elements of temporary lists),
     - the ownership roles `atoms` (variable init, assignment, element assignment, discarded result, argument of an
       extern and of a DDP function, component of a list literal; one more role, a call by Referenz, does not
       mention the expression),
     - every loop form `loops` (Solange, Mache-Solange, Wiederhole, counting up/down with temporaries in
       from/to/step, for-each over a temporary / a variable with a non-primitive loop variable),
     - every exit `exits` from an inner scope of the loop body (fallthrough, break, continue and, inside a function,
       return of a temporary / of a local of the inner scope), in main and inside an inlined function.
   The bound is the enumeration itself: `In P family`.  `family` is a list, not a set: the role that does not mention
   the expression contributes the same program once per expression. *)
From Coq Require Import List NArith.
Import ListNotations.
From DDP Require Import Rt.Heap Lower.Own Lower.OwnCheck Lower.OwnCheckN Lower.OwnProofs.
Local Open Scope nat_scope.

(* functions: 0 identity by value with a nested early return; 1 assigns through a Referenz; 2 elided copy (-O2);
   3 returns a local of an inner block out of a loop *)
Definition f_id : fundef :=
  mkFun [(100, MVal, true)] true
        (SSeq (SIf EPrim (SBlock (SReturn (Some (EConcat (EVar 100) (ELit 2%N))))) (SBlock SSkip)) (SReturn (Some (EVar 100)))).
Definition f_ref : fundef :=
  mkFun [(101, MRef, true)] false (SSeq (SAssign 101 (EConcat (EVar 101) (ELit 3%N))) (SReturn None)).
Definition f_const : fundef :=
  mkFun [(102, MConst, true)] true (SReturn (Some (EDerive (EVar 102) 2%N))).
Definition f_loop : fundef :=
  mkFun [(103, MVal, true)] true
        (SSeq (SWhile (EUse1 (EVar 103)) (SBlock (SSeq (SDecl 104 (EConcat (ELit 4%N) (EVar 103)))
                                                         (SIf EPrim (SBlock (SReturn (Some (EVar 104)))) (SBlock SContinue)))))
              (SReturn (Some (ELit 2%N)))).
(* 4 returns a list of two Texts *)
Definition f_list : fundef :=
  mkFun [] true (SReturn (Some (EBuild 32%N (XCons (ELit 5%N) (XCons (ELit 7%N) XNil))))).
Definition funs : list fundef := [f_id; f_ref; f_const; f_loop; f_list].

(* variable 0 is a Text, variable 1 a list of two Texts (declared in front of every program) *)
Definition np_exprs : list expr :=
  [ ELit 3%N; EVar 0; EConcat (EVar 0) (ELit 2%N); EConcat (ELit 2%N) (EVar 0);
    EFalls EPrim (ELit 2%N) (EVar 0); EFalls (EUse1 (ELit 4%N)) (EVar 0) (EConcat (ELit 3%N) (ELit 3%N));
    EDerive (EVar 0) 2%N; EPart 1 1;
    ECall 0 (AVal (EVar 0) ANil); ECall 2 (AVal (EConcat (ELit 2%N) (EVar 0)) ANil); ECall 3 (AVal (ELit 5%N) ANil);
    EElem (ECall 4 ANil) 2;
    EFalls EPrim (EElem (EBuild 32%N (XCons (EVar 0) (XCons (ELit 3%N) XNil))) 1) (EVar 0);
    EFalls (EUse1 (ELit 4%N)) (EVar 0) (EElem (ECall 4 ANil) 1) ].
Definition conds : list expr :=
  [ EPrim; EUse1 (ELit 4%N); EAnd (EUse1 (EConcat (EVar 0) (ELit 2%N))) (EUse2 (EVar 0) (ELit 3%N));
    EUse1 (ECall 0 (AVal (ELit 6%N) ANil));
    EAnd (EUse2 (EElem (ECall 4 ANil) 1) (EVar 0)) (EUse1 (EElem (EBuild 32%N (XCons (ELit 3%N) XNil)) 1)) ].

Definition atoms (e : expr) : list stmt :=
  [ SDecl 10 e; SAssign 0 e; SAssignPart 1 2 e; SExpr e; SExpr (EExt (AVal e ANil) None);
    SExpr (ECall 1 (ARef 0 ANil)); SExpr (ECall 0 (AVal e ANil)); SDecl 11 (EBuild 32%N (XCons e (XCons (EVar 0) XNil))) ].
Definition exits (in_fun : bool) (e : expr) : list stmt :=
  [ SSkip; SBreak; SContinue ] ++ (if in_fun then [SReturn (Some e); SSeq (SDecl 12 e) (SReturn (Some (EVar 12)))] else []).

(* a loop body: a declaration in the body scope, then an inner block with its own local that is left by x *)
Definition body (a x : stmt) (c : expr) : stmt :=
  SBlock (SSeq a (SIf c (SBlock (SSeq (SDecl 13 (ELit 7%N)) x)) (SBlock SSkip))).
Definition loops (c : expr) (b : stmt) : list stmt :=
  [ SWhile c b; SDoWhile b c; SRepeat c 2 b; SFor c c c false 2 b; SFor c EPrim c true 1 b;
    SForEach 20 (Some 3%N) (EVar 1) 2 b; SForEach 21 (Some 3%N) (EFalls c (EBuild 32%N (XCons (ELit 3%N) (XCons (ELit 3%N) XNil))) (EVar 1)) 2 b;
    SForEach 22 None (EConcat (EVar 0) (ELit 2%N)) 3 b ].

Definition prelude (s : stmt) : stmt :=
  SSeq (SDecl 0 (ELit 6%N)) (SSeq (SDecl 1 (EBuild 32%N (XCons (ELit 2%N) (XCons (ELit 4%N) XNil)))) s).

Definition stmts (in_fun : bool) : list stmt :=
  flat_map (fun e => atoms e) np_exprs ++
  flat_map (fun e => flat_map (fun c => flat_map (fun a => flat_map (fun x => loops c (body a x c)) (exits in_fun e)) (atoms e)) conds) np_exprs.

Definition main_programs : list program := map (fun s => mkProg funs (SBlock (prelude s))) (stmts false).
(* the same statements as the body of an inlined function that returns a Text *)
Definition fun_programs : list program :=
  map (fun s => mkProg (funs ++ [mkFun [] true (SSeq (prelude s) (SReturn (Some (EVar 0))))])
                       (SSeq (SDecl 30 (ECall 5 ANil)) (SExpr (ECall 5 ANil)))) (stmts true).
Definition family : list program := main_programs ++ fun_programs.

Lemma family_size : N.of_nat (length family) = 36064%N.
Proof. vm_compute. reflexivity. Qed.

(* evaluated with own_checkN: the kernel's lazy machine (coqchk) pays for every unary comparison of own_check *)
Theorem family_ok : forall P, In P family -> program_ok P = true.
Proof.
  intros P H. rewrite <- program_okN_agrees. revert P H.
  apply forallb_forall. vm_compute. reflexivity.
Qed.

Theorem family_balanced : forall P, In P family ->
  forall fuel oracle L, run_program fuel oracle P = Some L -> balanced L.
Proof. intros P H fuel oracle L. apply program_ok_balanced. apply family_ok. exact H. Qed.
