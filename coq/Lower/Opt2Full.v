(* C08 / C11 — the theorem elision_sound: the -O2 parameter-copy elision is sound for EVERY program.
   The predicate the compiler evaluates at each call site (`may_elide`: the argument is a variable of the
   running activation — above its frame base — that is not also passed by Referenz in the call) together
   with the consistency of `analyse`'s table (Opt2Cons.v) establishes, dynamically, the invariant of an
   activation (Ainv) under which the simulation of Opt2Elide.v goes through by induction on the fuel.
   No condition on the program is needed. *)
From Coq Require Import List ZArith Bool Arith Lia.
Import ListNotations.
From DDP Require Import Lower.Opt2 Lower.Opt2Base Lower.Opt2Fbase Lower.Opt2Copy Lower.Opt2CopyThms Lower.Opt2Safe Lower.Opt2Cons Lower.Opt2Elide.

Lemma combine_nth_error : forall A B (l1 : list A) (l2 : list B) j a b,
  nth_error l1 j = Some a -> nth_error l2 j = Some b -> nth_error (combine l1 l2) j = Some (a, b).
Proof.
  induction l1 as [|x l1 IH]; intros l2 [|j] a b H1 H2; destruct l2 as [|y l2]; cbn in *; try discriminate; auto.
  inv H1. inv H2. auto.
Qed.

(* the callee's environment: the fresh parameter variables are pairwise different *)
Lemma bind_params_inj : forall mt all k ps i args e ce st ce' st' n0,
  bind_params false mt all k i ps args e ce st = Ok (ce', st') ->
  n0 <= length (vars st) ->
  (forall x a, lookup e x = Some a -> a < n0) ->
  (forall x a, lookup ce x = Some a -> a < length (vars st)) ->
  (forall x y a, lookup ce x = Some a -> lookup ce y = Some a -> n0 <= a -> x = y) ->
  (forall x a, lookup ce' x = Some a -> a < length (vars st')) /\
  (forall x y a, lookup ce' x = Some a -> lookup ce' y = Some a -> n0 <= a -> x = y).
Proof.
  intros mt all k ps. induction ps as [|p ps IH]; intros i args e ce st ce' st' n0 H Hn He Hlt Hinj;
    destruct args as [|a args]; try (cbn in H; discriminate H).
  - cbn in H. inv H. auto.
  - assert (Step : forall ad st3, length (vars st) <= length (vars st3) ->
               ((ad < n0) \/ (ad = length (vars st) /\ ad < length (vars st3))) ->
               bind_params false mt all k (S i) ps args e ((pname p, ad) :: ce) st3 = Ok (ce', st') ->
               (forall x a0, lookup ce' x = Some a0 -> a0 < length (vars st')) /\
               (forall x y a0, lookup ce' x = Some a0 -> lookup ce' y = Some a0 -> n0 <= a0 -> x = y)).
    { intros ad st3 L3 Had Hb. eapply (IH _ _ _ _ _ _ _ n0 Hb); [lia|exact He| |].
      - cbn. intros x a0 Hx. destruct (Nat.eqb (pname p) x); [inv Hx; destruct Had; lia|]. apply Hlt in Hx. lia.
      - cbn. intros x y a0 Hx Hy Ha.
        destruct (Nat.eqb_spec (pname p) x) as [<-|Nx]; destruct (Nat.eqb_spec (pname p) y) as [<-|Ny]; auto.
        + inv Hx. apply Hlt in Hy. destruct Had; lia.
        + inv Hy. apply Hlt in Hx. destruct Had; lia.
        + eapply Hinj; eauto. }
    rewrite bind_params_cons in H. bind_as H r H1 Hb. destruct r as [ad st3].
    pose proof (bind_one_shape _ _ _ _ _ _ _ _ _ _ _ H1) as F. destruct (pref p).
    + destruct F as [(x & -> & El) ->]. apply (Step ad st); auto. left. eapply He; eauto.
    + destruct F as (-> & (s & V) & _). apply (Step (length (vars st)) st3); auto; rewrite V, app_length; cbn; [lia|right; lia].
Qed.

(* the two runs of a computation side by side: the elide-mode result is the copy-mode result, patched, and the
   copy-mode result satisfies Q *)
Definition sim (B : list borrow) (Q : state -> Prop) (rT rF : res state) : Prop :=
  rT = lift0 B rF /\ forall sc', rF = Ok sc' -> Q sc'.

Lemma sim_bind : forall B' (Q' : state -> Prop) B Q rT rF (kT kF : state -> res state),
  sim B' Q' rT rF -> (forall s, rF = Ok s -> Q' s -> sim B Q (kT (patch B' s)) (kF s)) ->
  sim B Q (bind rT kT) (bind rF kF).
Proof.
  intros B' Q' B Q rT rF kT kF [-> HQ] H. destruct rF as [s|er]; cbn; [apply H; auto|].
  split; [reflexivity|discriminate].
Qed.

Lemma sim_bind_eq : forall B' B Q rT rF (kT kF : state -> res state),
  rT = lift0 B' rF -> (forall s, rF = Ok s -> sim B Q (kT (patch B' s)) (kF s)) ->
  sim B Q (bind rT kT) (bind rF kF).
Proof. intros B' B Q rT rF kT kF E H. apply (sim_bind B' (fun _ => True)); [split; auto|auto]. Qed.

Lemma sim_bind1 : forall A B' B Q (rT rF : res (A * state)) (kT kF : A * state -> res state),
  rT = lift1 B' rF -> (forall a s, rF = Ok (a, s) -> sim B Q (kT (a, patch B' s)) (kF (a, s))) ->
  sim B Q (bind rT kT) (bind rF kF).
Proof.
  intros A B' B Q rT rF kT kF -> H. destruct rF as [[a s]|er]; cbn; [apply H; auto|].
  split; [reflexivity|discriminate].
Qed.

Lemma end_stmt_sim : forall X B sc, Sep X sc -> Binv B sc -> sim B (Binv B) (end_stmt (patch B sc)) (end_stmt sc).
Proof.
  intros X B sc HS HB. split; [apply (end_stmt_patch X); auto|].
  intros sc' Hend. destruct (end_stmt_spec _ _ _ HS Hend) as (T1 & T2 & T3 & T4 & T5).
  eapply Binv_keeps; [exact HB|]. intros b _. split; apply T5.
Qed.

(* back in the caller: only the destination is written *)
Lemma call_finish_sim : forall X B Y saved result st7 e dst,
  Sep (Y ++ saved ++ X) st7 -> tmps st7 = [] -> ret_shape result Y -> Binv B st7 ->
  (forall d a, dst = Some d -> lookup e d = Some a -> safe_addr B a) ->
  sim B (Binv B) (call_finish e dst saved result (patch B st7)) (call_finish e dst saved result st7).
Proof.
  intros X B Y saved result st7 e dst F1 T7 R5 HB Hsafe. rewrite !call_finish_resume.
  destruct (resume_spec X saved result Y st7 F1 T7 R5) as (S9 & V9 & H9 & O9 & Rv9).
  assert (Eres : resume saved result (patch B st7) = patch B (resume saved result st7)).
  { unfold resume. destruct result as [[z|l t]|]; reflexivity. }
  rewrite Eres.
  assert (B9 : Binv B (resume saved result st7)).
  { eapply Binv_keeps; [exact HB|]. intros b Hb. split; (split; [rewrite V9; auto|intros; rewrite H9; auto]). }
  destruct dst as [d|]; [|apply (end_stmt_sim X); auto].
  destruct result as [v|]; [|split; [reflexivity|discriminate]].
  destruct (lookup e d) as [ad|] eqn:Ed; [|split; [reflexivity|discriminate]].
  pose proof (Hsafe d ad eq_refl Ed) as Hs.
  apply sim_bind_eq with (B' := B); [apply (store_value_patch X); auto|]. intros st10 Est.
  destruct (store_value_spec _ _ _ _ _ S9 (Rv9 v eq_refl) Est) as (V1 & V2 & V3 & V4 & V5).
  apply (end_stmt_sim X); auto.
  eapply Binv_keeps; [exact B9|]. intros b Hb. destruct (safe_addr_neq _ _ _ Hs Hb). split; apply V5; auto.
Qed.

Section Full.
  Variable mt : meta.
  Variable funs : list fundecl.
  Variable genv : env.
  Variable gbase : nat.     (* the first address above the globals: the frame base of the main program *)
  Hypothesis genv_lt : forall g a, lookup genv g = Some a -> a < gbase.
  Hypothesis cons_ok : forall j, j < length funs ->
    all_stmts (stmt_cons_b mt funs (Some j)) (fbody (fn funs j)) = true.

  Lemma cname_param : forall k j p, nth_error (fparams (fn funs k)) j = Some p -> is_const mt k j = true ->
    cnameb mt funs (Some k) (pname p) = true.
  Proof.
    intros k j p Hp Hc. unfold cnameb, cst_of, cst_true. apply existsb_exists. exists (pname p, true). split.
    - unfold is_const in Hc.
      assert (Hr : nth_error (nth k mt []) j = Some true).
      { destruct (nth_error (nth k mt []) j) as [b|] eqn:E.
        - rewrite (nth_error_nth _ _ false E) in Hc. congruence.
        - apply nth_error_None in E. rewrite nth_overflow in Hc by lia. discriminate Hc. }
      eapply nth_error_In. apply combine_nth_error; [|exact Hr]. rewrite nth_error_map, Hp. reflexivity.
    - cbn. rewrite Nat.eqb_refl. reflexivity.
  Qed.

  (* the invariant of an activation: every variable it can name is either not involved in any borrow or is
     one of its parameters judged constant (which it never writes); its own variables are pairwise
     different; every borrow lies above the globals *)
  Record Ainv (c : ctx) (B : list borrow) (e : env) (sc : state) : Prop := mkAinv {
    ai_lt : forall x a, lookup e x = Some a -> a < length (vars sc);
    ai_safe : forall x a, lookup e x = Some a -> safe_addr B a \/ cnameb mt funs c x = true;
    ai_inj : forall x y a, lookup e x = Some a -> lookup e y = Some a -> fbase sc <= a -> x = y;
    ai_fb : gbase <= fbase sc /\ fbase sc <= length (vars sc);
    ai_B : forall b, In b B -> gbase <= b_pa b /\ gbase <= b_al b }.

  Lemma Ainv_mono : forall c B e sc sc', Ainv c B e sc ->
    length (vars sc) <= length (vars sc') -> fbase sc' = fbase sc -> Ainv c B e sc'.
  Proof.
    intros c B e sc sc' [A1 A2 A3 [A4 A5] A6] Hl Hf. constructor; auto.
    - intros x a Hx. apply A1 in Hx. lia.
    - rewrite Hf. auto.
    - rewrite Hf. split; lia.
  Qed.

  Lemma Ainv_decl : forall c B e sc sc' x,
    Ainv c B e sc -> Binv B sc -> length (vars sc) < length (vars sc') -> fbase sc' = fbase sc ->
    Ainv c B ((x, length (vars sc)) :: e) sc'.
  Proof.
    intros c B e sc sc' x [A1 A2 A3 [A4 A5] A6] HB Hl Hf. constructor; auto.
    - cbn. intros y a H. destruct (Nat.eqb x y); [inv H; lia|]. apply A1 in H. lia.
    - cbn. intros y a H. destruct (Nat.eqb x y); [|eauto]. inv H. left.
      apply safe_addr_intro. intros b Hb. destruct (Binv_lt _ _ _ HB Hb). split; lia.
    - cbn. rewrite Hf. intros y z a Hy Hz Hb.
      destruct (Nat.eqb_spec x y) as [<-|Ny]; destruct (Nat.eqb_spec x z) as [<-|Nz]; auto.
      + inv Hy. apply A1 in Hz. lia.
      + inv Hz. apply A1 in Hy. lia.
      + eapply A3; eauto.
    - rewrite Hf. split; lia.
  Qed.

  Definition al_ok (all : list arg) (e : env) (BB : list borrow) (fb : nat) (b : borrow) : Prop :=
    In (b_al b) (map b_al BB) \/
    exists x, lookup e x = Some (b_al b) /\ fb <= b_al b /\ existsb (is_ref_of x) all = false.

  Lemma al_ok_weaken : forall all e B1 B2 fb b, al_ok all e (B1 ++ B2) fb b ->
    (forall b1, In b1 B1 -> al_ok all e B2 fb b1) -> al_ok all e B2 fb b.
  Proof.
    intros all e B1 B2 fb b [H|H] H1; [|right; exact H].
    rewrite map_app in H. apply in_app_or in H. destruct H as [H|H]; [|left; exact H].
    apply in_map_iff in H. destruct H as (b1 & E & Hin). destruct (H1 b1 Hin) as [K|K].
    - left. rewrite <- E. exact K.
    - right. rewrite <- E. exact K.
  Qed.

  (* what binding parameters ps (from position i on) to args establishes: the new borrows Bn are variables of the
     callee's frame with admissible lenders; a name of the callee's environment ce' is a Referenz parameter bound to
     the address of its argument, a value parameter in a new variable (borrowed only if judged constant), or was
     bound in ce before *)
  Definition bound_ok (all : list arg) (k i : nat) (ps : list param) (args : list arg) (e ce : env)
             (BB Bn : list borrow) (sc sc' : state) (ce' : env) : Prop :=
    (forall b, In b Bn -> length (vars sc) <= b_pa b /\ b_pa b < length (vars sc') /\ al_ok all e BB (fbase sc) b) /\
    (forall x a, lookup ce' x = Some a ->
       (exists j p, nth_error ps j = Some p /\ pname p = x /\
          (if pref p then exists y, nth_error args j = Some (ARef y) /\ lookup e y = Some a
           else length (vars sc) <= a /\ a < length (vars sc') /\
                (In a (map b_pa Bn) -> is_const mt k (i + j) = true)))
       \/ lookup ce x = Some a).

  (* binding the parameters in both modes: the borrows Bn of the call come on top of BB *)
  Lemma bind_params_patch : forall all k ps i args e ce X BB sc,
    Sep X sc -> Binv BB sc ->
    match bind_params false mt all k i ps args e ce sc with
    | Er er => bind_params true mt all k i ps args e ce (patch BB sc) = Er er
    | Ok (ce', sc') =>
        exists Bn,
          bind_params true mt all k i ps args e ce (patch BB sc) = Ok (ce', patch (Bn ++ BB) sc') /\
          Binv (Bn ++ BB) sc' /\ length (vars sc) <= length (vars sc') /\ fbase sc' = fbase sc /\
          bound_ok all k i ps args e ce BB Bn sc sc' ce'
    end.
  Proof.
    intros all k ps. induction ps as [|p ps IH]; intros i args e ce X BB sc HS HB.
    - destruct args as [|a args]; cbn; [|reflexivity].
      exists []. split; [reflexivity|split; [exact HB|split; [lia|split; [reflexivity|split; [intros b []|auto]]]]].
    - destruct args as [|a args]; [cbn; reflexivity|]. rewrite !bind_params_cons.
      pose proof (bind_one_patch mt all k i p a e X BB sc HS HB) as H1.
      destruct (bind_one false mt all k i p a e sc) as [[ad st3]|er] eqn:E1; [|rewrite H1; reflexivity].
      destruct H1 as (Bhd & -> & B3 & Hhd). cbn [bind].
      destruct (bind_one_copy_spec _ _ _ _ _ _ _ _ _ _ _ E1 HS) as (S3 & L3 & _).
      pose proof (bind_one_shape _ _ _ _ _ _ _ _ _ _ _ E1) as Hp.
      assert (F3 : fbase st3 = fbase sc) by (destruct (pref p); [destruct Hp as [_ ->]; auto|apply Hp]).
      assert (Hlen3 : pref p = false -> ad = length (vars sc) /\ length (vars st3) = S ad).
      { intros Ep. rewrite Ep in Hp. destruct Hp as (-> & (s & V) & _). rewrite V, app_length. cbn. lia. }
      specialize (IH (S i) args e ((pname p, ad) :: ce) X (Bhd ++ BB) st3 S3 B3).
      destruct (bind_params false mt all k (S i) ps args e ((pname p, ad) :: ce) st3) as [[ce' sc']|er]; [|exact IH].
      destruct IH as (Bn & I1 & I2 & I3 & I4 & I5 & I6).
      exists (Bn ++ Bhd). rewrite <- app_assoc.
      split; [exact I1|split; [exact I2|split; [lia|split; [congruence|split]]]].
      + intros b Hb. apply in_app_or in Hb. destruct Hb as [Hb|Hb].
        * destruct (I5 b Hb) as (K1 & K2 & K3). split; [lia|split; [auto|]].
          rewrite F3 in K3. eapply al_ok_weaken; [exact K3|]. intros b1 Hb1. apply (Hhd b1 Hb1).
        * destruct (Hhd b Hb) as (Ep & E2 & E3 & Hal). destruct (Hlen3 Ep) as [E4 L]. split; [lia|split; [lia|exact Hal]].
      + intros x a0 Hx. destruct (I6 x a0 Hx) as [(j & q & Q1 & Q2 & Q3)|Q].
        * left. exists (S j), q. split; [auto|split; [auto|]]. destruct (pref q); [exact Q3|].
          destruct Q3 as (R1 & R2 & R3). split; [lia|split; [auto|]]. intros Hi. rewrite Nat.add_succ_r. apply R3.
          rewrite map_app in Hi. apply in_app_or in Hi. destruct Hi as [Hi|Hi]; auto.
          apply in_map_iff in Hi. destruct Hi as (b & E & Hb). destruct (Hhd b Hb) as (Ep & E2 & _).
          destruct (Hlen3 Ep). lia.
        * cbn in Q. destruct (Nat.eqb_spec (pname p) x) as [Ex|Nx]; [|right; exact Q]. inv Q.
          left. exists 0, p. split; [auto|split; [auto|]]. destruct (pref p) eqn:Ep.
          -- destruct Hp as [(y & -> & Ly) _]. exists y. auto.
          -- destruct (Hlen3 eq_refl) as [E2 E3]. split; [lia|split; [lia|]]. intros Hi. rewrite Nat.add_0_r.
             rewrite map_app in Hi. apply in_app_or in Hi. destruct Hi as [Hi|Hi].
             ++ apply in_map_iff in Hi. destruct Hi as (b & E & Hb). destruct (I5 b Hb) as (K1 & _). lia.
             ++ apply in_map_iff in Hi. destruct Hi as (b & E & Hb). apply (Hhd b Hb).
  Qed.

  (* the callee's invariant: this is where the compiler's dynamic predicate is used (through al_ok: a new lender is
     a variable of the caller's frame that the call does not also pass by Referenz) *)
  Lemma callee_Ainv : forall c B e sc k fd args ce' sc' Bn,
    Ainv c B e sc -> Binv B sc -> nth_error funs k = Some fd ->
    stmt_cons_b mt funs c (SCall None k args) = true ->
    length (vars sc) <= length (vars sc') -> fbase sc' = length (vars sc) ->
    bound_ok args k 0 (fparams fd) args e genv B Bn sc sc' ce' ->
    (forall x y a, lookup ce' x = Some a -> lookup ce' y = Some a -> length (vars sc) <= a -> x = y) ->
    Ainv (Some k) (Bn ++ B) ce' sc'.
  Proof.
    intros c B e sc k fd args ce' sc' Bn [A1 A2 A3 [A4 A5] A6] HB Hfd Hcons Hlen Hfb [Hbn HR] Hinj.
    assert (Efn : fn funs k = fd) by (unfold fn; apply nth_error_nth; auto).
    assert (Hbl : forall b, In b B -> b_pa b < length (vars sc) /\ b_al b < length (vars sc)) by (intros b Hb; eapply Binv_lt; eauto).
    assert (Hal : forall b, In b Bn -> b_al b < length (vars sc) /\ gbase <= b_al b).
    { intros b Hb. destruct (Hbn b Hb) as (_ & _ & [K|(x & Lx & Fx & _)]).
      - apply in_map_iff in K. destruct K as (b0 & E & H0). rewrite <- E. destruct (Hbl b0 H0), (A6 b0 H0). lia.
      - apply A1 in Lx. lia. }
    unfold stmt_cons_b, chk in Hcons. cbn in Hcons.
    constructor.
    - intros x a Hx. destruct (HR x a Hx) as [(j & p & Hp & Hn & F)|Hg].
      + destruct (pref p); [destruct F as (y & _ & Ly); apply A1 in Ly; lia|lia].
      + apply genv_lt in Hg. lia.
    - intros x a Hx. destruct (HR x a Hx) as [(j & p & Hp & Hn & F)|Hg].
      + destruct (pref p) eqn:Ep.
        * destruct F as (y & Hy & Ly).
          destruct (is_const mt k j) eqn:Ec; [right; rewrite <- Hn; rewrite <- Efn in Hp; eapply cname_param; eauto|].
          (* the callee may write this Referenz parameter: the caller may write the argument *)
          assert (Hw : cnameb mt funs c y = false).
          { rewrite forallb_forall in Hcons. pose proof (ref_args_nth args 0 j y Hy) as Hr. cbn in Hr.
            specialize (Hcons _ Hr). cbn in Hcons. unfold is_const in Ec, Hcons. rewrite Ec in Hcons. cbn in Hcons.
            apply negb_true_iff in Hcons. exact Hcons. }
          destruct (A2 _ _ Ly) as [Hs|Hc]; [|congruence].
          pose proof (A1 _ _ Ly) as Lt. left. apply safe_addr_app. split; [|exact Hs].
          apply safe_addr_intro. intros b Hb. destruct (Hbn b Hb) as (K1 & _ & K3). split; [lia|]. intros Eb.
          destruct K3 as [K|(x0 & Lx & Fx & Rx)].
          -- destruct Hs as [_ N2]. apply N2. rewrite <- Eb. exact K.
          -- (* the lender would be the variable y itself, which the call passes by Referenz *)
             rewrite Eb in Lx, Fx. assert (y = x0) by (eapply A3; eauto). subst x0.
             assert (T : existsb (is_ref_of y) args = true).
             { apply existsb_exists. exists (ARef y). split; [eapply nth_error_In; eauto|cbn; apply Nat.eqb_refl]. }
             congruence.
        * destruct F as (F1 & F2 & F3).
          destruct (in_dec Nat.eq_dec a (map b_pa Bn)) as [Hi|Hn'].
          -- right. rewrite <- Hn. rewrite <- Efn in Hp. eapply cname_param; [exact Hp|exact (F3 Hi)].
          -- left. apply safe_addr_app. split; apply safe_addr_intro; intros b Hb.
             ++ destruct (Hal b Hb). split; [|lia]. intros E. apply Hn'. rewrite <- E. apply in_map. auto.
             ++ destruct (Hbl b Hb). split; lia.
      + pose proof (genv_lt _ _ Hg) as Lg. left. apply safe_addr_app. split; apply safe_addr_intro; intros b Hb.
        * destruct (Hbn b Hb) as (K1 & _). destruct (Hal b Hb). split; lia.
        * destruct (A6 b Hb). split; lia.
    - rewrite Hfb. exact Hinj.
    - rewrite Hfb. split; lia.
    - intros b Hb. apply in_app_or in Hb. destruct Hb as [Hb|Hb]; [|auto].
      destruct (Hbn b Hb) as (K1 & _). destruct (Hal b Hb). split; lia.
  Qed.

  Definition ex_sim (exT exF : env -> list stmt -> state -> res state) : Prop :=
    forall c B e ss sc X,
      Sep X sc -> tmps sc = [] -> Binv B sc -> Ainv c B e sc -> env_ok genv e sc ->
      all_stmts (stmt_cons_b mt funs c) ss = true ->
      sim B (Binv B) (exT e ss (patch B sc)) (exF e ss sc).

  Lemma stmt_cons_call : forall c dst k args, stmt_cons_b mt funs c (SCall dst k args) = true ->
    stmt_cons_b mt funs c (SCall None k args) = true /\
    (forall d, dst = Some d -> cnameb mt funs c d = false).
  Proof.
    intros c dst k args H. unfold stmt_cons_b, chk in *. apply andb_true_iff in H. destruct H as [H1 H2]. split.
    - cbn. exact H2.
    - intros d ->. apply negb_true_iff in H1. exact H1.
  Qed.

  (* a name the table does not judge constant is not involved in any borrow *)
  Lemma Ainv_safe : forall c B e sc x a, Ainv c B e sc -> lookup e x = Some a -> cnameb mt funs c x = false -> safe_addr B a.
  Proof. intros c B e sc x a HA Lx Wx. destruct (ai_safe _ _ _ _ HA _ _ Lx) as [Hs|Hc]; [exact Hs|congruence]. Qed.

  Lemma do_call_sim : forall exT exF c B e dst k args sc X,
    ex_sim exT exF -> ex_ok genv exF ->
    Sep X sc -> tmps sc = [] -> Binv B sc -> Ainv c B e sc -> env_ok genv e sc ->
    stmt_cons_b mt funs c (SCall dst k args) = true ->
    sim B (Binv B) (do_call true mt funs genv exT e dst k args (patch B sc)) (do_call false mt funs genv exF e dst k args sc).
  Proof.
    intros exT exF c B e dst k args sc X Hsim Hok HS Ht HB HA He Hst.
    destruct (stmt_cons_call _ _ _ _ Hst) as [Hcall Hdst].
    unfold do_call. cbn [vars patch set_heap].
    destruct (nth_error funs k) as [fd|] eqn:Efd; [|split; [reflexivity|discriminate]].
    assert (Hk : k < length funs) by (apply nth_error_Some; congruence).
    assert (Efn : fn funs k = fd) by (unfold fn; apply nth_error_nth; auto).
    pose proof (cons_ok k Hk) as Hbody. rewrite Efn in Hbody.
    (* binding the parameters creates the borrows Bn *)
    pose proof (bind_params_patch args k (fparams fd) 0 args e genv X B sc HS HB) as Hb.
    destruct (bind_params false mt args k 0 (fparams fd) args e genv sc) as [[ce st1]|er] eqn:Ebind.
    2:{ rewrite Hb. split; [reflexivity|discriminate]. }
    destruct Hb as (Bn & Hbe & HBt & Hlen & Hfb1 & Hbd). rewrite Hbe. cbn [bind]. pose proof Hbd as [Hbn HR].
    destruct (bind_params_copy_spec _ _ _ _ _ _ _ _ _ _ _ _ Ebind HS) as (B1 & B3 & B4 & B5 & B6 & B7).
    (* the globals lie below the frame base, hence below every variable of the callee's frame *)
    assert (Hg : forall x a, lookup genv x = Some a -> a < length (vars sc)).
    { intros x a Hx. apply genv_lt in Hx. destruct (ai_fb _ _ _ _ HA). lia. }
    assert (Hgi : forall x y a, lookup genv x = Some a -> lookup genv y = Some a -> length (vars sc) <= a -> x = y).
    { intros x y a Hx _ Ha. apply Hg in Hx. lia. }
    destruct (bind_params_inj _ _ _ _ _ _ _ _ _ _ _ (length (vars sc)) Ebind (le_n _) (ai_lt _ _ _ _ HA) Hg Hgi)
      as [Hclt Hcinj].
    set (BBt := Bn ++ B) in *. set (saved := tmps st1).
    change (tmps (patch BBt st1)) with saved.
    set (st1' := set_fbase (set_tmps st1 []) (length (vars sc))).
    change (set_fbase (set_tmps (patch BBt st1) []) (length (vars sc))) with (patch BBt st1').
    assert (S1' : Sep (saved ++ X) st1') by (apply (Sep_perm X (saved ++ X) st1 st1'); auto).
    assert (B1' : Binv BBt st1') by (eapply Binv_keeps; [exact HBt|]; intros; split; (split; [reflexivity|intros; reflexivity])).
    assert (A1' : Ainv (Some k) BBt ce st1') by (eapply (callee_Ainv c B e sc k fd args ce st1' Bn); eauto).
    assert (He1 : env_ok genv ce st1').
    { destruct He as [He1 He2]. split; [|exact B7]. cbn. intros ad Ha. apply B6 in Ha.
      destruct Ha as [Ha|[Ha|Ha]]; [apply He2 in Ha; apply He1 in Ha; lia| |lia].
      apply ref_addrs_in in Ha. apply He1 in Ha. lia. }
    (* the callee's body *)
    eapply sim_bind; [apply (Hsim (Some k) BBt ce (fbody fd) st1' (saved ++ X)); auto|]. intros st2 Ebody B2.
    destruct (Hok _ _ _ _ _ Ebody S1' eq_refl He1) as [C1 C2 _ C3 C4]. cbn in C3.
    (* the return value *)
    apply sim_bind1 with (B' := BBt); [apply (ret_value_patch (saved ++ X)); auto|]. intros result st6 Eret.
    destruct (ret_value_spec _ _ _ _ _ _ Eret C1 C2) as (Y & R1 & R2 & R3 & R4 & R5).
    assert (B6' : Binv BBt st6).
    { eapply Binv_keeps; eauto. intros b Hb. destruct (Binv_lt _ _ _ B2 Hb). split; apply R4; auto. }
    (* leaving the frame drops the borrows Bn again *)
    unfold exit_frame. cbn [vars patch set_heap].
    assert (Hbase : length (vars sc) + (length (vars st6) - length (vars sc)) = length (vars st6)) by lia.
    assert (Hal : forall b, In b BBt -> b_al b < length (vars sc)).
    { intros b Hb. unfold BBt in Hb. apply in_app_or in Hb. destruct Hb as [Hb|Hb].
      - destruct (Hbn b Hb) as (_ & _ & [K|(x & Lx & _)]).
        + apply in_map_iff in K. destruct K as (b0 & E0 & H0). destruct (Binv_lt _ _ _ HB H0). lia.
        + apply (ai_lt _ _ _ _ HA) in Lx. auto.
      - destruct (Binv_lt _ _ _ HB Hb). auto. }
    assert (Efil : filter (fun b => Nat.ltb (b_pa b) (length (vars sc))) BBt = B).
    { apply filter_borrows.
      - intros b Hb. destruct (Hbn b Hb) as (K & _). exact K.
      - intros b Hb. destruct (Binv_lt _ _ _ HB Hb). auto. }
    apply sim_bind_eq with (B' := B).
    { rewrite (exit_from_patch _ _ (Y ++ saved ++ X) BBt st6 (length (vars sc))) by auto. rewrite Efil. reflexivity. }
    intros st7 Eexit.
    destruct (exit_from_copy_spec _ _ _ _ _ Eexit R1 Hbase) as (F1 & F2 & F3 & F4 & F5).
    (* back in the caller *)
    change (fbase (patch B sc)) with (fbase sc).
    set (st7r := set_fbase st7 (fbase sc)).
    change (set_fbase (patch B st7) (fbase sc)) with (patch B st7r).
    apply (call_finish_sim X B Y).
    - apply (Sep_perm (Y ++ saved ++ X) (Y ++ saved ++ X) st7 st7r); auto.
    - cbn. congruence.
    - exact R5.
    - eapply Binv_keeps; [rewrite <- Efil; apply Binv_filter; exact B6'|].
      intros b Hb. destruct (Binv_lt _ _ _ HB Hb). destruct (F5 (b_pa b)), (F5 (b_al b)); auto. split; split; auto.
    - intros d a -> Ed. eapply Ainv_safe; eauto.
  Qed.

  Lemma for_loop_sim : forall exT exF c B x body e cs sc X,
    ex_sim exT exF -> ex_ok genv exF ->
    Sep X sc -> tmps sc = [] -> Binv B sc -> Ainv c B e sc -> env_ok genv e sc ->
    all_stmts (stmt_cons_b mt funs c) body = true ->
    sim B (Binv B) (for_loop exT x body e cs (patch B sc)) (for_loop exF x body e cs sc).
  Proof.
    intros exT exF c B x body e cs. induction cs as [|z cs IH]; intros sc X Hsim Hok HS Ht HB HA He Hbody; cbn [for_loop].
    - split; [reflexivity|]. intros sc' H. inv H. exact HB.
    - destruct (new_var (VInt z) sc) as [a st1] eqn:En. rewrite (new_var_patch _ _ _ _ _ En).
      pose proof (Sep_new_var_int _ _ _ _ _ HS En) as S1.
      pose proof (new_var_fbase _ _ _ _ En) as Fb1.
      pose proof (Binv_new_var _ _ _ _ _ HB En) as B1.
      pose proof (new_var_spec _ _ _ _ En) as (-> & N2 & N3 & N4 & N5).
      assert (L1 : length (vars sc) < length (vars st1)) by (rewrite N2, app_length; cbn; lia).
      pose proof (env_ok_decl genv _ _ st1 x He L1) as He1.
      eapply sim_bind; [apply (Hsim c B _ body st1 X); auto; [congruence|eapply Ainv_decl; eauto]|]. intros st2 Eb B2.
      destruct (Hok _ _ _ _ _ Eb S1 (eq_trans N4 Ht) He1) as [C1 C2 C0 C3 C4].
      assert (L2 : length (vars sc) <= length (vars st2)) by lia.
      apply (IH st2 X); auto; [eapply Ainv_mono; eauto; congruence|eapply env_ok_mono; eauto].
  Qed.

  Theorem exec_sim : forall fuel, ex_sim (exec true mt funs genv fuel) (exec false mt funs genv fuel).
  Proof.
    induction fuel as [|fuel IH]; intros c B e ss sc X HS Ht HB HA He Hss; cbn [exec].
    { split; [reflexivity|discriminate]. }
    pose proof (exec_copy_ok mt funs genv fuel) as Hok.
    destruct ss as [|s rest].
    { split; [reflexivity|]. intros sc' H. inv H. exact HB. }
    destruct (all_stmts_cons _ _ _ Hss) as [Hs Hrest]. pose proof (all_stmt_head _ _ Hs) as Hhd.
    (* after a step that keeps Binv, a further block in the same environment *)
    assert (Next : forall ss' sc1 (P : nat -> Prop), all_stmts (stmt_cons_b mt funs c) ss' = true ->
               step_ok X sc sc1 P -> Binv B sc1 ->
               sim B (Binv B) (exec true mt funs genv fuel e ss' (patch B sc1)) (exec false mt funs genv fuel e ss' sc1)).
    { intros ss' sc1 P Hss' [D1 D2 D0 D3 D4] B1. apply (IH c B e ss' sc1 X); auto.
      - eapply Ainv_mono; eauto.
      - eapply env_ok_mono; eauto. }
    (* a step that writes nothing, or only a variable not involved in a borrow, keeps Binv *)
    assert (Bnone : forall sc1, step_ok X sc sc1 (fun _ => False) -> Binv B sc1).
    { intros sc1 D. eapply Binv_step; [exact HB|apply (so_keeps _ _ _ _ D)|]. intros b _. split; auto. }
    assert (Bsafe : forall x a sc1, lookup e x = Some a -> cnameb mt funs c x = false -> step_ok X sc sc1 (fun b => b = a) -> Binv B sc1).
    { intros x a sc1 Lx Wx D. eapply Binv_step; [exact HB|apply (so_keeps _ _ _ _ D)|].
      intros b Hb. cbn. apply (safe_addr_neq B); [eapply Ainv_safe; eauto|exact Hb]. }
    destruct s as [x ex|x ex|x i v|ex|dst f args|cnd th el|x ex body].
    - apply sim_bind1 with (B' := B); [apply (do_decl_patch X); auto|]. intros e' st1 Ed.
      destruct (do_decl_spec _ _ _ _ _ _ _ Ed HS) as (D & -> & D5 & D6). pose proof (Bnone _ D) as B1.
      destruct D as [D1 D2 D0 D3 D4]. apply (IH c B _ rest st1 X); auto.
      + eapply Ainv_decl; eauto. lia.
      + eapply env_ok_decl; eauto. lia.
    - assert (Hw : cnameb mt funs c x = false) by (unfold stmt_cons_b, chk in Hhd; apply negb_true_iff in Hhd; exact Hhd).
      apply sim_bind_eq with (B' := B).
      { apply (do_assign_patch X); auto. intros a La. eapply Ainv_safe; eauto. }
      intros st1 Ed. destruct (do_assign_spec _ _ _ _ _ _ Ed HS) as (a & La & D & _). eapply Next; eauto.
    - assert (Hw : cnameb mt funs c x = false) by (unfold stmt_cons_b, chk in Hhd; apply negb_true_iff in Hhd; exact Hhd).
      apply sim_bind_eq with (B' := B).
      { apply (do_assign_idx_patch X); auto. intros a La. eapply Ainv_safe; eauto. }
      intros st1 Ed. destruct (do_assign_idx_spec _ _ _ _ _ _ _ Ed HS) as (a & La & D & _). eapply Next; eauto.
    - apply sim_bind_eq with (B' := B); [apply (do_print_patch X); auto|]. intros st1 Ed.
      destruct (do_print_spec _ _ _ _ _ Ed HS) as (D & _). eapply Next; eauto.
    - eapply sim_bind; [apply (do_call_sim _ _ c B e dst f args sc X IH Hok); auto|]. intros st1 Ed B1.
      destruct (do_call_copy_spec _ _ _ _ _ _ _ _ _ _ _ Hok Ed HS Ht He) as (D & _). eapply Next; eauto.
    - destruct (all_stmt_if _ _ _ _ Hs) as [Hth Hel].
      apply sim_bind1 with (B' := B); [apply (do_cond_patch X); auto|]. intros bv st1 Ed.
      destruct (do_cond_spec _ _ _ _ _ _ Ed HS) as (D & _).
      eapply sim_bind; [eapply (Next (if bv then th else el)); [destruct bv; auto|exact D|auto]|]. intros st2 Eb B2.
      eapply Next; [auto| |exact B2]. eapply step_then; eauto. intros b0 [].
    - pose proof (all_stmt_for _ _ _ _ Hs) as Hbody.
      apply sim_bind1 with (B' := B); [apply (for_init_patch X); auto|]. intros [lc cs] st1 Ed.
      destruct (for_init_spec _ _ _ _ _ _ _ Ed HS) as (D & _). pose proof D as [D1 D2 D0 D3 D4].
      eapply sim_bind.
      { apply (for_loop_sim _ _ c B x body e cs st1 (lc :: X) IH Hok); auto.
        - eapply Binv_step; [exact HB|exact D4|]. intros b _. split; auto.
        - eapply Ainv_mono; eauto.
        - eapply env_ok_mono; eauto. }
      intros st2 El B2.
      pose proof (for_loop_spec _ _ _ _ _ _ _ _ _ Hok El D1 D2 (env_ok_mono _ _ _ _ He D3)) as [C1 C2 C0 C3 C4].
      assert (Hlc : live st2 lc) by (apply (sep_xlive _ _ C1); rewrite in_middle; auto).
      apply sim_bind_eq with (B' := B).
      { apply free_patch; auto. eapply (owner_loc (lc :: X)); eauto. rewrite in_middle. auto. }
      intros st3 Ef.
      destruct (for_step _ _ _ _ _ _ _ _ _ _ _ _ _ Hok Ed El Ef HS Ht He) as (R & _).
      eapply Next; [auto|exact R|]. eapply Binv_keeps; [exact B2|]. intros b _. split; eapply free_x_keeps; eauto.
  Qed.
End Full.

Theorem elision_sound : forall fuel p, run_elide fuel p = run_copy fuel p.
Proof.
  intros fuel p. unfold run_elide, run_copy, run.
  destruct (init_globals (pglobals p) [] st0) as [[ge st]|er] eqn:Ei; [|reflexivity]. cbn [bind].
  set (mt := analyse (pfuns p)).
  destruct (init_globals_spec _ _ _ _ _ Ei Sep_st0 eq_refl (fun a (F : In a []) => match F with end)) as (S1 & T1 & L1 & O1).
  set (gbase := length (vars st)).
  assert (Glt : forall g a, lookup ge g = Some a -> a < gbase).
  { intros g a Hg. apply L1. eapply lookup_in; eauto. }
  set (stm := set_fbase st gbase).
  assert (S1m : Sep [] stm) by (apply (Sep_perm [] [] st stm); auto).
  assert (HA : Ainv mt (pfuns p) gbase None [] ge stm).
  { constructor.
    - intros x a Hx. apply Glt in Hx. exact Hx.
    - intros x a Hx. left. split; intros [].
    - intros x y a Hx Hy Hb. apply Glt in Hx. cbn in Hb. lia.
    - cbn. unfold gbase. split; lia.
    - intros b []. }
  assert (He : env_ok ge ge stm).
  { split; [intros a Ha; apply L1; auto|apply incl_refl]. }
  (* the main program runs without borrows, in no function's context, above the globals *)
  destruct (exec_sim mt (pfuns p) ge gbase Glt (analyse_consistent (pfuns p)) fuel None [] ge (pmain p) stm []) as [Heq _].
  - exact S1m.
  - exact T1.
  - apply Binv_nil.
  - exact HA.
  - exact He.
  - apply main_consistent.
  - rewrite patch_nil, lift0_nil in Heq. change (set_fbase st (length (vars st))) with stm. rewrite Heq. reflexivity.
Qed.
