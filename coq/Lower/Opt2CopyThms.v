(* C08 — the theorems about copy mode (the language rule; what -O0/-O1 implement) over the machine of Opt2.v;
   the invariant and the frame property they rest on are in Opt2Copy.v. *)
From Coq Require Import List ZArith Bool Arith Lia.
Import ListNotations.
From DDP Require Import Lower.Opt2 Lower.Opt2Base Lower.Opt2Fbase Lower.Opt2Copy.

Lemma Sep_st0 : Sep [] st0.
Proof.
  constructor; unfold ptr_at; cbn; try contradiction.
  - intros a l H. destruct a; discriminate H.
  - intros a b l H. destruct a; discriminate H.
  - constructor.
  - intros a l H. destruct a; discriminate H.
Qed.

Lemma init_globals_spec : forall gs e st e' st',
  init_globals gs e st = Ok (e', st') -> Sep [] st -> tmps st = [] ->
  (forall a, In a (map snd e) -> a < length (vars st)) ->
  Sep [] st' /\ tmps st' = [] /\ (forall a, In a (map snd e') -> a < length (vars st')) /\ out st' = out st.
Proof.
  induction gs as [|[x ex] gs IH]; intros e st e' st' H HS Ht He; cbn in H.
  - inv H. auto.
  - bind_as H r Hd H. destruct r as [e1 st1].
    destruct (do_decl_spec _ _ _ _ _ _ _ Hd HS) as ([A1 A2 A0 A3 A4] & -> & D3 & D4 & _).
    assert (He1 : forall a, In a (map snd ((x, length (vars st)) :: e)) -> a < length (vars st1)).
    { cbn. intros a [<-|Ha]; [lia|]. apply He in Ha. lia. }
    destruct (IH _ _ _ _ H A1 A2 He1) as (B1 & B2 & B3 & B4).
    split; [auto|split; [auto|split; [auto|congruence]]].
Qed.

(* the variables a single statement may change, as the programmer sees them: the assigned variable;
   for a call the destination, the Referenz arguments and the globals — never a value argument; for if and
   for-each everything the statement can name (no finer than the frame property) *)
Definition targets (genv e : env) (s : stmt) (b : nat) : Prop :=
  match s with
  | SDecl _ _ | SPrint _ => False
  | SAssign x _ | SAssignIdx x _ _ => lookup e x = Some b
  | SCall dst _ args =>
      (match dst with Some x => lookup e x = Some b | None => False end) \/
      In b (ref_addrs e args) \/ In b (map snd genv)
  | SIf _ _ _ | SFor _ _ _ => In b (map snd e)
  end.

Lemma exec_nil : forall el mt funs genv fuel e st st',
  exec el mt funs genv fuel e [] st = Ok st' -> st' = st.
Proof. intros. destruct fuel; cbn in H; [discriminate H | inv H; auto]. Qed.

Theorem copy_noninterference : forall mt funs genv fuel X e s st st',
  exec false mt funs genv fuel e [s] st = Ok st' ->
  Sep X st -> tmps st = [] -> env_ok genv e st ->
  Sep X st' /\
  forall b, b < length (vars st) -> ~ targets genv e s b -> value_of st' b = value_of st b.
Proof.
  intros mt funs genv fuel X e s st st' H HS Ht He.
  destruct fuel as [|fuel]; [discriminate H|]. pose proof H as Hx. cbn in H.
  destruct s as [x ex|x ex|x i v|ex|dst f args|c th el|x ex body]; cbn [targets].
  (* if and for-each: as blocks *)
  6,7: (destruct (exec_copy_ok mt funs genv (S fuel) _ _ _ _ _ Hx HS Ht He) as [A1 A2 A0 A3 A4];
        split; auto; intros b Hb Hn; apply keeps_value; apply A4; auto).
  - bind_as H r Hd H. destruct r as [e' st1]. apply exec_nil in H. subst st'.
    destruct (do_decl_spec _ _ _ _ _ _ _ Hd HS) as ([A1 A2 A0 A3 A4] & _).
    split; auto. intros b Hb _. apply keeps_value. apply A4; auto.
  - bind_as H st1 Hd H. apply exec_nil in H. subst st'.
    destruct (do_assign_spec _ _ _ _ _ _ Hd HS) as (a & La & [A1 A2 A0 A3 A4] & _).
    split; auto. intros b Hb Hn. apply keeps_value. apply A4; auto. congruence.
  - bind_as H st1 Hd H. apply exec_nil in H. subst st'.
    destruct (do_assign_idx_spec _ _ _ _ _ _ _ Hd HS) as (a & La & [A1 A2 A0 A3 A4] & _).
    split; auto. intros b Hb Hn. apply keeps_value. apply A4; auto. congruence.
  - bind_as H st1 Hd H. apply exec_nil in H. subst st'.
    destruct (do_print_spec _ _ _ _ _ Hd HS) as ([A1 A2 A0 A3 A4] & _).
    split; auto. intros b Hb _. apply keeps_value. apply A4; auto.
  - bind_as H st1 Hd H. apply exec_nil in H. subst st'.
    destruct (do_call_copy_spec _ _ _ _ _ _ _ _ _ _ _ (exec_copy_ok mt funs genv fuel) Hd HS Ht He) as ([A1 A2 A0 A3 A4] & _).
    split; auto. intros b Hb Hn. apply keeps_value. apply A4; auto.
Qed.

(* a copy-introducing construct gives the new holder the same value in a buffer of its own *)
Theorem copy_init_value : forall X e y x a st e' st',
  do_decl e y (EVar x) st = Ok (e', st') -> Sep X st -> tmps st = [] -> lookup e x = Some a ->
  let b := length (vars st) in
  lookup e' y = Some b /\ value_of st' b = value_of st a /\ value_of st' a = value_of st a /\
  (forall l l', ptr_at st' a l -> ptr_at st' b l' -> l <> l').
Proof.
  intros X e y x a st e' st' H HS _ La b.
  destruct (do_decl_spec _ _ _ _ _ _ _ H HS) as ([A1 A2 A0 A3 A4] & -> & D3 & D4 & (v & st1 & s & Hev & Hs & Hv)).
  (* the expression is the variable x: its value is what the slot of x holds *)
  cbn [eval] in Hev. rewrite La in Hev. bind_as Hev sx Hsx Hev. apply get_slot_ok in Hsx.
  assert (Ha : a < length (vars st)) by (eapply nth_error_lt; eauto).
  split; [cbn; rewrite Nat.eqb_refl; auto|]. split; [|split; [apply keeps_value; apply A4; auto|]].
  - unfold value_of. fold b in Hs. rewrite Hs, Hsx.
    destruct sx as [z|l|]; inv Hev; destruct s as [z'|l'|]; cbn in Hv; try contradiction.
    + congruence.
    + destruct Hv as (c & C1 & C2). rewrite C1, C2. reflexivity.
  - intros l l' P1 P2 ->. assert (a = b) by (eapply (sep_inj _ _ A1); eauto). subst b. lia.
Qed.

(* binding: a Referenz parameter is bound to the very storage of its argument — every occurrence of
   the same variable to the same storage, a global to the global's storage *)
Lemma bind_params_refs : forall el mt all f ps i args e ce st ce' st',
  bind_params el mt all f i ps args e ce st = Ok (ce', st') ->
  NoDup (map pname ps) ->
  (forall k p x, nth_error ps k = Some p -> pref p = true -> nth_error args k = Some (ARef x) ->
     exists a, lookup e x = Some a /\ lookup ce' (pname p) = Some a) /\
  (forall y, ~ In y (map pname ps) -> lookup ce' y = lookup ce y).
Proof.
  intros el mt all f ps. induction ps as [|p ps IH]; intros i args e ce st ce' st' H Hnd;
    destruct args as [|a args]; try (cbn in H; discriminate H).
  - cbn in H. inv H. split; auto. intros k p x Hk. destruct k; discriminate Hk.
  - inv Hnd.
    rewrite bind_params_cons in H. bind_as H r H1 K. destruct r as [ad st1].
    pose proof (bind_one_shape _ _ _ _ _ _ _ _ _ _ _ H1) as F.
    assert (Kr : pref p = true -> exists x, a = ARef x /\ lookup e x = Some ad).
    { intros Ep. rewrite Ep in F. apply F. }
    destruct (IH _ _ _ _ _ _ _ K H3) as (I1 & I2).
    split.
    + intros k q x Hk Hq Ha. destruct k as [|k]; cbn in Hk, Ha.
      * inv Hk. inv Ha. destruct (Kr Hq) as (x' & E & L). inv E. exists ad. split; auto.
        rewrite I2 by auto. cbn. rewrite Nat.eqb_refl. auto.
      * eapply I1; eauto.
    + intros y Hy. cbn in Hy. rewrite I2 by tauto. cbn.
      destruct (Nat.eqb_spec (pname p) y); [exfalso; apply Hy; auto | auto].
Qed.

(* ref_visible: in a call with Referenz arguments, what the callee sees through each Referenz
   parameter when its body ends is exactly what the caller sees in the argument variable after
   the call — also when one variable is passed for several parameters or is a global; and the
   call changes no other variable of the caller except globals and the destination *)
Theorem ref_visible : forall mt funs genv fuel X e dst f args st st',
  do_call false mt funs genv (exec false mt funs genv fuel) e dst f args st = Ok st' ->
  Sep X st -> tmps st = [] -> env_ok genv e st ->
  exists fd ce st1 st2,
    nth_error funs f = Some fd /\
    bind_params false mt args f 0 (fparams fd) args e genv st = Ok (ce, st1) /\
    exec false mt funs genv fuel ce (fbody fd) (set_fbase (set_tmps st1 []) (length (vars st))) = Ok st2 /\
    (NoDup (map pname (fparams fd)) ->
     forall k p x, nth_error (fparams fd) k = Some p -> pref p = true -> nth_error args k = Some (ARef x) ->
       exists a, lookup e x = Some a /\ lookup ce (pname p) = Some a /\
                 (match dst with Some y => lookup e y <> Some a | None => True end -> value_of st' a = value_of st2 a)) /\
    (forall b, b < length (vars st) ->
       ~ (match dst with Some y => lookup e y = Some b | None => False end) ->
       ~ In b (ref_addrs e args) -> ~ In b (map snd genv) -> value_of st' b = value_of st b).
Proof.
  intros mt funs genv fuel X e dst f args st st' H HS Ht He.
  destruct (do_call_copy_spec _ _ _ _ _ _ _ _ _ _ _ (exec_copy_ok mt funs genv fuel) H HS Ht He)
    as ([A1 A2 A0 A3 A4] & fd & ce & st1 & st2 & E1 & E2 & E3 & E4).
  exists fd, ce, st1, st2. split; [auto|split; [auto|split; [auto|split]]].
  - intros Hnd k p x Hk Hp Ha.
    destruct (bind_params_refs _ _ _ _ _ _ _ _ _ _ _ _ E2 Hnd) as (R1 & _).
    destruct (R1 _ _ _ Hk Hp Ha) as (a & L1 & L2). exists a. split; [auto|split; [auto|]].
    intros Hd. apply keeps_value. apply E4.
    + destruct He as [He1 _]. apply He1. eapply lookup_in; eauto.
    + destruct dst; auto.
  - intros b Hb N1 N2 N3. apply keeps_value. apply A4; auto. tauto.
Qed.
