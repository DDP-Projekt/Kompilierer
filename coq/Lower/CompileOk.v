(* Compile-level theorem for a fragment of the skeleton: the actions emitted by Own.compile pass the static
   ownership discipline, hence (OwnProofs.program_ok_balanced) every normally terminating run is balanced.

   PROVED (this file): for the fragment
       expressions  EPrim EVar EPart ELit EUse1 EUse2 EDerive EElem EConcat EAnd                               (fexpr)
       statements   SSkip SSeq SDecl SAssign SAssignPart SExpr SBlock SIf SWhile SDoWhile SBreak SContinue  (fstmt;
                    SSeq a b requires that a can fall through: no statements behind an unconditional break/continue)
     (operators read their operands in place: IUse, accepted because the operand's owner is still owned: use_of_now/_later)
     cexpr_ok / catom_ok / cstmt_ok: the code Own.compile emits passes own_check from every static state related (Rel)
     to the compile-time state, under the loop-context invariant LK (the owners below the alloca counter at loop entry
     are frozen, the scopes from the loop scope upwards hold only younger slots: thr, snap), and leads to a related
     state on fallthrough while break / continue arrive at the states recorded for the loop (exit_check);
     compile_ok: program_ok P = true for every fragment program that compiles; program_balanced_fragment.
   NOT PROVED: the remaining cases of the same inductions —
     cexpr_ok for EFalls (arm result claimed out of the arm scope before that scope is left, joined through a fresh slot),
       EBuild / ECall / EExt (cbuild, cargs, cextargs: owners that are registered nowhere until the callee or container
       took them; ECall needs the outer induction on the inlining depth of inline_d and the IFun rule);
     cstmt_ok for SRepeat (while_ok without the condition scope), SFor (thr for two different heights: the loop scope
       survives a continue; the body must be a block), SForEach (protected temporary and loop variable: noprot_sc does
       not hold, oncont / onbrk are not ISkip) and SReturn (needs ECall; the same exit_check with return_frees).
   For those constructs Lower/CompileBounded.v proves program_ok for an explicitly enumerated family, and the check
   evaluates the extracted program_ok on every generated skeleton. *)
From Coq Require Import List Bool Arith Lia Permutation.
Import ListNotations.
From DDP Require Import Lower.ListFacts Rt.Heap Lower.Own Lower.OwnCheck Lower.OwnProofs.
Local Open Scope nat_scope.

Fixpoint sorted (l : list nat) : Prop :=
  match l with [] => True | x :: r => (forall y, In y r -> x < y) /\ sorted r end.

Lemma ins_sorted : forall d l, sorted l -> sorted (ins d l).
Proof.
  induction l as [|y l IH]; intro H; cbn [ins].
  - cbn. split; [intros ? []|exact Logic.I].
  - destruct H as [H1 H2]. destruct (Nat.ltb_spec d y) as [L|L].
    + cbn [sorted]. split; [|split; assumption]. intros z [E|Hz]; [subst; exact L | specialize (H1 z Hz); lia].
    + destruct (Nat.eqb_spec d y) as [E|E]; [split; assumption|].
      cbn [sorted]. split; [|apply IH; exact H2]. intros z Hz. apply ins_In in Hz. destruct Hz as [Hz|Hz]; [subst; lia | apply H1; exact Hz].
Qed.
Lemma del_sorted : forall d l, sorted l -> sorted (del d l).
Proof.
  induction l as [|y l IH]; intro H; [exact Logic.I|]. destruct H as [H1 H2]. unfold del in *. cbn [filter].
  destruct (negb (Nat.eqb d y)); [|apply IH; exact H2]. cbn [sorted]. split; [|apply IH; exact H2].
  intros z Hz. apply filter_In in Hz. apply H1. tauto.
Qed.
Lemma sorted_ext : forall a b, sorted a -> sorted b -> (forall x, In x a <-> In x b) -> a = b.
Proof.
  induction a as [|x a IH]; intros b Ha Hb H.
  - destruct b as [|y b]; [reflexivity|]. exfalso. apply (H y). left. reflexivity.
  - destruct b as [|y b]; [exfalso; apply (H x); left; reflexivity|].
    destruct Ha as [Ha1 Ha2]. destruct Hb as [Hb1 Hb2].
    assert (E : x = y).
    { destruct (proj1 (H x) (or_introl eq_refl)) as [E|Hx]; [auto|].
      destruct (proj2 (H y) (or_introl eq_refl)) as [E|Hy]; [auto|].
      specialize (Ha1 y Hy). specialize (Hb1 x Hx). lia. }
    subst y. f_equal. apply IH; try assumption. intro z. split; intro Hz.
    + destruct (proj1 (H z) (or_intror Hz)) as [E|Hz']; [|exact Hz']. subst z. specialize (Ha1 x Hz). lia.
    + destruct (proj2 (H z) (or_intror Hz)) as [E|Hz']; [|exact Hz']. subst z. specialize (Hb1 x Hz). lia.
Qed.
Lemma leq_refl : forall l, leq l l = true.
Proof. exact sub_refl_own. Qed.

Definition scope_slots (sc : scope) : list nat := map v_slot (sc_vars sc) ++ map t_slot (sc_temps sc).
Definition reg (cs : cstate) : list nat := flat_map scope_slots (c_scopes cs).
Definition vslots (cs : cstate) : list nat := flat_map (fun sc => map v_slot (sc_vars sc)) (c_scopes cs).
Definition noprot_sc (sc : scope) : Prop :=
  (forall v, In v (sc_vars sc) -> v_prot v = false) /\ (forall t, In t (sc_temps sc) -> t_prot t = false).

Record Rel (cs : cstate) (G : ost) : Prop := mkRel {
  r_ne : c_scopes cs <> [];
  r_np : forall sc, In sc (c_scopes cs) -> noprot_sc sc;
  r_nd : NoDup (reg cs);
  r_lt : forall s, In s (reg cs) -> s < c_next cs;
  r_sorted : sorted (o_own G);
  r_own_reg : forall s, In s (o_own G) -> In s (reg cs);
  r_reg : forall s, In s (reg cs) -> In s (o_own G) \/ In s (o_dead G);
  r_vars : forall s, In s (vslots cs) -> In s (o_own G);
  r_env : forall x p, lookup (c_env cs) x = Some p -> In (root p) (vslots cs);
  r_dead_lt : forall s, In s (o_dead G) -> s < c_next cs;
  r_vnd : forall s, In s (vslots cs) -> ~ In s (o_dead G)          (* a variable's slot is never an emptied one *)
}.

Lemma vslots_reg : forall cs s, In s (vslots cs) -> In s (reg cs).
Proof.
  intros cs s H. unfold vslots, reg in *. apply in_flat_map in H. destruct H as [sc [H1 H2]].
  apply in_flat_map. exists sc. split; [exact H1|]. unfold scope_slots. apply in_or_app. left. exact H2.
Qed.

Lemma exit_frees_noprot : forall sc, noprot_sc sc -> exit_frees false sc = map IFree (scope_slots sc).
Proof.
  intros sc [Hv Ht]. unfold exit_frees, scope_slots. rewrite map_app, !map_map. f_equal.
  - rewrite filter_all; [reflexivity|]. intros v Hin. rewrite (Hv v Hin). reflexivity.
  - rewrite filter_all; [reflexivity|]. intros t Hin. rewrite (Ht t Hin). reflexivity.
Qed.

Lemma oc_seq : forall K a b G, own_check K (ISeq a b) G =
  match own_check K a G with Some (Some G1) => own_check K b G1 | r => r end.
Proof. reflexivity. Qed.
Lemma oc_if : forall K a b G, own_check K (IIf a b) G =
  match own_check K a G, own_check K b G with Some ra, Some rb => join ra rb | _, _ => None end.
Proof. reflexivity. Qed.
Lemma iseq_cons_eq : forall c l, iseq (c :: l) = match l with [] => c | _ :: _ => ISeq c (iseq l) end.
Proof. intros c l. destruct l; reflexivity. Qed.
Lemma sub_same_own : forall Gx G, o_own Gx = o_own G -> (forall s, In s (o_dead G) -> In s (o_dead Gx)) -> sub Gx G = true.
Proof. intros Gx G Eo Dx. unfold sub. rewrite Eo, leq_refl. apply subset_incl. exact Dx. Qed.
Lemma loop_passes : forall K skf cnt test body G Gt Xo,
  own_check ctx0 test G = Some (Some Gt) -> sub Gt G = true ->
  own_check (mkCtx (Some (ISkip, G)) (Some (ISkip, G)) (k_ret K)) body G = Some Xo ->
  (forall G3, Xo = Some G3 -> sub G3 G = true) ->
  own_check K (ILoop skf cnt test body ISkip ISkip ISkip) G = Some (Some G).
Proof.
  intros K skf cnt test body G Gt Xo Ct St Cb Sb. cbn [own_check check_simple]. rewrite Ct, St, Cb.
  destruct Xo as [G3|]; [rewrite (Sb G3 eq_refl)|]; reflexivity.
Qed.
Lemma iseq_cons2 : forall i j l, iseq (i :: j :: l) = ISeq i (iseq (j :: l)).
Proof. reflexivity. Qed.

(* freeing a list of distinct slots each of which is owned or dead *)
Lemma check_frees : forall K L G, NoDup L -> (forall s, In s L -> In s (o_own G) \/ In s (o_dead G)) ->
  exists G', own_check K (iseq (map IFree L)) G = Some (Some G') /\ o_dead G' = o_dead G /\
             (forall s, In s (o_own G') <-> In s (o_own G) /\ ~ In s L) /\ (sorted (o_own G) -> sorted (o_own G')).
Proof.
  intros K L. induction L as [|x L IH]; intros G Hnd H.
  - exists G. cbn. split; [reflexivity|]. split; [reflexivity|]. split; [intro s; tauto | auto].
  - inversion Hnd as [|? ? Hn Hd]; subst.
    assert (Hstep : exists G1, own_check K (IFree x) G = Some (Some G1) /\ o_dead G1 = o_dead G /\
              (forall s, In s (o_own G1) <-> In s (o_own G) /\ s <> x) /\ (sorted (o_own G) -> sorted (o_own G1))).
    { cbn [own_check]. destruct (mem x (o_own G)) eqn:M.
      - exists (take x G). split; [reflexivity|]. split; [reflexivity|]. split; [intro s; cbn; apply del_In | intro Hs; cbn; apply del_sorted; exact Hs].
      - destruct (H x (or_introl eq_refl)) as [Hx|Hx]; [apply mem_In in Hx; congruence|]. apply mem_In in Hx. rewrite Hx.
        exists G. split; [reflexivity|]. split; [reflexivity|]. split; [|auto]. intro s. split; [|tauto].
        intro Hs. split; [exact Hs|]. intro E. subst s. apply mem_In in Hs. congruence. }
    destruct Hstep as [G1 [E1 [D1 [O1 S1]]]].
    destruct (IH G1 Hd) as [G' [E2 [D2 [O2 S2]]]].
    { intros s Hs. rewrite D1. destruct (H s (or_intror Hs)) as [Ho|Ho]; [left; apply O1; split; [exact Ho|] | right; exact Ho].
      intro E. subst s. exact (Hn Hs). }
    exists G'. split; [|split; [congruence|split]].
    + destruct L as [|y L].
      * cbn [map iseq] in *. cbn in E2. inversion E2; subst. exact E1.
      * cbn [map] in *. rewrite iseq_cons2, oc_seq, E1. exact E2.
    + intro s. rewrite O2, O1. cbn [In]. intuition congruence.
    + intro Hs. apply S2, S1, Hs.
Qed.

Lemma oc_iseq_cons : forall K c l G, own_check K (iseq (c :: l)) G =
  match own_check K c G with Some (Some G1) => own_check K (iseq l) G1 | r => r end.
Proof.
  intros K c l G. destruct l as [|j l].
  - cbn [iseq]. destruct (own_check K c G) as [[G1|]|]; reflexivity.
  - rewrite iseq_cons2, oc_seq. reflexivity.
Qed.
Lemma oc_iseq_app : forall K l1 l2 G G1, own_check K (iseq l1) G = Some (Some G1) ->
  own_check K (iseq (l1 ++ l2)) G = own_check K (iseq l2) G1.
Proof.
  intros K l1. induction l1 as [|c l1 IH]; intros l2 G G1 H.
  - cbn in H. inversion H; subst. reflexivity.
  - cbn [app]. rewrite oc_iseq_cons in *. destruct (own_check K c G) as [[G0|]|]; try discriminate H. apply IH. exact H.
Qed.

(* cs' is cs with new variables V and new temporaries T registered in the head scope *)
Definition ext (cs cs' : cstate) (V T : list nat) : Prop :=
  exists h tlsc, c_scopes cs = h :: tlsc /\
    c_scopes cs' = mkScope (sc_vars h ++ map (fun s => mkVar s false) V) (sc_temps h ++ map (fun s => mkTmp s false) T) :: tlsc /\
    c_loop cs' = c_loop cs /\ c_fun cs' = c_fun cs /\ c_next cs <= c_next cs' /\
    (forall s, In s (V ++ T) -> c_next cs <= s < c_next cs').

Lemma ext_refl : forall cs, c_scopes cs <> [] -> ext cs cs [] [].
Proof.
  intros cs H. destruct (c_scopes cs) as [|h t] eqn:E; [congruence|]. exists h, t. cbn [map]. rewrite !app_nil_r.
  destruct h as [v tm]. cbn [sc_vars sc_temps].
  split; [exact E|]. split; [exact E|]. split; [reflexivity|]. split; [reflexivity|]. split; [lia|]. intros s [].
Qed.

Lemma ext_trans : forall a b c V1 T1 V2 T2, ext a b V1 T1 -> ext b c V2 T2 -> ext a c (V1 ++ V2) (T1 ++ T2).
Proof.
  intros a b c V1 T1 V2 T2 [h [t [Es [Es' [El [Ef [En Enew]]]]]]] [h' [t' [Fs [Fs' [Fl [Ff [Fn Fnew]]]]]]].
  rewrite Es' in Fs. inversion Fs; subst h' t'. exists h, t. cbn [sc_vars sc_temps] in Fs'.
  split; [exact Es|]. split; [rewrite Fs', !map_app, !app_assoc; reflexivity|]. split; [congruence|]. split; [congruence|].
  split; [lia|]. intros s Hs. rewrite !in_app_iff in Hs.
  assert (H1 : In s (V1 ++ T1) \/ In s (V2 ++ T2)) by (rewrite !in_app_iff; tauto).
  destruct H1 as [H1|H1]; [apply Enew in H1 | apply Fnew in H1]; lia.
Qed.

Lemma ext_reg : forall cs cs' V T, ext cs cs' V T -> forall s, In s (reg cs') <-> In s (reg cs) \/ In s V \/ In s T.
Proof.
  intros cs cs' V T [h [t [E1 [E2 _]]]] s. unfold reg. rewrite E1, E2. cbn [flat_map]. unfold scope_slots at 1 3. cbn [sc_vars sc_temps].
  rewrite !in_app_iff, !map_app, !in_app_iff, !map_map. cbn [t_slot v_slot]. rewrite !map_id. tauto.
Qed.
Lemma ext_vslots : forall cs cs' V T, ext cs cs' V T -> forall s, In s (vslots cs') <-> In s (vslots cs) \/ In s V.
Proof.
  intros cs cs' V T [h [t [E1 [E2 _]]]] s. unfold vslots. rewrite E1, E2. cbn [flat_map sc_vars].
  rewrite !in_app_iff, map_app, in_app_iff, map_map. cbn [v_slot]. rewrite map_id. tauto.
Qed.
Lemma ext_ne : forall cs cs' V T, ext cs cs' V T -> c_scopes cs' <> [].
Proof. intros cs cs' V T [h [t [_ [E _]]]]. rewrite E. discriminate. Qed.
Lemma ext_next : forall cs cs' V T, ext cs cs' V T -> c_next cs <= c_next cs'.
Proof. intros cs cs' V T [h [t [_ [_ [_ [_ [E _]]]]]]]. exact E. Qed.
Lemma ext_loop_fun : forall cs cs' V T, ext cs cs' V T -> c_loop cs' = c_loop cs /\ c_fun cs' = c_fun cs.
Proof. intros cs cs' V T [h [t [_ [_ [El [Ef _]]]]]]. split; assumption. Qed.
Lemma ext_fresh : forall cs cs' V T, ext cs cs' V T -> forall s, In s V \/ In s T -> c_next cs <= s < c_next cs'.
Proof. intros cs cs' V T [h [t [_ [_ [_ [_ [_ E]]]]]]] s Hs. apply E. apply in_or_app. exact Hs. Qed.

(* re-establishing Rel after the head scope got new variables and temporaries *)
Lemma Rel_ext : forall cs G cs' V T G', Rel cs G -> ext cs cs' V T -> NoDup (V ++ T) ->
  sorted (o_own G') ->
  (forall s, In s (o_own G') -> In s (reg cs) \/ In s V \/ In s T) ->
  (forall s, In s (reg cs) \/ In s V \/ In s T -> In s (o_own G') \/ In s (o_dead G')) ->
  (forall s, In s (vslots cs) \/ In s V -> In s (o_own G')) ->
  (forall s, In s (o_dead G') -> s < c_next cs') ->
  (forall x p, lookup (c_env cs') x = Some p -> In (root p) (vslots cs) \/ In (root p) V) ->
  (forall s, In s (vslots cs) \/ In s V -> ~ In s (o_dead G')) ->
  Rel cs' G'.
Proof.
  intros cs G cs' V T G' R E NT HS H1 H2 H3 H4 H5 H6. pose proof E as [h [t [Es [Es' [El [Ef [En Enew]]]]]]].
  constructor.
  - rewrite Es'. discriminate.
  - intros sc Hsc. rewrite Es' in Hsc. destruct Hsc as [Hsc|Hsc].
    + subst sc. assert (Hh : noprot_sc h) by (apply (r_np _ _ R); rewrite Es; left; reflexivity).
      destruct Hh as [Hv Ht]. split; cbn [sc_vars sc_temps]; intros x Hx; apply in_app_or in Hx; destruct Hx as [Hx|Hx].
      * apply Hv; exact Hx.
      * apply in_map_iff in Hx. destruct Hx as [s [Hs _]]. subst x. reflexivity.
      * apply Ht; exact Hx.
      * apply in_map_iff in Hx. destruct Hx as [s [Hs _]]. subst x. reflexivity.
    + apply (r_np _ _ R). rewrite Es. right. exact Hsc.
  - pose proof (r_nd _ _ R) as N. unfold reg in *. rewrite Es in N. rewrite Es'. cbn [flat_map] in *.
    unfold scope_slots at 1. unfold scope_slots at 1 in N. cbn [sc_vars sc_temps]. rewrite !map_app, !map_map. cbn [t_slot v_slot]. rewrite !map_id.
    set (Vh := map v_slot (sc_vars h)) in *. set (Tm := map t_slot (sc_temps h)) in *. set (Rs := flat_map scope_slots t) in *.
    assert (Hfresh : forall s, In s (V ++ T) -> ~ In s ((Vh ++ Tm) ++ Rs)).
    { intros s Hs Hin. assert (Hr : In s (reg cs)) by (unfold reg; rewrite Es; cbn [flat_map]; unfold scope_slots at 1; exact Hin).
      apply (r_lt _ _ R) in Hr. apply Enew in Hs. lia. }
    apply (Permutation_NoDup (l := (V ++ T) ++ (Vh ++ Tm) ++ Rs)).
    + rewrite (app_assoc (V ++ T)). apply Permutation_app_tail.
      eapply Permutation_trans; [apply Permutation_app_comm|]. rewrite <- !app_assoc. apply Permutation_app_head.
      rewrite !app_assoc. apply Permutation_app_tail. apply Permutation_app_comm.
    + apply NoDup_app_intro; [exact NT | exact N|]. intros x Hx1 Hx2. exact (Hfresh x Hx1 Hx2).
  - intros s Hs. apply (ext_reg _ _ _ _ E) in Hs. destruct Hs as [Hs|Hs]; [apply (r_lt _ _ R) in Hs; lia|].
    assert (In s (V ++ T)) by (apply in_or_app; exact Hs). apply Enew in H. lia.
  - exact HS.
  - intros s Hs. apply (ext_reg _ _ _ _ E). apply H1. exact Hs.
  - intros s Hs. apply H2. apply (ext_reg _ _ _ _ E). exact Hs.
  - intros s Hs. apply H3. apply (ext_vslots _ _ _ _ E). exact Hs.
  - intros x p Hl. apply (ext_vslots _ _ _ _ E). apply H5 with x. exact Hl.
  - exact H4.
  - intros s Hs. apply H6. apply (ext_vslots _ _ _ _ E). exact Hs.
Qed.

Lemma Rel_fresh_notin : forall cs G d, Rel cs G -> c_next cs <= d -> ~ In d (o_own G).
Proof. intros cs G d R H Hin. apply (r_own_reg _ _ R) in Hin. apply (r_lt _ _ R) in Hin. lia. Qed.
Lemma Rel_fresh_notdead : forall cs G d, Rel cs G -> c_next cs <= d -> ~ In d (o_dead G).
Proof. intros cs G d R H Hin. apply (r_dead_lt _ _ R) in Hin. lia. Qed.

Lemma ext_new_temp : forall cs cx d, c_scopes cs <> [] -> c_scopes cx = c_scopes cs -> c_loop cx = c_loop cs -> c_fun cx = c_fun cs ->
  c_next cs <= d < c_next cx -> ext cs (add_temp d false cx) [] [d].
Proof.
  intros cs cx d H Es El Ef Hd. destruct (c_scopes cs) as [|h t] eqn:E; [congruence|]. exists h, t.
  unfold add_temp, map_head, with_scopes. rewrite Es. cbn [c_scopes c_next c_loop c_fun map]. rewrite app_nil_r.
  destruct h as [v tm]. cbn [sc_vars sc_temps].
  split; [exact E|]. split; [reflexivity|]. split; [exact El|]. split; [exact Ef|].
  split; [lia|]. intros s [Hs|[]]. lia.
Qed.

Lemma reg_push : forall cs, reg (push_scope cs) = reg cs.
Proof. intro cs. reflexivity. Qed.
Lemma vslots_push : forall cs, vslots (push_scope cs) = vslots cs.
Proof. intro cs. reflexivity. Qed.

Lemma Rel_push : forall cs G, Rel cs G -> Rel (push_scope cs) G.
Proof.
  intros cs G R. constructor; try (rewrite ?reg_push, ?vslots_push; apply R).
  - discriminate.
  - intros sc [Hsc|Hsc]; [subst sc; split; intros ? [] | apply (r_np _ _ R); exact Hsc].
Qed.

(* the same scopes seen from a later point (more allocas handed out, another environment) *)
Lemma Rel_same_scopes : forall cs G cs', Rel cs G -> c_scopes cs' = c_scopes cs -> c_next cs <= c_next cs' ->
  (forall x p, lookup (c_env cs') x = Some p -> In (root p) (vslots cs)) -> Rel cs' G.
Proof.
  intros cs G cs' R Es En Henv. destruct R. unfold reg, vslots in *.
  constructor; unfold reg, vslots; rewrite ?Es; try assumption.
  - intros s Hs. apply r_lt0 in Hs. lia.
  - intros s Hs. apply r_dead_lt0 in Hs. lia.
Qed.

(* leaving the head scope: its variables and temporaries are freed *)
Lemma scope_frees : forall K cs G h tlsc, Rel cs G -> c_scopes cs = h :: tlsc ->
  exists G3, own_check K (iseq (exit_frees false h)) G = Some (Some G3) /\ o_dead G3 = o_dead G /\
    (forall s, In s (o_own G3) <-> In s (o_own G) /\ ~ In s (scope_slots h)) /\ sorted (o_own G3).
Proof.
  intros K cs G h tlsc R E.
  assert (Hreg : reg cs = scope_slots h ++ flat_map scope_slots tlsc) by (unfold reg; rewrite E; reflexivity).
  rewrite (exit_frees_noprot h) by (apply (r_np _ _ R); rewrite E; left; reflexivity).
  pose proof (r_nd _ _ R) as N. rewrite Hreg in N.
  destruct (check_frees K (scope_slots h) G (NoDup_app_l _ _ _ N)) as [G3 [C1 [C2 [C3 C4]]]].
  { intros s Hs. apply (r_reg _ _ R). rewrite Hreg. apply in_or_app. left. exact Hs. }
  exists G3. split; [exact C1|]. split; [exact C2|]. split; [exact C3 | apply C4, (r_sorted _ _ R)].
Qed.

Lemma Rel_dead_weaken : forall cs G D, Rel cs G ->
  (forall s, In s D -> In s (o_dead G)) -> (forall s, In s (reg cs) -> In s (o_own G) \/ In s D) -> Rel cs (mkO (o_own G) D).
Proof.
  intros cs G D R H1 H2. destruct R. constructor; cbn [o_own o_dead]; try assumption.
  - intros s Hs. apply r_dead_lt0. apply H1. exact Hs.
  - intros s Hs Hd. apply (r_vnd0 s Hs). apply H1. exact Hd.
Qed.

(* Rel speaks of membership and sortedness only *)
Lemma Rel_equiv : forall cs G G', Rel cs G -> sorted (o_own G') ->
  (forall s, In s (o_own G') <-> In s (o_own G)) -> (forall s, In s (o_dead G') <-> In s (o_dead G)) -> Rel cs G'.
Proof.
  intros cs G G' [Rne Rnp Rnd Rlt _ Rown Rreg Rvars Renv Rdl Rvnd] HS HO HD. constructor; try assumption.
  - intros s Hs. apply Rown, HO, Hs.
  - intros s Hs. rewrite HO, HD. apply Rreg, Hs.
  - intros s Hs. apply HO, Rvars, Hs.
  - intros s Hs. apply Rdl, HD, Hs.
  - intros s Hs Hd. exact (Rvnd s Hs (proj1 (HD s) Hd)).
Qed.

(* claiming a temporary that was registered since cs *)
Lemma remove_tmp_notin : forall s l, ~ In s (map t_slot l) -> remove_tmp s l = None.
Proof.
  induction l as [|t l IH]; intro H; [reflexivity|]. cbn [remove_tmp]. cbn [map] in H.
  destruct (Nat.eqb_spec (t_slot t) s) as [E|E]; [exfalso; apply H; left; exact E|].
  rewrite IH; [reflexivity|]. intro Hin. apply H. right. exact Hin.
Qed.
Lemma remove_tmp_app_r : forall s l1 l2, ~ In s (map t_slot l1) ->
  remove_tmp s (l1 ++ l2) = match remove_tmp s l2 with Some r => Some (l1 ++ r) | None => None end.
Proof.
  induction l1 as [|t l1 IH]; intros l2 H; cbn [app].
  - destruct (remove_tmp s l2); reflexivity.
  - cbn [remove_tmp]. cbn [map] in H. destruct (Nat.eqb_spec (t_slot t) s) as [E|E]; [exfalso; apply H; left; exact E|].
    rewrite IH; [|intro Hin; apply H; right; exact Hin]. destruct (remove_tmp s l2); reflexivity.
Qed.
Lemma remove_tmp_new : forall s T, NoDup T -> In s T ->
  remove_tmp s (map (fun x => mkTmp x false) T) = Some (map (fun x => mkTmp x false) (del s T)).
Proof.
  induction T as [|x T IH]; intros N H; [destruct H|]. inversion N as [|? ? Hn Hd]; subst. cbn [map remove_tmp t_slot].
  unfold del. cbn [filter]. destruct (Nat.eqb_spec x s) as [E|E].
  - subst x. rewrite Nat.eqb_refl. cbn [negb]. rewrite remove_tmp_notin.
    + f_equal. f_equal. symmetry. apply filter_all. intros y Hy. apply negb_true_iff, Nat.eqb_neq. intro E. subst y. exact (Hn Hy).
    + rewrite map_map. cbn [t_slot]. rewrite map_id. exact Hn.
  - destruct H as [H|H]; [congruence|]. destruct (Nat.eqb_spec s x) as [E2|_]; [congruence|]. cbn [negb map].
    fold (del s T). rewrite (IH Hd H). reflexivity.
Qed.

Lemma claim_ext : forall cs G cs1 V T s, Rel cs G -> ext cs cs1 V T -> NoDup T -> In s T ->
  exists cs1', claim_temp s cs1 = Some cs1' /\ ext cs cs1' V (del s T) /\ c_env cs1' = c_env cs1 /\ c_next cs1' = c_next cs1 /\
               c_glob cs1' = c_glob cs1 /\ c_refs cs1' = c_refs cs1.
Proof.
  intros cs G cs1 V T s R E N Hs. pose proof E as [h [t [Es [Es' [El [Ef [En Enew]]]]]]].
  unfold claim_temp. rewrite Es'. cbn [sc_temps sc_vars].
  rewrite remove_tmp_app_r.
  - rewrite (remove_tmp_new s T N Hs). eexists. split; [reflexivity|]. split; [|repeat split].
    exists h, t. unfold with_scopes. cbn [c_scopes c_loop c_fun c_next].
    split; [exact Es|]. split; [reflexivity|]. split; [exact El|]. split; [exact Ef|]. split; [exact En|].
    intros x Hx. apply Enew. apply in_app_or in Hx. apply in_or_app. destruct Hx as [Hx|Hx]; [left; exact Hx|].
    right. apply del_In in Hx. tauto.
  - intro Hin. assert (Hr : In s (reg cs)).
    { unfold reg. rewrite Es. cbn [flat_map]. apply in_or_app. left. unfold scope_slots. apply in_or_app. right. exact Hin. }
    apply (r_lt _ _ R) in Hr. assert (In s (V ++ T)) by (apply in_or_app; right; exact Hs). apply Enew in H. lia.
Qed.

Lemma fresh_eq : forall cs, fresh cs = (c_next cs, snd (fresh cs)).
Proof. reflexivity. Qed.
Lemma claim_fresh : forall s cs, claim_temp s (snd (fresh cs)) = option_map (fun c => snd (fresh c)) (claim_temp s cs).
Proof.
  intros s cs. unfold claim_temp, fresh. cbn [snd c_scopes]. destruct (c_scopes cs) as [|sc r]; [reflexivity|].
  destruct (remove_tmp s (sc_temps sc)); reflexivity.
Qed.


Fixpoint fexpr (e : expr) : bool :=
  match e with
  | EPrim | EVar _ | EPart _ _ | ELit _ => true
  | EUse1 a | EDerive a _ | EElem a _ => fexpr a
  | EUse2 a b | EConcat a b | EAnd a b => fexpr a && fexpr b
  | _ => false
  end.

(* no calls inside the fragment: the left operand of a concatenation is never copied early *)
Lemma has_call_fexpr : forall e, fexpr e = true -> has_call e = false.
Proof.
  induction e; cbn [fexpr has_call]; intro F; try discriminate F; try reflexivity; auto.
  all: apply andb_true_iff in F; destruct F as [Fa Fb]; rewrite (IHe1 Fa), (IHe2 Fb); reflexivity.
Qed.
Lemma early_copy_fexpr : forall cs a b ra, fexpr b = true -> early_copy cs a b ra = false.
Proof. intros cs a b ra F. unfold early_copy. destruct ra; try reflexivity. rewrite (has_call_fexpr b F). reflexivity. Qed.

Definition res_ok (r : res) (cs : cstate) (T : list nat) (G' : ost) : Prop :=
  match r with
  | RPrim => True
  | RTemp s => In s T /\ In s (o_own G')
  | RRef p => In (root p) (vslots cs)
  end.

Definition expr_post (cs cs' : cstate) (G G' : ost) (T : list nat) (r : res) : Prop :=
  Rel cs' G' /\ ext cs cs' [] T /\ NoDup T /\ c_env cs' = c_env cs /\
  (forall s, s < c_next cs -> (In s (o_own G') <-> In s (o_own G))) /\
  (forall s, In s (o_dead G) -> In s (o_dead G')) /\ res_ok r cs T G'.

(* taken apart as a whole: R (Rel), E (ext), N (NoDup), V (environment), F (owners below the counter), D (dead), result *)
Lemma post_rel {cs cs' G G' T r} : expr_post cs cs' G G' T r -> Rel cs' G'.
Proof. intros P. exact (proj1 P). Qed.
Lemma post_ext {cs cs' G G' T r} : expr_post cs cs' G G' T r -> ext cs cs' [] T.
Proof. intros P. exact (proj1 (proj2 P)). Qed.
Lemma post_below {cs cs' G G' T r} : expr_post cs cs' G G' T r ->
  forall s, s < c_next cs -> (In s (o_own G') <-> In s (o_own G)).
Proof. intros [_ [_ [_ [_ [F _]]]]]. exact F. Qed.
Lemma post_res {cs cs' G G' T r} : expr_post cs cs' G G' T r -> res_ok r cs T G'.
Proof. intros [_ [_ [_ [_ [_ [_ H]]]]]]. exact H. Qed.


Lemma add_temp_env : forall d b cs, c_env (add_temp d b cs) = c_env cs.
Proof. intros. unfold add_temp, map_head. destruct (c_scopes cs); reflexivity. Qed.
Lemma add_temp_next : forall d b cs, c_next (add_temp d b cs) = c_next cs.
Proof. intros. unfold add_temp, map_head. destruct (c_scopes cs); reflexivity. Qed.
Lemma add_var_env : forall d b cs, c_env (add_var d b cs) = c_env cs.
Proof. intros. unfold add_var, map_head. destruct (c_scopes cs); reflexivity. Qed.

Lemma expr_post_refl : forall cs G r, Rel cs G -> res_ok r cs [] G -> expr_post cs cs G G [] r.
Proof.
  intros cs G r R H. split; [exact R|]. split; [apply ext_refl, (r_ne _ _ R)|]. split; [constructor|]. split; [reflexivity|].
  split; [intros s _; tauto|]. split; [auto | exact H].
Qed.

Lemma expr_post_res : forall cs cs' G G' T r r', expr_post cs cs' G G' T r -> res_ok r' cs T G' -> expr_post cs cs' G G' T r'.
Proof. intros cs cs' G G' T r r' [A1 [A2 [A3 [A4 [A5 [A6 _]]]]]] H. repeat (split; [assumption|]). exact H. Qed.

Lemma post_trans : forall cs cs1 cs2 G G1 G2 T1 T2 r1 r2 r,
  expr_post cs cs1 G G1 T1 r1 -> expr_post cs1 cs2 G1 G2 T2 r2 -> res_ok r cs (T1 ++ T2) G2 ->
  expr_post cs cs2 G G2 (T1 ++ T2) r.
Proof.
  intros cs cs1 cs2 G G1 G2 T1 T2 r1 r2 r [R1 [E1 [N1 [V1 [F1 [D1 _]]]]]] [R2 [E2 [N2 [V2 [F2 [D2 _]]]]]] Hr.
  split; [exact R2|]. split; [apply (ext_trans _ _ _ [] T1 [] T2 E1 E2)|].
  split. { apply NoDup_app_intro; [exact N1 | exact N2|]. intros x H1 H2.
           pose proof (ext_fresh _ _ _ _ E1 x (or_intror H1)). pose proof (ext_fresh _ _ _ _ E2 x (or_intror H2)). lia. }
  split; [congruence|].
  split. { intros s Hs. rewrite <- (F1 s Hs). apply F2. pose proof (ext_next _ _ _ _ E1). lia. }
  split; [auto | exact Hr].
Qed.

Lemma ref_owned {cs cs' G G' T p} : expr_post cs cs' G G' T (RRef p) -> In (root p) (o_own G').
Proof. intros P. apply (r_vars _ _ (post_rel P)), (ext_vslots _ _ _ _ (post_ext P)). left. exact (post_res P). Qed.
Lemma vslots_below {cs cs' G G' T r} : Rel cs G -> expr_post cs cs' G G' T r -> forall v, In v (vslots cs') -> v < c_next cs.
Proof.
  intros R [_ [E _]] v Hv. apply (ext_vslots _ _ _ _ E) in Hv. destruct Hv as [Hv|[]].
  apply (r_lt _ _ R), vslots_reg, Hv.
Qed.

(* Gm is G1 after the slots of A, none older than the expression, were moved from the owners to the dead; a slot d
   allocated later can be given to Gm as a temporary of the head scope *)
Lemma step_new_temp : forall cs cs1 G G1 T1 r1 cs' d A Gm,
  Rel cs G -> expr_post cs cs1 G G1 T1 r1 -> ext cs1 cs' [] [d] -> c_env cs' = c_env cs1 -> sorted (o_own Gm) ->
  (forall s, In s (o_own Gm) <-> In s (o_own G1) /\ ~ In s A) ->
  (forall s, In s (o_dead Gm) <-> In s (o_dead G1) \/ In s A) ->
  (forall a, In a A -> c_next cs <= a < c_next cs') ->
  expr_post cs cs' G (give d Gm) (T1 ++ [d]) (RTemp d).
Proof.
  intros cs cs1 G G1 T1 r1 cs' d A Gm R P E Eenv HS HO HD HA.
  pose proof P as [R1 [E1 [N1 [V1 [F1 [D1 _]]]]]].
  pose proof (ext_fresh _ _ _ _ E d (or_intror (or_introl eq_refl))) as Hfd.
  pose proof (ext_next _ _ _ _ E1) as Hn1. pose proof (ext_next _ _ _ _ E) as Hn.
  pose proof (vslots_below R P) as Hvs.
  assert (Hd : ~ In d (o_own Gm)) by (intro H; apply HO in H; exact (Rel_fresh_notin cs1 G1 d R1 (proj1 Hfd) (proj1 H))).
  assert (H1 : forall s, In s (o_own Gm) -> In s (o_own G1)) by (intros s Hs; apply HO, Hs).
  assert (H2 : forall s, In s (o_own G1) -> In s (o_own Gm) \/ In s (o_dead Gm)).
  { intros s Hs. destruct (in_dec Nat.eq_dec s A) as [Ha|Ha]; [right; apply HD; right; exact Ha | left; apply HO; split; assumption]. }
  assert (H3 : forall s, In s (o_dead G1) -> In s (o_dead Gm)) by (intros s Hs; apply HD; left; exact Hs).
  assert (H4 : forall s, In s (o_dead Gm) -> s < c_next cs').
  { intros s Hs. apply HD in Hs. destruct Hs as [Hs|Hs]; [apply (r_dead_lt _ _ R1) in Hs; lia | apply HA in Hs; lia]. }
  assert (H6 : forall s, s < c_next cs -> In s (o_own G1) -> In s (o_own Gm)).
  { intros s Hs Ho. apply HO. split; [exact Ho|]. intro Ha. apply HA in Ha. lia. }
  assert (H5 : forall s, In s (vslots cs1) -> In s (o_own Gm)) by (intros s Hs; apply H6; [apply Hvs, Hs | apply (r_vars _ _ R1), Hs]).
  assert (Hvd : forall s, In s (vslots cs1) -> ~ In s (o_dead Gm)).
  { intros s Hs Hdd. apply HD in Hdd. destruct Hdd as [Hdd|Hdd]; [exact (r_vnd _ _ R1 s Hs Hdd) | apply Hvs in Hs; apply HA in Hdd; lia]. }
  split.
  { eapply Rel_ext; [exact R1 | exact E | repeat constructor; intros [] | | | | | | |]; cbn [give o_own o_dead app].
    - apply ins_sorted. exact HS.
    - intros s Hs. apply ins_In in Hs. destruct Hs as [Hs|Hs]; [right; right; left; auto | left; apply (r_own_reg _ _ R1), H1, Hs].
    - intros s [Hs|[[]|[Hs|[]]]].
      + assert (s <> d) by (apply (r_lt _ _ R1) in Hs; lia).
        destruct (r_reg _ _ R1 s Hs) as [Ho|Ho].
        * destruct (H2 s Ho) as [Hm|Hm]; [left; apply ins_In; right; exact Hm | right; apply del_In; split; assumption].
        * right. apply del_In. split; [apply H3; exact Ho | assumption].
      + subst s. left. apply ins_In. left. reflexivity.
    - intros s [Hs|[]]. apply ins_In. right. apply H5. exact Hs.
    - intros s Hs. apply del_In in Hs. destruct Hs as [Hs _]. apply H4. exact Hs.
    - intros x p Hl. left. rewrite Eenv in Hl. apply (r_env _ _ R1 x p Hl).
    - intros s [Hs|[]] Hdd. apply del_In in Hdd. destruct Hdd as [Hdd _]. exact (Hvd s Hs Hdd). }
  split; [apply (ext_trans _ _ _ [] T1 [] [d] E1 E)|].
  split. { apply NoDup_app_intro; [exact N1 | repeat constructor; intros []|]. intros x H7 [H8|[]]. subst x.
           pose proof (ext_fresh _ _ _ _ E1 d (or_intror H7)). lia. }
  split; [congruence|]. cbn [give o_own o_dead res_ok].
  split. { intros s Hs. rewrite ins_In. split.
           - intros [Ed|Ho]; [lia|]. apply (F1 s Hs). apply H1. exact Ho.
           - intro Ho. right. apply H6; [exact Hs|]. apply (F1 s Hs). exact Ho. }
  split. { intros s Hs. apply del_In. split; [apply H3, D1, Hs|]. intro Ed. subst s.
           apply D1 in Hs. apply (r_dead_lt _ _ R1) in Hs. lia. }
  split; [apply in_or_app; right; left; reflexivity | apply ins_In; left; reflexivity].
Qed.

Lemma new_temp_post : forall cst cs1 G G1 T1 r1, Rel cst G -> expr_post cst cs1 G G1 T1 r1 ->
  ~ In (c_next cs1) (o_own G1) /\
  expr_post cst (add_temp (c_next cs1) false (snd (fresh cs1))) G (give (c_next cs1) G1) (T1 ++ [c_next cs1]) (RTemp (c_next cs1)).
Proof.
  intros cst cs1 G G1 T1 r1 R P1. pose proof (proj1 P1) as R1.
  split; [apply (Rel_fresh_notin cs1 G1 _ R1); lia|].
  apply (step_new_temp cst cs1 G G1 T1 r1 _ _ [] G1 R P1
           (ext_new_temp cs1 (snd (fresh cs1)) _ (r_ne _ _ R1) eq_refl eq_refl eq_refl (conj (le_n _) (le_n _)))).
  - rewrite add_temp_env. reflexivity.
  - exact (r_sorted _ _ R1).
  - intro s. cbn [In]. tauto.
  - intro s. cbn [In]. tauto.
  - intros a [].
Qed.

Lemma copy_to_temp : forall K cst cs1 G G1 T1 p, Rel cst G -> expr_post cst cs1 G G1 T1 (RRef p) ->
  own_check K (ICopy (c_next cs1) p) G1 = Some (Some (give (c_next cs1) G1)) /\
  expr_post cst (add_temp (c_next cs1) false (snd (fresh cs1))) G (give (c_next cs1) G1) (T1 ++ [c_next cs1]) (RTemp (c_next cs1)).
Proof.
  intros K cst cs1 G G1 T1 p R P1. destruct (new_temp_post _ _ _ _ _ _ R P1) as [W P2]. split; [|exact P2].
  exact (own_check_pre K (ICopy _ p) G1 eq_refl (conj W (ref_owned P1))).
Qed.

(* ddp_string_string_verkettet: the slot a of the left operand is emptied, the result is a new temporary d *)
Lemma concat_post : forall cst cs2 G G2 T r cs' d a Gm,
  Rel cst G -> expr_post cst cs2 G G2 T r -> ext cs2 cs' [] [d] -> c_env cs' = c_env cs2 ->
  c_next cst <= a < c_next cs' -> sorted (o_own Gm) ->
  (forall s, In s (o_own Gm) <-> In s (o_own G2) /\ s <> a) ->
  (forall s, In s (o_dead Gm) <-> In s (o_dead G2) \/ s = a) ->
  expr_post cst cs' G (give d Gm) (T ++ [d]) (RTemp d).
Proof.
  intros cst cs2 G G2 T r cs' d a Gm R P E Eenv Ha HS HO HD.
  apply (step_new_temp cst cs2 G G2 T r cs' d [a] Gm R P E Eenv HS).
  - intro s. rewrite HO. cbn [In]. intuition congruence.
  - intro s. rewrite HD. cbn [In]. intuition congruence.
  - intros x [<-|[]]. exact Ha.
Qed.

Lemma ext_with : forall cs cs1 cs2 V T, ext cs cs1 V T -> c_scopes cs2 = c_scopes cs1 -> c_loop cs2 = c_loop cs1 ->
  c_fun cs2 = c_fun cs1 -> c_next cs1 <= c_next cs2 -> ext cs cs2 V T.
Proof.
  intros cs cs1 cs2 V T [h [t [Es [Es' [El [Ef [En Enew]]]]]]] Hsc Hl Hf Hn. exists h, t.
  split; [exact Es|]. split; [congruence|]. split; [congruence|]. split; [congruence|]. split; [lia|].
  intros s Hs. apply Enew in Hs. lia.
Qed.

Lemma ext_head_gen : forall cp l cs2 V T, c_scopes cp = empty_scope :: l -> ext cp cs2 V T ->
  exists h, c_scopes cs2 = h :: l /\ (forall s, In s (scope_slots h) <-> In s V \/ In s T).
Proof.
  intros cp l cs2 V T Ep [h [t [E1 [E2 _]]]]. rewrite Ep in E1. inversion E1; subst h t.
  eexists. split; [exact E2|]. unfold scope_slots. cbn [sc_vars sc_temps empty_scope app]. rewrite !map_map. cbn [v_slot t_slot]. rewrite !map_id.
  intro s. rewrite in_app_iff. tauto.
Qed.

(* cp is cs0 with an empty scope pushed, cs1 that scope filled, csp what is left of it: the scope's slots are freed and
   exactly the owners of before own *)
Lemma scope_left : forall K cs0 G0 cp cs1 G1 V T csp,
  Rel cs0 G0 -> c_scopes cp = empty_scope :: c_scopes cs0 -> c_next cp = c_next cs0 -> ext cp cs1 V T ->
  Rel cs1 G1 -> (forall s, s < c_next cs0 -> (In s (o_own G1) <-> In s (o_own G0))) ->
  c_scopes csp = tl (c_scopes cs1) -> c_next csp = c_next cs1 ->
  (forall x p, lookup (c_env csp) x = Some p -> In (root p) (vslots cs0)) ->
  exists G3, own_check K (iseq (exit_frees false (hd empty_scope (c_scopes cs1)))) G1 = Some (Some G3) /\
    o_own G3 = o_own G0 /\ o_dead G3 = o_dead G1 /\ Rel csp G3 /\ c_scopes csp = c_scopes cs0.
Proof.
  intros K cs0 G0 cp cs1 G1 V T csp R0 Ep En E R1 F Es Enx Henv.
  destruct (ext_head_gen cp _ cs1 V T Ep E) as [h1 [Eh1 Hh1]]. rewrite Eh1 in Es |- *. cbn [hd tl] in Es |- *.
  destruct (scope_frees K cs1 G1 h1 _ R1 Eh1) as [G3 [C3 [D3 [O3 S3]]]].
  pose proof (ext_next _ _ _ _ E) as Hnx. rewrite En in Hnx.
  assert (Hreg : forall s, In s (reg cs1) <-> In s (scope_slots h1) \/ In s (reg cs0))
    by (intro s; unfold reg; rewrite Eh1; cbn [flat_map]; apply in_app_iff).
  assert (Hvs : forall s, In s (vslots cs0) -> In s (vslots cs1))
    by (intros s Hs; unfold vslots; rewrite Eh1; cbn [flat_map]; apply in_or_app; right; exact Hs).
  (* the slots of the scope are younger than everything registered below it *)
  assert (Hold : forall s, In s (reg cs0) -> s < c_next cs0 /\ ~ In s (scope_slots h1)).
  { intros s Hs. pose proof (r_lt _ _ R0 s Hs) as Hl. split; [exact Hl|]. intro Hh. apply Hh1 in Hh.
    pose proof (ext_fresh _ _ _ _ E s Hh) as Hf. rewrite En in Hf. lia. }
  assert (Eo : o_own G3 = o_own G0).
  { apply sorted_ext; [exact S3 | apply (r_sorted _ _ R0)|]. intro s. rewrite O3. split.
    - intros [Ho Hn]. apply F; [|exact Ho]. apply (r_own_reg _ _ R1), Hreg in Ho.
      destruct Ho as [Ho|Ho]; [contradiction | apply (Hold s Ho)].
    - intro Ho. destruct (Hold s (r_own_reg _ _ R0 s Ho)) as [Hl Hn]. split; [apply F; assumption | exact Hn]. }
  exists G3. split; [exact C3|]. split; [exact Eo|]. split; [exact D3|]. split; [|exact Es].
  constructor; unfold reg, vslots; rewrite ?Es, ?Eo, ?D3; fold (reg cs0); fold (vslots cs0); try apply R0.
  - intros s Hs. apply (r_lt _ _ R0) in Hs. lia.
  - intros s Hs. destruct (r_reg _ _ R1 s (proj2 (Hreg s) (or_intror Hs))) as [Ho|Ho]; [left | right; exact Ho].
    apply F; [apply (Hold s Hs) | exact Ho].
  - exact Henv.
  - intros s Hs. rewrite Enx. exact (r_dead_lt _ _ R1 s Hs).
  - intros s Hs. exact (r_vnd _ _ R1 s (Hvs s Hs)).
Qed.

Definition arm_post (cs : cstate) (G0 : ost) (X : option ost) : Prop :=
  forall G3, X = Some G3 -> o_own G3 = o_own G0 /\ (forall s, In s (o_dead G0) -> In s (o_dead G3)) /\ Rel cs G3.

(* a slot is dead after the join if it is dead after both arms *)
Lemma join_post : forall cs G0 Xa Xb, arm_post cs G0 Xa -> arm_post cs G0 Xb ->
  exists Rj, join Xa Xb = Some Rj /\ arm_post cs G0 Rj /\ (Xa <> None \/ Xb <> None -> Rj <> None).
Proof.
  intros cs G0 [Ga|] [Gb|] Ha Hb; cbn [join].
  - destruct (Ha Ga eq_refl) as [Eoa [Da Ra]]. destruct (Hb Gb eq_refl) as [Eob [Db Rb]].
    rewrite Eoa, Eob, leq_refl. eexists. split; [reflexivity|]. split; [|discriminate].
    intros Gj EG. inversion EG; subst Gj. cbn [o_own o_dead]. split; [reflexivity|].
    split; [intros y Hy; apply inter_In; split; [apply Da | apply Db]; exact Hy|].
    rewrite <- Eoa. apply (Rel_dead_weaken cs Ga _ Ra).
    + intros y Hy. apply inter_In in Hy. tauto.
    + intros y Hy. destruct (r_reg _ _ Ra y Hy) as [Ho|Ho]; [left; exact Ho|].
      destruct (r_reg _ _ Rb y Hy) as [Hob|Hob]; [left; rewrite Eoa, <- Eob; exact Hob | right; apply inter_In; split; assumption].
  - eexists. split; [reflexivity|]. split; [exact Ha | discriminate].
  - eexists. split; [reflexivity|]. split; [exact Hb | discriminate].
  - eexists. split; [reflexivity|]. split; [exact Ha | intros [H|H]; congruence].
Qed.

(* an operand that was just evaluated, or evaluated before one more operand, can be read in place *)
Lemma use_of_now : forall K ra cst cs1 G G1 T1, expr_post cst cs1 G G1 T1 ra ->
  own_check K (use_of ra) G1 = Some (Some G1).
Proof.
  intros K ra cst cs1 G G1 T1 P. destruct ra as [|s|p]; unfold use_of; cbn [res_place own_check root].
  - reflexivity.
  - rewrite (proj2 (mem_In s (o_own G1)) (proj2 (post_res P))). reflexivity.
  - rewrite (proj2 (mem_In _ (o_own G1)) (ref_owned P)). reflexivity.
Qed.

Lemma use_of_later : forall K ra rb cst cs1 cs2 G G1 G2 T1 T2,
  expr_post cst cs1 G G1 T1 ra -> expr_post cs1 cs2 G1 G2 T2 rb ->
  own_check K (use_of ra) G2 = Some (Some G2).
Proof.
  intros K ra rb cst cs1 cs2 G G1 G2 T1 T2 P1 P2.
  destruct ra as [|s|p]; unfold use_of; cbn [res_place own_check root].
  - reflexivity.
  - destruct (post_res P1) as [Ht Ho]. pose proof (ext_fresh _ _ _ _ (post_ext P1) s (or_intror Ht)) as Hs.
    assert (Ho2 : In s (o_own G2)) by (apply (post_below P2 s); [lia | exact Ho]).
    rewrite (proj2 (mem_In s (o_own G2)) Ho2). reflexivity.
  - assert (Hra : res_ok (RRef p) cst (T1 ++ T2) G2) by exact (post_res P1).
    rewrite (proj2 (mem_In _ (o_own G2)) (ref_owned (post_trans _ _ _ _ _ _ _ _ _ _ _ P1 P2 Hra))). reflexivity.
Qed.

Definition eres (K : ctx) (code : instr) (cst cs' : cstate) (G : ost) (r : res) : Prop :=
  exists G' T, own_check K code G = Some (Some G') /\ expr_post cst cs' G G' T r.

Lemma leaf_ok : forall K cst G r, Rel cst G -> res_ok r cst [] G -> eres K ISkip cst cst G r.
Proof. intros K cst G r R H. exists G, []. split; [reflexivity | exact (expr_post_refl cst G r R H)]. Qed.

Lemma lit_ok : forall K cst G n, Rel cst G ->
  eres K (INew (c_next cst) n) cst (add_temp (c_next cst) false (snd (fresh cst))) G (RTemp (c_next cst)).
Proof.
  intros K cst G n R. destruct (new_temp_post cst cst G G [] RPrim R (expr_post_refl cst G RPrim R Logic.I)) as [W P].
  exists (give (c_next cst) G), [c_next cst]. split; [exact (own_check_pre K (INew _ n) G eq_refl W) | exact P].
Qed.

Lemma use1_ok : forall K ia ra cst cs1 G G1 T1, own_check K ia G = Some (Some G1) -> expr_post cst cs1 G G1 T1 ra ->
  eres K (ISeq ia (use_of ra)) cst cs1 G RPrim.
Proof.
  intros K ia ra cst cs1 G G1 T1 C1 P1. exists G1, T1.
  split; [rewrite oc_seq, C1; exact (use_of_now K _ _ _ _ _ _ P1) | exact (expr_post_res _ _ _ _ _ _ RPrim P1 Logic.I)].
Qed.

Lemma use2_ok : forall K ia ib ra rb cst cs1 cs2 G G1 G2 T1 T2,
  own_check K ia G = Some (Some G1) -> expr_post cst cs1 G G1 T1 ra ->
  own_check K ib G1 = Some (Some G2) -> expr_post cs1 cs2 G1 G2 T2 rb ->
  eres K (iseq [ia; ib; use_of ra; use_of rb]) cst cs2 G RPrim.
Proof.
  intros K ia ib ra rb cst cs1 cs2 G G1 G2 T1 T2 C1 P1 C2 P2.
  exists G2, (T1 ++ T2). split; [|exact (post_trans _ _ _ _ _ _ _ _ _ _ RPrim P1 P2 Logic.I)].
  cbn [iseq]. rewrite oc_seq, C1, oc_seq, C2, oc_seq, (use_of_later K _ _ _ _ _ _ _ _ _ _ P1 P2). exact (use_of_now K _ _ _ _ _ _ P2).
Qed.

Lemma derive_ok : forall K ia ra cst cs1 G G1 T1 n, Rel cst G ->
  own_check K ia G = Some (Some G1) -> expr_post cst cs1 G G1 T1 ra ->
  eres K (iseq [ia; use_of ra; INew (c_next cs1) n]) cst (add_temp (c_next cs1) false (snd (fresh cs1))) G (RTemp (c_next cs1)).
Proof.
  intros K ia ra cst cs1 G G1 T1 n R C1 P1. destruct (new_temp_post _ _ _ _ _ _ R P1) as [W P2].
  exists (give (c_next cs1) G1), (T1 ++ [c_next cs1]). split; [|exact P2].
  cbn [iseq]. rewrite oc_seq, C1, oc_seq, (use_of_now K _ _ _ _ _ _ P1). exact (own_check_pre K (INew _ n) G1 eq_refl W).
Qed.

(* element of a temporary list: deep copy into a temporary of its own while the list is still owned *)
Lemma elem_temp_ok : forall K ia t k cst cs1 G G1 T1, Rel cst G ->
  own_check K ia G = Some (Some G1) -> expr_post cst cs1 G G1 T1 (RTemp t) ->
  eres K (ISeq ia (ICopy (c_next cs1) (PPart t k))) cst (add_temp (c_next cs1) false (snd (fresh cs1))) G (RTemp (c_next cs1)).
Proof.
  intros K ia t k cst cs1 G G1 T1 R C1 P1. destruct (new_temp_post _ _ _ _ _ _ R P1) as [W P2].
  exists (give (c_next cs1) G1), (T1 ++ [c_next cs1]). split; [|exact P2].
  rewrite oc_seq, C1. apply (own_check_pre K (ICopy _ (PPart t k)) G1 eq_refl). split; [exact W|].
  exact (proj2 (post_res P1)).
Qed.

Lemma place_owned : forall cst cs1 cs2 G G1 G2 T1 T2 ra rb pb, Rel cst G ->
  expr_post cst cs1 G G1 T1 ra -> expr_post cs1 cs2 G1 G2 T2 rb -> res_place rb = Some pb ->
  In (root pb) (o_own G2) /\ (forall sa, In sa T1 -> root pb <> sa) /\ root pb < c_next cs2.
Proof.
  intros cst cs1 cs2 G G1 G2 T1 T2 ra rb pb R P1 P2 Hp.
  pose proof (post_ext P1) as E1. pose proof (post_ext P2) as E2.
  pose proof (ext_next _ _ _ _ E1) as Hn1. pose proof (ext_next _ _ _ _ E2) as Hn2.
  destruct rb as [|sb|p]; cbn [res_place] in Hp; inversion Hp; subst pb; cbn [root].
  - destruct (post_res P2) as [Hb1 Hb2]. split; [exact Hb2|].
    pose proof (ext_fresh _ _ _ _ E2 sb (or_intror Hb1)). split; [|lia].
    intros sa Hsa E. subst sa. pose proof (ext_fresh _ _ _ _ E1 sb (or_intror Hsa)). lia.
  - split; [exact (ref_owned P2)|].
    assert (Hlt : root p < c_next cst).
    { apply (vslots_below R P1). exact (post_res P2). }
    split; [|lia]. intros sa Hsa E. pose proof (ext_fresh _ _ _ _ E1 sa (or_intror Hsa)). lia.
Qed.

(* temporary left operand sa: the runtime function empties it *)
Lemma concat_temp_ok : forall K ia ib sa rb pb cst cs1 cs2 G G1 G2 T1 T2, Rel cst G ->
  own_check K ia G = Some (Some G1) -> expr_post cst cs1 G G1 T1 (RTemp sa) ->
  own_check K ib G1 = Some (Some G2) -> expr_post cs1 cs2 G1 G2 T2 rb -> res_place rb = Some pb ->
  eres K (iseq [ia; ib; IConcat (c_next cs2) sa pb]) cst (add_temp (c_next cs2) false (snd (fresh cs2))) G (RTemp (c_next cs2)).
Proof.
  intros K ia ib sa rb pb cst cs1 cs2 G G1 G2 T1 T2 R C1 P1 C2 P2 Erp.
  pose proof (post_trans _ _ _ _ _ _ _ _ _ _ RPrim P1 P2 Logic.I) as P12. pose proof (post_rel P2) as R2.
  destruct (place_owned _ _ _ _ _ _ _ _ _ _ _ R P1 P2 Erp) as [Hb1 [Hb2 Hb3]].
  destruct (post_res P1) as [Ha1 Ha2].
  pose proof (ext_fresh _ _ _ _ (post_ext P1) sa (or_intror Ha1)) as Hsa.
  pose proof (ext_next _ _ _ _ (post_ext P2)) as Hn2.
  pose proof (ext_new_temp cs2 (snd (fresh cs2)) _ (r_ne _ _ R2) eq_refl eq_refl eq_refl (conj (le_n _) (le_n _))) as E.
  set (d := c_next cs2) in *.
  assert (W : ~ In d (o_own G2)) by (apply (Rel_fresh_notin cs2 G2 d R2); unfold d; lia).
  assert (Ha3 : In sa (o_own G2)) by (apply (post_below P2 sa); [lia | exact Ha2]).
  exists (eff (IConcat d sa pb) G2), ((T1 ++ T2) ++ [d]). split.
  - cbn [iseq]. rewrite oc_seq, C1, oc_seq, C2. apply (own_check_pre K (IConcat d sa pb) G2 eq_refl).
    split; [exact W|]. split; [exact Ha3|]. split; [exact Hb1|]. split; [unfold d; lia | exact (Hb2 sa Ha1)].
  - apply (concat_post cst cs2 G G2 (T1 ++ T2) RPrim _ d sa _ R P12 E); cbn [o_own o_dead].
    + rewrite add_temp_env. reflexivity.
    + rewrite add_temp_next. cbn. lia.
    + apply del_sorted, (r_sorted _ _ R2).
    + intro s. apply del_In.
    + intro s. rewrite ins_In. tauto.
Qed.

(* the left operand is not a temporary: the runtime function claims an unregistered copy c of it *)
Lemma concat_ref_ok : forall K ia ib pa rb pb cst cs1 cs2 G G1 G2 T1 T2, Rel cst G ->
  own_check K ia G = Some (Some G1) -> expr_post cst cs1 G G1 T1 (RRef pa) ->
  own_check K ib G1 = Some (Some G2) -> expr_post cs1 cs2 G1 G2 T2 rb -> res_place rb = Some pb ->
  eres K (iseq [ia; ib; ICopy (c_next cs2) pa; IConcat (S (c_next cs2)) (c_next cs2) pb]) cst
       (add_temp (S (c_next cs2)) false (snd (fresh (snd (fresh cs2))))) G (RTemp (S (c_next cs2))).
Proof.
  intros K ia ib pa rb pb cst cs1 cs2 G G1 G2 T1 T2 R C1 P1 C2 P2 Erp.
  pose proof (post_trans _ _ _ _ _ _ _ _ _ _ RPrim P1 P2 Logic.I) as P12. pose proof (post_rel P2) as R2.
  destruct (place_owned _ _ _ _ _ _ _ _ _ _ _ R P1 P2 Erp) as [Hb1 [Hb2 Hb3]].
  pose proof (ext_next _ _ _ _ (post_ext P1)) as Hn1. pose proof (ext_next _ _ _ _ (post_ext P2)) as Hn2.
  pose proof (ext_new_temp cs2 (snd (fresh (snd (fresh cs2)))) (S (c_next cs2)) (r_ne _ _ R2) eq_refl eq_refl eq_refl
                (conj (le_S _ _ (le_n _)) (le_n _))) as E.
  set (c := c_next cs2) in *.
  assert (W : ~ In c (o_own G2)) by (apply (Rel_fresh_notin cs2 G2 c R2); unfold c; lia).
  assert (W2 : ~ In (S c) (o_own G2)) by (apply (Rel_fresh_notin cs2 G2 (S c) R2); unfold c; lia).
  pose proof (ref_owned (expr_post_res _ _ _ _ _ _ (RRef pa) P12 (post_res P1))) as Hpa.
  exists (eff (IConcat (S c) c pb) (give c G2)), ((T1 ++ T2) ++ [S c]). split.
  - cbn [iseq]. rewrite oc_seq, C1, oc_seq, C2, oc_seq, (own_check_pre K (ICopy c pa) G2 eq_refl (conj W Hpa)).
    apply (own_check_pre K (IConcat (S c) c pb) (give c G2) eq_refl). cbn [pre give o_own]. rewrite !ins_In.
    split; [intros [Hc|Hc]; [lia | exact (W2 Hc)]|]. split; [left; reflexivity|]. split; [right; exact Hb1|]. split; unfold c; lia.
  - apply (concat_post cst cs2 G G2 (T1 ++ T2) RPrim _ (S c) c _ R P12 E); cbn [give o_own o_dead].
    + rewrite add_temp_env. reflexivity.
    + rewrite add_temp_next. cbn. unfold c. lia.
    + apply del_sorted, ins_sorted, (r_sorted _ _ R2).
    + intro s. rewrite del_In, ins_In. split; [intros [[Hs|Hs] Hne]; [contradiction | split; assumption] | tauto].
    + intro s. rewrite ins_In, del_In. split; [tauto|]. intros [Hs|Hs]; [|left; exact Hs].
      right. split; [exact Hs|]. intro Es. subst s. exact (Rel_fresh_notdead cs2 G2 c R2 (Nat.le_refl _) Hs).
Qed.

(* b runs in a scope of its own, left inside its arm; the other arm of the IIf is ISkip and leaves G1 *)
Lemma and_ok : forall K ia ib ra rb cst cs1 cs2 G G1 G2 T1 T2,
  own_check K ia G = Some (Some G1) -> expr_post cst cs1 G G1 T1 ra ->
  own_check K ib G1 = Some (Some G2) -> expr_post (push_scope cs1) cs2 G1 G2 T2 rb ->
  eres K (ISeq ia (IIf (iseq (ib :: exit_frees false (hd empty_scope (c_scopes cs2)))) ISkip)) cst (pop_scope cs2) G RPrim.
Proof.
  intros K ia ib ra rb cst cs1 cs2 G G1 G2 T1 T2 C1 P1 C2 P2.
  pose proof P1 as [R1 [E1 [N1 [V1 [F1 [D1 _]]]]]]. pose proof P2 as [R2 [E2 [_ [V2 [F2 [D2 _]]]]]].
  assert (Hpe : forall x p, lookup (c_env (pop_scope cs2)) x = Some p -> In (root p) (vslots cs1)).
  { intros x p Hl. change (c_env (pop_scope cs2)) with (c_env cs2) in Hl. rewrite V2 in Hl. exact (r_env _ _ R1 x p Hl). }
  destruct (scope_left K cs1 G1 (push_scope cs1) cs2 G2 [] T2 (pop_scope cs2) R1 eq_refl eq_refl E2 R2 F2 eq_refl eq_refl Hpe)
    as (G3 & C3 & Eo & D3 & R3 & Es3).
  pose proof (ext_next _ _ _ _ E2) as Hn2. change (c_next (push_scope cs1)) with (c_next cs1) in Hn2.
  destruct (join_post (pop_scope cs2) G1 (Some G3) (Some G1)) as (Rj & Ej & Pj & Nj).
  { intros G' EG. inversion EG; subst G'. split; [exact Eo|]. split; [intros s Hs; rewrite D3; apply D2, Hs | exact R3]. }
  { intros G' EG. inversion EG; subst G'. split; [reflexivity|]. split; [auto | exact (Rel_same_scopes cs1 G1 _ R1 Es3 Hn2 Hpe)]. }
  destruct Rj as [Gj|]; [|exfalso; apply Nj; [left; discriminate | reflexivity]].
  destruct (Pj Gj eq_refl) as (Eoj & Dj & Rj).
  exists Gj, T1. split; [rewrite oc_seq, C1, oc_if, oc_iseq_cons, C2, C3; exact Ej|].
  split; [exact Rj|]. split.
  { destruct (ext_loop_fun _ _ _ _ E2) as [El Ef]. exact (ext_with _ _ _ _ _ E1 Es3 El Ef Hn2). }
  split; [exact N1|]. split; [change (c_env (pop_scope cs2)) with (c_env cs2); rewrite V2; exact V1|].
  split; [intros s Hs; rewrite Eoj; apply F1, Hs|]. split; [intros s Hs; apply Dj, D1, Hs | exact Logic.I].
Qed.

Section Expr.
  Variable inl : nat -> list (option place) -> cstate -> option (instr * res * cstate).
  Variable sg : nat -> option (list (var * mode * bool) * bool).

  Lemma cexpr_ok : forall e, fexpr e = true -> forall cst code r cs' G K,
    cexpr inl sg e cst = Some (code, r, cs') -> Rel cst G ->
    exists G' T, own_check K code G = Some (Some G') /\ expr_post cst cs' G G' T r.
  Proof.
    induction e; intros F cst code r cs' G K H R; cbn [fexpr] in F; try discriminate F; cbn [cexpr] in H.
    - (* EPrim *) inversion H; subst code r cs'. exact (leaf_ok K cst G RPrim R Logic.I).
    - (* EVar *) destruct (lookup (c_env cst) x) as [p|] eqn:El; [|discriminate H]. inversion H; subst code r cs'.
      exact (leaf_ok K cst G (RRef p) R (r_env _ _ R x p El)).
    - (* EPart *) destruct (lookup (c_env cst) x) as [[s| |]|] eqn:El; try discriminate H. inversion H; subst code r cs'.
      exact (leaf_ok K cst G (RRef (PPart s k)) R (r_env _ _ R x _ El)).
    - (* ELit *) rewrite fresh_eq in H. inversion H; subst code r cs'. exact (lit_ok K cst G n R).
    - (* EUse1 *) destruct (cexpr inl sg e cst) as [[[ia ra] cs1]|] eqn:Ea; [|discriminate H]. inversion H; subst code r cs'.
      destruct (IHe F _ _ _ _ G K Ea R) as [G1 [T1 [C1 P1]]]. exact (use1_ok K ia ra cst cs1 G G1 T1 C1 P1).
    - (* EUse2 *) apply andb_true_iff in F. destruct F as [Fa Fb].
      destruct (cexpr inl sg e1 cst) as [[[ia ra] cs1]|] eqn:Ea; [|discriminate H].
      destruct (cexpr inl sg e2 cs1) as [[[ib rb] cs2]|] eqn:Eb; [|discriminate H]. inversion H; subst code r cs'.
      destruct (IHe1 Fa _ _ _ _ G K Ea R) as [G1 [T1 [C1 P1]]].
      destruct (IHe2 Fb _ _ _ _ G1 K Eb (post_rel P1)) as [G2 [T2 [C2 P2]]].
      exact (use2_ok K ia ib ra rb cst cs1 cs2 G G1 G2 T1 T2 C1 P1 C2 P2).
    - (* EDerive *) destruct (cexpr inl sg e cst) as [[[ia ra] cs1]|] eqn:Ea; [|discriminate H].
      rewrite fresh_eq in H. inversion H; subst code r cs'.
      destruct (IHe F _ _ _ _ G K Ea R) as [G1 [T1 [C1 P1]]]. exact (derive_ok K ia ra cst cs1 G G1 T1 n R C1 P1).
    - (* EElem *) destruct (cexpr inl sg e cst) as [[[ia ra] cs1]|] eqn:Ea; [|discriminate H].
      destruct (IHe F _ _ _ _ G K Ea R) as [G1 [T1 [C1 P1]]].
      destruct ra as [|t|[s|s j|s]]; try discriminate H.
      + rewrite fresh_eq in H. inversion H; subst code r cs'. exact (elem_temp_ok K ia t k cst cs1 G G1 T1 R C1 P1).
      + (* element of a variable: a reference into the variable *)
        inversion H; subst code r cs'. exists G1, T1. split; [exact C1|].
        exact (expr_post_res _ _ _ _ _ _ (RRef (PPart s k)) P1 (post_res P1)).
    - (* EConcat *)
      apply andb_true_iff in F. destruct F as [Fa Fb].
      destruct (cexpr inl sg e1 cst) as [[[ia ra] cs1]|] eqn:Ea; [|discriminate H].
      rewrite (early_copy_fexpr cs1 e1 e2 ra Fb) in H.
      destruct (cexpr inl sg e2 cs1) as [[[ib rb] cs2]|] eqn:Eb; [|discriminate H].
      destruct (IHe1 Fa _ _ _ _ G K Ea R) as [G1 [T1 [C1 P1]]].
      destruct (IHe2 Fb _ _ _ _ G1 K Eb (post_rel P1)) as [G2 [T2 [C2 P2]]].
      destruct ra as [|sa|pa]; destruct (res_place rb) as [pb|] eqn:Erp; try discriminate H.
      + rewrite fresh_eq in H. inversion H; subst code r cs'.
        exact (concat_temp_ok K ia ib sa rb pb cst cs1 cs2 G G1 G2 T1 T2 R C1 P1 C2 P2 Erp).
      + unfold fresh in H. cbn [fst snd c_next] in H. inversion H; subst code r cs'.
        exact (concat_ref_ok K ia ib pa rb pb cst cs1 cs2 G G1 G2 T1 T2 R C1 P1 C2 P2 Erp).
    - (* EAnd *) apply andb_true_iff in F. destruct F as [Fa Fb].
      destruct (cexpr inl sg e1 cst) as [[[ia ra] cs1]|] eqn:Ea; [|discriminate H].
      destruct (cexpr inl sg e2 (push_scope cs1)) as [[[ib rb] cs2]|] eqn:Eb; [|discriminate H]. inversion H; subst code r cs'.
      destruct (IHe1 Fa _ _ _ _ G K Ea R) as [G1 [T1 [C1 P1]]].
      destruct (IHe2 Fb _ _ _ _ G1 K Eb (Rel_push _ _ (post_rel P1))) as [G2 [T2 [C2 P2]]].
      exact (and_ok K ia ib ra rb cst cs1 cs2 G G1 G2 T1 T2 C1 P1 C2 P2).
  Qed.
End Expr.

Definition stmt_post (cs cs' : cstate) (G G' : ost) : Prop :=
  exists V T, Rel cs' G' /\ ext cs cs' V T /\
    (forall s, s < c_next cs -> (In s (o_own G') <-> In s (o_own G))) /\
    (forall s, In s (o_dead G) -> In s (o_dead G')).

Lemma stmt_post_trans : forall a b c G G1 G2, stmt_post a b G G1 -> stmt_post b c G1 G2 -> stmt_post a c G G2.
Proof.
  intros a b c G G1 G2 [V1 [T1 [R1 [E1 [F1 D1]]]]] [V2 [T2 [R2 [E2 [F2 D2]]]]].
  exists (V1 ++ V2), (T1 ++ T2). split; [exact R2|]. split; [eapply ext_trans; eassumption|].
  split; [|auto]. intros s Hs. rewrite <- (F1 s Hs). apply F2. pose proof (ext_next _ _ _ _ E1). lia.
Qed.

Lemma expr_to_stmt_post : forall cs cs' G G' T r, expr_post cs cs' G G' T r -> stmt_post cs cs' G G'.
Proof. intros cs cs' G G' T r [R [E [_ [_ [F [D _]]]]]]. exists [], T. auto. Qed.

Lemma ext_add_var : forall cs cs1 V T v, ext cs cs1 V T -> c_next cs <= v < c_next cs1 ->
  ext cs (add_var v false cs1) (V ++ [v]) T.
Proof.
  intros cs cs1 V T v [h [t [Es [Es' [El [Ef [En Enew]]]]]]] Hv. exists h, t.
  unfold add_var, map_head, with_scopes. rewrite Es'. cbn [c_scopes c_loop c_fun c_next sc_vars sc_temps].
  rewrite map_app, app_assoc. split; [exact Es|]. split; [reflexivity|]. split; [exact El|]. split; [exact Ef|]. split; [exact En|].
  intros s Hs. rewrite <- app_assoc in Hs. apply in_app_or in Hs. destruct Hs as [Hs|Hs]; [apply Enew, in_or_app; left; exact Hs|].
  cbn [app] in Hs. destruct Hs as [Hs|Hs]; [subst s; exact Hv | apply Enew, in_or_app; right; exact Hs].
Qed.

Definition fatom (s : stmt) : bool :=
  match s with
  | SSkip => true
  | SDecl _ e | SAssign _ e | SAssignPart _ _ e | SExpr e => fexpr e
  | _ => false
  end.

(* the last step of cstmt's SDecl case *)
Definition decl_fin (x : var) (cs4 : cstate) : cstate :=
  match c_fun cs4, c_scopes cs4 with None, [_] => add_glob x cs4 | _, _ => cs4 end.
Lemma decl_final : forall x cs4,
  c_scopes (decl_fin x cs4) = c_scopes cs4 /\ c_next (decl_fin x cs4) = c_next cs4 /\ c_env (decl_fin x cs4) = c_env cs4 /\
  c_loop (decl_fin x cs4) = c_loop cs4 /\ c_fun (decl_fin x cs4) = c_fun cs4.
Proof.
  intros x cs4. unfold decl_fin. destruct (c_fun cs4) eqn:Ef; [repeat split; assumption|].
  destruct (c_scopes cs4) as [|a [|b l]] eqn:Es; unfold add_glob; cbn; repeat split; assumption.
Qed.

Lemma stmt_post_equiv : forall cst cs' G G1 G', stmt_post cst cs' G G1 -> sorted (o_own G') ->
  (forall s, In s (o_own G') <-> In s (o_own G1)) -> (forall s, In s (o_dead G') <-> In s (o_dead G1)) -> stmt_post cst cs' G G'.
Proof.
  intros cst cs' G G1 G' [V [T [R [E [F D]]]]] HS HO HD. exists V, T.
  split; [exact (Rel_equiv _ _ _ R HS HO HD)|]. split; [exact E|].
  split; [intros s Hs; rewrite HO; apply F, Hs | intros s Hs; apply HD, D, Hs].
Qed.

(* the temporary that holds the value of the expression is claimed: an owner that is registered nowhere *)
Lemma claim_post : forall cst cs1 G G1 T1 s, Rel cst G -> expr_post cst cs1 G G1 T1 (RTemp s) ->
  exists cs2, claim_temp s cs1 = Some cs2 /\ c_env cs2 = c_env cs1 /\ c_next cs2 = c_next cs1 /\
    c_next cst <= s < c_next cs1 /\ In s (o_own G1) /\ Rel cs2 (take s G1) /\ stmt_post cst cs2 G (take s G1).
Proof.
  intros cst cs1 G G1 T1 s R [R1 [E1 [N1 [V1 [F1 [D1 [Hs1 Hs2]]]]]]].
  destruct (claim_ext cst G cs1 [] T1 s R E1 N1 Hs1) as [cs2 [Ec [E2 [Ev2 [En2 _]]]]].
  pose proof (ext_fresh _ _ _ _ E1 s (or_intror Hs1)) as Hsb.
  assert (Hlow : forall x, In x (reg cst) -> x <> s) by (intros x Hx; apply (r_lt _ _ R) in Hx; lia).
  assert (R2 : Rel cs2 (take s G1)).
  { apply (Rel_ext cst G cs2 [] (del s T1) _ R E2); cbn [app take o_own o_dead].
    - apply del_nodup, N1.
    - apply del_sorted, (r_sorted _ _ R1).
    - intros x Hx. apply del_In in Hx. destruct Hx as [Hx Hne]. apply (r_own_reg _ _ R1), (ext_reg _ _ _ _ E1) in Hx.
      destruct Hx as [Hx|[[]|Hx]]; [left; exact Hx | right; right; apply del_In; tauto].
    - intros x Hx. assert (Hx1 : In x (reg cs1) /\ x <> s).
      { destruct Hx as [Hx|[[]|Hx]]; [split; [apply (ext_reg _ _ _ _ E1); left; exact Hx | exact (Hlow x Hx)]|].
        apply del_In in Hx. split; [apply (ext_reg _ _ _ _ E1); right; right; tauto | tauto]. }
      destruct (r_reg _ _ R1 x (proj1 Hx1)) as [Ho|Ho]; [left; apply del_In; tauto | right; exact Ho].
    - intros x [Hx|[]]. apply del_In. split; [apply (r_vars _ _ R1), (ext_vslots _ _ _ _ E1); left; exact Hx | exact (Hlow x (vslots_reg _ _ Hx))].
    - intros x Hx. rewrite En2. apply (r_dead_lt _ _ R1), Hx.
    - intros x p Hl. left. rewrite Ev2, V1 in Hl. exact (r_env _ _ R x p Hl).
    - intros x [Hx|[]]. apply (r_vnd _ _ R1), (ext_vslots _ _ _ _ E1). left. exact Hx. }
  exists cs2. repeat (split; [first [assumption | lia]|]). exists [], (del s T1). split; [exact R2|]. split; [exact E2|].
  cbn [take o_own o_dead]. split; [|exact D1]. intros x Hx. rewrite del_In, (F1 x Hx). split; [tauto | intro Ho; split; [exact Ho | lia]].
Qed.

(* a new variable x in slot c_next cs takes over an owner *)
Lemma decl_post : forall cs Gx x, Rel cs Gx ->
  let v := c_next cs in
  stmt_post cs (decl_fin x (bind x (PSlot v) (add_var v false (snd (fresh cs))))) Gx (give v Gx).
Proof.
  intros cs Gx x R v. set (cs4 := bind x (PSlot v) (add_var v false (snd (fresh cs)))).
  destruct (decl_final x cs4) as [Q1 [Q2 [Q3 [Q4 Q5]]]]. set (fin := decl_fin x cs4) in *.
  assert (Hnx : c_next fin = S v) by (rewrite Q2; unfold cs4, bind, add_var, map_head; cbn [c_next]; destruct (c_scopes (snd (fresh cs))); reflexivity).
  assert (EF : ext cs fin [v] []).
  { apply (ext_with cs (add_var v false (snd (fresh cs))) fin [v] []); [|rewrite Q1; reflexivity | rewrite Q4; reflexivity | rewrite Q5; reflexivity | rewrite Q2; apply Nat.le_refl].
    apply (ext_add_var cs (snd (fresh cs)) [] [] v); [|unfold v; cbn; lia].
    apply (ext_with cs cs _ [] [] (ext_refl cs (r_ne _ _ R))); try reflexivity. cbn. lia. }
  assert (Hv : forall s, In s (reg cs) -> s <> v) by (intros s Hs; apply (r_lt _ _ R) in Hs; unfold v; lia).
  exists [v], []. split; [|split; [exact EF|]]; cbn [give o_own o_dead].
  - apply (Rel_ext cs Gx fin [v] [] _ R EF); cbn [app give o_own o_dead].
    + repeat constructor. intros [].
    + apply ins_sorted, (r_sorted _ _ R).
    + intros s Hs. apply ins_In in Hs. destruct Hs as [Hs|Hs]; [right; left; left; auto | left; apply (r_own_reg _ _ R), Hs].
    + intros s [Hs|[[Hs|[]]|[]]]; [|left; apply ins_In; left; auto].
      destruct (r_reg _ _ R s Hs) as [Ho|Ho]; [left; apply ins_In; right; exact Ho | right; apply del_In; split; [exact Ho | exact (Hv s Hs)]].
    + intros s [Hs|[Hs|[]]]; apply ins_In; [right; apply (r_vars _ _ R), Hs | left; auto].
    + intros s Hs. apply del_In in Hs. rewrite Hnx. apply proj1, (r_dead_lt _ _ R) in Hs. unfold v. lia.
    + intros y q Hl. rewrite Q3 in Hl. unfold cs4, bind in Hl. cbn [c_env lookup] in Hl.
      destruct (Nat.eqb y x); [inversion Hl; subst q; right; left; reflexivity|].
      left. rewrite add_var_env in Hl. exact (r_env _ _ R y q Hl).
    + intros s Hs Hd. apply del_In in Hd. destruct Hs as [Hs|[Hs|[]]]; [exact (r_vnd _ _ R s Hs (proj1 Hd)) | exact (proj2 Hd (eq_sym Hs))].
  - split.
    + intros s Hs. rewrite ins_In. split; [intros [E|Ho]; [unfold v in E; lia | exact Ho] | auto].
    + intros s Hs. apply del_In. split; [exact Hs|]. apply (r_dead_lt _ _ R) in Hs. unfold v. lia.
Qed.

Lemma var_slot : forall cst cs1 G G1 T1 r x v, Rel cst G -> expr_post cst cs1 G G1 T1 r -> lookup (c_env cs1) x = Some (PSlot v) ->
  In v (vslots cst) /\ In v (o_own G1) /\ ~ In v (o_dead G1) /\ v < c_next cst.
Proof.
  intros cst cs1 G G1 T1 r x v R [R1 [E1 _]] El.
  assert (Hv : In v (vslots cs1)) by apply (r_env _ _ R1 x _ El).
  assert (Hv0 : In v (vslots cst)) by (apply (ext_vslots _ _ _ _ E1) in Hv; destruct Hv as [Hv|[]]; exact Hv).
  split; [exact Hv0|]. split; [apply (r_vars _ _ R1), Hv|]. split; [apply (r_vnd _ _ R1), Hv|].
  apply (r_lt _ _ R), vslots_reg, Hv0.
Qed.

(* Speichere <temporary s> in x: the old value of x is freed, then the temporary is claimed into its slot *)
Lemma assign_temp : forall K cst cs1 G G1 T1 s x v, Rel cst G -> expr_post cst cs1 G G1 T1 (RTemp s) ->
  lookup (c_env cs1) x = Some (PSlot v) ->
  exists cs2 G', claim_temp s cs1 = Some cs2 /\ own_check K (ISeq (IFree v) (IMove v s)) G1 = Some (Some G') /\ stmt_post cst cs2 G G'.
Proof.
  intros K cst cs1 G G1 T1 s x v R P1 El.
  destruct (var_slot _ _ _ _ _ _ _ _ R P1 El) as (Hv0 & Hvo & Hvd & Hvl).
  destruct (claim_post _ _ _ _ _ _ R P1) as (cs2 & Ec & _ & _ & Hsb & Hs2 & R2 & S2).
  exists cs2, (give v (take s (take v G1))). split; [exact Ec|]. split.
  - rewrite oc_seq, (own_check_pre K (IFree v) G1 eq_refl (or_introl Hvo)). cbn [eff].
    rewrite (proj2 (mem_In v (o_own G1)) Hvo). apply (own_check_pre K (IMove v s) (take v G1) eq_refl). cbn [pre take o_own].
    rewrite !del_In. split; [tauto|]. split; [split; [exact Hs2 | lia] | lia].
  - apply (stmt_post_equiv _ _ _ _ _ S2); cbn [give take o_own o_dead].
    + apply ins_sorted, del_sorted, del_sorted, (r_sorted _ _ (proj1 P1)).
    + intro y. rewrite ins_In, !del_In. split; [intros [E|[[Ho _] Hn]]; [subst y; split; [exact Hvo | lia] | tauto]|].
      intros [Ho Hn]. destruct (Nat.eq_dec y v); tauto.
    + intro y. rewrite del_In. split; [tauto|]. intro Hd. split; [exact Hd|]. intro E. subst y. exact (Hvd Hd).
Qed.

(* Speichere <temporary s> in x an der Stelle k *)
Lemma assign_part_temp : forall K cst cs1 G G1 T1 s x v k, Rel cst G -> expr_post cst cs1 G G1 T1 (RTemp s) ->
  lookup (c_env cs1) x = Some (PSlot v) ->
  exists cs2, claim_temp s cs1 = Some cs2 /\ own_check K (IAssignPart v k s) G1 = Some (Some (take s G1)) /\ stmt_post cst cs2 G (take s G1).
Proof.
  intros K cst cs1 G G1 T1 s x v k R P1 El.
  destruct (var_slot _ _ _ _ _ _ _ _ R P1 El) as (Hv0 & Hvo & Hvd & Hvl).
  destruct (claim_post _ _ _ _ _ _ R P1) as (cs2 & Ec & _ & _ & Hsb & Hs2 & R2 & S2).
  exists cs2. split; [exact Ec|]. split; [|exact S2].
  apply (own_check_pre K (IAssignPart v k s) G1 eq_refl). cbn [pre]. split; [exact Hvo|]. split; [exact Hs2 | lia].
Qed.

(* a block: push a scope, run, free the scope, forget its variables *)
Lemma block_post : forall K cst G cs1 G1 (env0 : list (var * place)),
  Rel cst G -> stmt_post (push_scope cst) cs1 G G1 ->
  (forall x p, lookup env0 x = Some p -> In (root p) (vslots cst)) ->
  exists G3, own_check K (iseq (exit_frees false (hd empty_scope (c_scopes cs1)))) G1 = Some (Some G3) /\
    o_own G3 = o_own G /\ o_dead G3 = o_dead G1 /\ Rel (leave_scope cs1 env0) G3 /\ ext cst (leave_scope cs1 env0) [] [].
Proof.
  intros K cst G cs1 G1 env0 R [V [T [R1 [E1 [F1 D1]]]]] Henv.
  destruct (scope_left K cst G (push_scope cst) cs1 G1 V T (leave_scope cs1 env0) R eq_refl eq_refl E1 R1 F1 eq_refl eq_refl Henv)
    as (G3 & C3 & Eo & D3 & R3 & Es3).
  exists G3. split; [exact C3|]. split; [exact Eo|]. split; [exact D3|]. split; [exact R3|].
  destruct (ext_loop_fun _ _ _ _ E1) as [El Ef].
  exact (ext_with cst cst _ [] [] (ext_refl cst (r_ne _ _ R)) Es3 El Ef (ext_next _ _ _ _ E1)).
Qed.

Section Stmt.
  Variable inl : nat -> list (option place) -> cstate -> option (instr * res * cstate).
  Variable sg : nat -> option (list (var * mode * bool) * bool).

  Lemma catom_ok : forall s, fatom s = true -> forall cst code cs' G K,
    cstmt inl sg s cst = Some (code, cs') -> Rel cst G ->
    exists G', own_check K code G = Some (Some G') /\ stmt_post cst cs' G G'.
  Proof.
    destruct s; intros F cst code cs' G K H R; cbn [fatom] in F; try discriminate F; cbn [cstmt] in H.
    - (* SSkip *) inversion H; subst. exists G. split; [reflexivity|]. exists [], [].
      split; [exact R|]. split; [apply ext_refl, (r_ne _ _ R)|]. split; [intros; tauto | auto].
    - (* SDecl *) destruct (cexpr inl sg e cst) as [[[ie re] cs1]|] eqn:Ee; [|discriminate H].
      destruct (cexpr_ok inl sg e F _ _ _ _ G K Ee R) as [G1 [T1 [C1 P1]]]. pose proof (proj1 P1) as R1.
      assert (W : ~ In (c_next cs1) (o_own G1)) by (apply (Rel_fresh_notin cs1 G1 _ R1); lia).
      destruct re as [|s|p].
      + inversion H; subst. exists G1. split; [exact C1 | eapply expr_to_stmt_post; exact P1].
      + rewrite fresh_eq in H. cbn [claim_or_copy] in H. rewrite claim_fresh in H.
        destruct (claim_post _ _ _ _ _ _ R P1) as (cs2 & Ec & _ & En & Hsb & Hs2 & R2 & S2). rewrite Ec in H. cbn [option_map] in H.
        inversion H; subst code cs'. clear H. rewrite <- En.
        exists (give (c_next cs2) (take s G1)). split; [|exact (stmt_post_trans _ _ _ _ _ _ S2 (decl_post cs2 _ x R2))].
        rewrite oc_seq, C1. apply (own_check_pre K (IMove _ s) G1 eq_refl). rewrite En. split; [exact W|]. split; [exact Hs2 | lia].
      + rewrite fresh_eq in H. cbn [claim_or_copy] in H. inversion H; subst code cs'. clear H.
        exists (give (c_next cs1) G1). split; [|exact (stmt_post_trans _ _ _ _ _ _ (expr_to_stmt_post _ _ _ _ _ _ P1) (decl_post cs1 _ x R1))].
        rewrite oc_seq, C1. exact (own_check_pre K (ICopy _ p) G1 eq_refl (conj W (ref_owned P1))).
    - (* SAssign *) destruct (cexpr inl sg e cst) as [[[ie re] cs1]|] eqn:Ee; [|discriminate H].
      destruct (cexpr_ok inl sg e F _ _ _ _ G K Ee R) as [G1 [T1 [C1 P1]]].
      destruct re as [|s|p].
      + inversion H; subst. exists G1. split; [exact C1 | eapply expr_to_stmt_post; exact P1].
      + destruct (lookup (c_env cs1) x) as [[v| |]|] eqn:El; try discriminate H.
        destruct (assign_temp K _ _ _ _ _ _ _ _ R P1 El) as (cs2 & G' & Ec & C2 & S2).
        cbn [claim_or_copy] in H. rewrite Ec in H. inversion H; subst code cs'. clear H.
        exists G'. split; [|exact S2]. cbn [iseq]. rewrite oc_seq, C1. exact C2.
      + (* a non-temporary right side is copied before the old value is freed *)
        destruct (lookup (c_env cs1) x) as [[v| |]|] eqn:El; try discriminate H.
        destruct (copy_to_temp K _ _ _ _ _ _ R P1) as [Cc P2]. rewrite fresh_eq in H.
        assert (El2 : lookup (c_env (add_temp (c_next cs1) false (snd (fresh cs1)))) x = Some (PSlot v)) by (rewrite add_temp_env; exact El).
        destruct (assign_temp K _ _ _ _ _ _ _ _ R P2 El2) as (cs2 & G' & Ec & C2 & S2).
        cbn [claim_or_copy] in H. rewrite Ec in H. inversion H; subst code cs'. clear H.
        exists G'. split; [|exact S2]. cbn [iseq]. rewrite oc_seq, C1, oc_seq, Cc. exact C2.
    - (* SAssignPart *) destruct (cexpr inl sg e cst) as [[[ie re] cs1]|] eqn:Ee; [|discriminate H].
      destruct (cexpr_ok inl sg e F _ _ _ _ G K Ee R) as [G1 [T1 [C1 P1]]].
      destruct (lookup (c_env cs1) x) as [[v| |]|] eqn:El; try discriminate H.
      destruct re as [|s|p].
      + inversion H; subst. exists G1. split; [exact C1 | eapply expr_to_stmt_post; exact P1].
      + destruct (assign_part_temp K _ _ _ _ _ _ _ _ k R P1 El) as (cs2 & Ec & C2 & S2).
        rewrite Ec in H. inversion H; subst code cs'. clear H.
        exists (take s G1). split; [|exact S2]. cbn [iseq]. rewrite oc_seq, C1. exact C2.
      + destruct (copy_to_temp K _ _ _ _ _ _ R P1) as [Cc P2]. rewrite fresh_eq in H.
        assert (El2 : lookup (c_env (add_temp (c_next cs1) false (snd (fresh cs1)))) x = Some (PSlot v)) by (rewrite add_temp_env; exact El).
        destruct (assign_part_temp K _ _ _ _ _ _ _ _ k R P2 El2) as (cs2 & Ec & C2 & S2).
        rewrite Ec in H. inversion H; subst code cs'. clear H.
        eexists. split; [|exact S2]. cbn [iseq]. rewrite oc_seq, C1, oc_seq, Cc. exact C2.
    - (* SExpr *) destruct (cexpr inl sg e cst) as [[[ie re] cs1]|] eqn:Ee; [|discriminate H]. inversion H; subst. clear H.
      destruct (cexpr_ok inl sg e F _ _ _ _ G K Ee R) as [G1 [T1 [C1 P1]]].
      exists G1. split; [exact C1 | eapply expr_to_stmt_post; exact P1].
  Qed.
End Stmt.

(* the slots registered in the scopes of height >= h: what a jump that leaves those scopes frees *)
Definition upper (cs : cstate) (h : nat) : list nat := flat_map scope_slots (scopes_down_to (c_scopes cs) h).

Lemma sdt_prefix : forall l h, exists rest, l = scopes_down_to l h ++ rest.
Proof.
  induction l as [|sc l IH]; intro h; [exists []; reflexivity|]. cbn [scopes_down_to].
  destruct (Nat.leb h (length (sc :: l))); [|exists (sc :: l); reflexivity].
  destruct (IH h) as [rest E]. exists rest. cbn [app]. rewrite <- E. reflexivity.
Qed.
Lemma sdt_cons : forall sc l h, h <= S (length l) -> scopes_down_to (sc :: l) h = sc :: scopes_down_to l h.
Proof. intros sc l h H. cbn [scopes_down_to length]. destruct (Nat.leb_spec h (S (length l))); [reflexivity | lia]. Qed.
Lemma sdt_short : forall l h, length l < h -> scopes_down_to l h = [].
Proof. intros [|sc l] h H; [reflexivity|]. cbn [scopes_down_to]. destruct (Nat.leb_spec h (length (sc :: l))); [lia | reflexivity]. Qed.

(* n is the threshold of height h: the scopes from h upwards hold exactly the registered slots >= n *)
Record thr (cs : cstate) (h n : nat) : Prop := mkThr {
  t_up : forall s, In s (upper cs h) -> n <= s;
  t_low : forall s, In s (reg cs) -> ~ In s (upper cs h) -> s < n;
  t_next : n <= c_next cs;
  t_h : h <= height cs }.
(* Gx is G cut at n: the owners below n, no dead slot that G does not have *)
Definition snap (G Gx : ost) (n : nat) : Prop :=
  sorted (o_own Gx) /\ (forall s, In s (o_own Gx) <-> In s (o_own G) /\ s < n) /\ (forall s, In s (o_dead Gx) -> In s (o_dead G)).
(* inside a loop, break and continue jump to ISkip with recorded states that are G cut at the thresholds of the
   heights the two jumps free down to *)
Definition LK (K : ctx) (cs : cstate) (G : ost) : Prop :=
  match c_loop cs with
  | None => True
  | Some (hb, hc) => exists Gout Ghead nb nc,
      k_brk K = Some (ISkip, Gout) /\ k_cont K = Some (ISkip, Ghead) /\
      thr cs hb nb /\ thr cs hc nc /\ snap G Gout nb /\ snap G Ghead nc
  end.

Lemma thr_ext : forall cs cs' V T h n, thr cs h n -> ext cs cs' V T -> thr cs' h n.
Proof.
  intros cs cs' V T h n [U L N Hh] E. pose proof E as [h0 [t [Es [Es' [_ [_ [En Enew]]]]]]].
  unfold height in Hh. rewrite Es in Hh. cbn [length] in Hh.
  assert (Hu : forall s, In s (upper cs' h) <-> In s (upper cs h) \/ In s V \/ In s T).
  { intro s. unfold upper. rewrite Es, Es', !sdt_cons by exact Hh. cbn [flat_map]. unfold scope_slots at 1 3. cbn [sc_vars sc_temps].
    rewrite !in_app_iff, !map_app, !in_app_iff, !map_map. cbn [v_slot t_slot]. rewrite !map_id. tauto. }
  constructor.
  - intros s Hs. apply Hu in Hs. destruct Hs as [Hs|Hs]; [apply U; exact Hs|].
    assert (In s (V ++ T)) by (apply in_or_app; exact Hs). apply Enew in H. lia.
  - intros s Hs Hn. apply (ext_reg _ _ _ _ E) in Hs. destruct Hs as [Hs|Hs]; [|exfalso; apply Hn, Hu; right; exact Hs].
    apply L; [exact Hs|]. intro Hx. apply Hn, Hu. left. exact Hx.
  - lia.
  - unfold height. rewrite Es'. cbn [length]. exact Hh.
Qed.
Lemma thr_push : forall cs h n, thr cs h n -> thr (push_scope cs) h n.
Proof.
  intros cs h n [U L N Hh]. unfold height in Hh.
  assert (Hu : upper (push_scope cs) h = upper cs h).
  { unfold upper, push_scope, with_scopes. cbn [c_scopes]. rewrite sdt_cons by lia. reflexivity. }
  constructor; rewrite ?Hu; try assumption. unfold height, push_scope, with_scopes. cbn [c_scopes length]. lia.
Qed.
Lemma thr_same : forall cs cs' h n, thr cs h n -> c_scopes cs' = c_scopes cs -> c_next cs <= c_next cs' -> thr cs' h n.
Proof.
  intros cs cs' h n [U L N Hh] Es En. constructor; unfold upper, reg, height in *; rewrite ?Es; try assumption. lia.
Qed.
Lemma snap_step : forall G G' Gx n nx, snap G Gx n -> n <= nx ->
  (forall s, s < nx -> (In s (o_own G') <-> In s (o_own G))) -> (forall s, In s (o_dead G) -> In s (o_dead G')) -> snap G' Gx n.
Proof.
  intros G G' Gx n nx [S1 [S2 S3]] Hn F D. split; [exact S1|]. split; [|auto].
  intro s. rewrite S2. split; intros [Ho Hl]; (split; [apply (F s); [lia | exact Ho] | exact Hl]).
Qed.

Lemma LK_mono : forall K cs cs' G G', LK K cs G -> c_loop cs' = c_loop cs -> (forall h n, thr cs h n -> thr cs' h n) ->
  (forall s, s < c_next cs -> (In s (o_own G') <-> In s (o_own G))) -> (forall s, In s (o_dead G) -> In s (o_dead G')) -> LK K cs' G'.
Proof.
  intros K cs cs' G G' H El Ht F D. unfold LK in *. rewrite El. destruct (c_loop cs) as [[hb hc]|]; [|exact Logic.I].
  destruct H as [Gout [Ghead [nb [nc [K1 [K2 [T1 [T2 [S1 S2]]]]]]]]]. exists Gout, Ghead, nb, nc.
  split; [exact K1|]. split; [exact K2|]. split; [exact (Ht _ _ T1)|]. split; [exact (Ht _ _ T2)|].
  split; [apply (snap_step G G' Gout nb (c_next cs) S1 (t_next _ _ _ T1) F D) | apply (snap_step G G' Ghead nc (c_next cs) S2 (t_next _ _ _ T2) F D)].
Qed.
Lemma LK_step : forall K cs cs' G G', LK K cs G -> stmt_post cs cs' G G' -> LK K cs' G'.
Proof.
  intros K cs cs' G G' H [V [T [R' [E [F D]]]]].
  apply (LK_mono K cs cs' G G' H (proj1 (ext_loop_fun _ _ _ _ E))); [|exact F | exact D].
  intros h n Hn. exact (thr_ext _ _ _ _ _ _ Hn E).
Qed.
Lemma LK_push : forall K cs G, LK K cs G -> LK K (push_scope cs) G.
Proof. intros K cs G H. apply (LK_mono K cs (push_scope cs) G G H eq_refl); [intros h n; apply thr_push | intros; tauto | auto]. Qed.
Lemma LK_same : forall K cs cs' G G', LK K cs G -> c_scopes cs' = c_scopes cs -> c_loop cs' = c_loop cs -> c_next cs <= c_next cs' ->
  o_own G' = o_own G -> (forall s, In s (o_dead G) -> In s (o_dead G')) -> LK K cs' G'.
Proof.
  intros K cs cs' G G' H Es El En Eo D. apply (LK_mono K cs cs' G G' H El); [|intros s _; rewrite Eo; tauto | exact D].
  intros h n Hn. exact (thr_same _ _ _ _ Hn Es En).
Qed.

Lemma exit_frees_all : forall scs, (forall sc, In sc scs -> noprot_sc sc) ->
  flat_map (exit_frees false) scs = map IFree (flat_map scope_slots scs).
Proof.
  induction scs as [|sc scs IH]; intro H; [reflexivity|]. cbn [flat_map]. rewrite map_app, IH, exit_frees_noprot; [reflexivity | |].
  - apply H. left. reflexivity.
  - intros x Hx. apply H. right. exact Hx.
Qed.

(* the frees emitted for a break / continue lead to the state recorded for the loop exit / head *)
Lemma exit_check : forall K cs G h n Gx, Rel cs G -> thr cs h n -> snap G Gx n ->
  exists G1, own_check K (iseq (flat_map (exit_frees false) (scopes_down_to (c_scopes cs) h))) G = Some (Some G1) /\ sub G1 Gx = true.
Proof.
  intros K cs G h n Gx R [U L N Hh] [S1 [S2 S3]].
  destruct (sdt_prefix (c_scopes cs) h) as [rest Er].
  rewrite exit_frees_all.
  2:{ intros sc Hsc. apply (r_np _ _ R). rewrite Er. apply in_or_app. left. exact Hsc. }
  assert (Hreg : reg cs = upper cs h ++ flat_map scope_slots rest).
  { unfold reg, upper. rewrite Er at 1. apply flat_map_app. }
  pose proof (r_nd _ _ R) as ND. rewrite Hreg in ND.
  destruct (check_frees K (upper cs h) G (NoDup_app_l _ _ _ ND)) as [G1 [C1 [D1 [O1 So1]]]].
  { intros s Hs. apply (r_reg _ _ R). rewrite Hreg. apply in_or_app. left. exact Hs. }
  exists G1. split; [exact C1|]. unfold sub. apply andb_true_iff. split.
  - replace (o_own G1) with (o_own Gx); [apply leq_refl|]. apply sorted_ext; [exact S1 | apply So1, (r_sorted _ _ R)|].
    intro s. rewrite S2, O1. split; intros [Ho Hx]; (split; [exact Ho|]).
    + intro Hu. apply U in Hu. lia.
    + apply L; [apply (r_own_reg _ _ R); exact Ho | exact Hx].
  - apply subset_incl. intros s Hs. rewrite D1. apply S3. exact Hs.
Qed.

(* the statement can fall through (it does not end in a break / continue on every path) *)
Fixpoint thru (s : stmt) : bool :=
  match s with
  | SBreak | SContinue | SReturn _ => false
  | SSeq a b => thru a && thru b
  | SBlock b => thru b
  | SIf _ a b => thru a || thru b
  | _ => true
  end.

Fixpoint fstmt (s : stmt) : bool :=
  match s with
  | SSkip | SDecl _ _ | SAssign _ _ | SAssignPart _ _ _ | SExpr _ => fatom s
  | SSeq a b => fstmt a && fstmt b && thru a       (* no statements behind an unconditional break / continue *)
  | SBlock b => fstmt b
  | SIf c a b => fexpr c && fstmt a && fstmt b
  | SWhile c b | SDoWhile b c => fexpr c && fstmt b
  | SBreak | SContinue => true
  | _ => false
  end.

Definition post3 (cst : cstate) (G : ost) (cs' : cstate) (G' : ost) : Prop :=
  Rel cs' G' /\ (forall s, s < c_next cst -> (In s (o_own G') <-> In s (o_own G))) /\ (forall s, In s (o_dead G) -> In s (o_dead G')).

(* a statement run in a scope of its own (block, arm of Wenn, loop body): cp is cs0 with an empty scope pushed *)
Lemma arm_ok : forall K cs0 G0 cp ib cs1 Ro V T (env0 : list (var * place)),
  Rel cs0 G0 -> c_scopes cp = empty_scope :: c_scopes cs0 -> c_next cp = c_next cs0 ->
  own_check K ib G0 = Some Ro -> ext cp cs1 V T ->
  (forall G1, Ro = Some G1 -> post3 cp G0 cs1 G1) ->
  (forall x p, lookup env0 x = Some p -> In (root p) (vslots cs0)) ->
  exists Xo, own_check K (iseq (ib :: exit_frees false (hd empty_scope (c_scopes cs1)))) G0 = Some Xo /\
    c_scopes (leave_scope cs1 env0) = c_scopes cs0 /\ c_next cs0 <= c_next cs1 /\ c_loop cs1 = c_loop cp /\ c_fun cs1 = c_fun cp /\
    (Ro <> None -> Xo <> None) /\ arm_post (leave_scope cs1 env0) G0 Xo.
Proof.
  intros K cs0 G0 cp ib cs1 Ro V T env0 R Ep En C E HP Henv.
  destruct (ext_head_gen cp _ cs1 V T Ep E) as [h1 [Eh1 _]].
  destruct (ext_loop_fun _ _ _ _ E) as [El Ef]. pose proof (ext_next _ _ _ _ E) as Hnx. rewrite En in Hnx.
  assert (Els : c_scopes (leave_scope cs1 env0) = c_scopes cs0) by (unfold leave_scope; cbn [c_scopes]; rewrite Eh1; reflexivity).
  rewrite oc_iseq_cons, C. destruct Ro as [G1|].
  - destruct (HP G1 eq_refl) as [R1 [F1 D1]]. rewrite En in F1.
    destruct (scope_left K cs0 G0 cp cs1 G1 V T (leave_scope cs1 env0) R Ep En E R1 F1 eq_refl eq_refl Henv)
      as (G3 & C3 & Eo & D3 & R3 & _).
    exists (Some G3). split; [exact C3|]. split; [exact Els|]. split; [exact Hnx|]. split; [exact El|]. split; [exact Ef|].
    split; [discriminate|]. intros G3' E3. inversion E3; subst G3'.
    split; [exact Eo|]. split; [intros s Hs; rewrite D3; apply D1, Hs | exact R3].
  - exists None. split; [reflexivity|]. split; [exact Els|]. split; [exact Hnx|]. split; [exact El|]. split; [exact Ef|].
    split; [congruence|]. intros G3 E3. discriminate E3.
Qed.

Definition sres2 (s : stmt) (cst : cstate) (G : ost) (K : ctx) (code : instr) (cs' : cstate) : Prop :=
  exists Ro V T, own_check K code G = Some Ro /\ ext cst cs' V T /\ (forall G', Ro = Some G' -> post3 cst G cs' G') /\ (thru s = true -> Ro <> None).
Lemma post3_stmt_post : forall cst G cs' G' V T, ext cst cs' V T -> post3 cst G cs' G' -> stmt_post cst cs' G G'.
Proof. intros cst G cs' G' V T E [R [F D]]. exists V, T. auto. Qed.

Lemma set_loop_scopes : forall cs l, c_scopes (set_loop cs l) = c_scopes cs /\ c_next (set_loop cs l) = c_next cs /\
  c_env (set_loop cs l) = c_env cs /\ c_fun (set_loop cs l) = c_fun cs /\ c_loop (set_loop cs l) = l.
Proof. intros. repeat split. Qed.

Lemma jump_res : forall s cs G K code, Rel cs G -> thru s = false -> own_check K code G = Some None -> sres2 s cs G K code cs.
Proof.
  intros s cs G K code R Ht C. exists None, [], []. split; [exact C|]. split; [apply ext_refl, (r_ne _ _ R)|].
  split; [intros G' EG; discriminate EG | congruence].
Qed.

Lemma falls_res : forall s cst G K code cs' G' V T,
  own_check K code G = Some (Some G') -> ext cst cs' V T -> post3 cst G cs' G' -> sres2 s cst G K code cs'.
Proof.
  intros s cst G K code cs' G' V T C E P. exists (Some G'), V, T. split; [exact C|]. split; [exact E|].
  split; [intros G1 EG; inversion EG; subst G1; exact P | discriminate].
Qed.

Section Stmt2.
  Variable inl : nat -> list (option place) -> cstate -> option (instr * res * cstate).
  Variable sg : nat -> option (list (var * mode * bool) * bool).

  Definition stmt_ok (s : stmt) : Prop := forall cst code cs' G K,
    cstmt inl sg s cst = Some (code, cs') -> Rel cst G -> LK K cst G -> sres2 s cst G K code cs'.

  (* cp, cq: the states in which cstmt compiles body and condition; the body runs under K', whose break and continue
     targets both expect G *)
  Lemma while_ok : forall skf c b, fexpr c = true -> stmt_ok b -> forall cst G K ib cs1 ic rc cs2,
    let cp := set_loop (push_scope cst) (Some (height (push_scope cst), height (push_scope cst))) in
    let cq := push_scope (set_loop (leave_scope cs1 (c_env cst)) (c_loop cst)) in
    cstmt inl sg b cp = Some (ib, cs1) -> cexpr inl sg c cq = Some (ic, rc, cs2) -> Rel cst G -> LK K cst G ->
    own_check K (ILoop skf None (iseq (ic :: exit_frees false (hd empty_scope (c_scopes cs2))))
                       (iseq (ib :: exit_frees false (hd empty_scope (c_scopes cs1)))) ISkip ISkip ISkip) G = Some (Some G) /\
    ext cst (pop_scope cs2) [] [] /\ post3 cst G (pop_scope cs2) G.
  Proof.
    intros skf c b Fc IHb cst G K ib cs1 ic rc cs2 cp cq Eb Ec R HK. set (h := height (push_scope cst)) in *.
    set (K' := mkCtx (Some (ISkip, G)) (Some (ISkip, G)) (k_ret K)).
    assert (Rp : Rel cp G).
    { apply (Rel_same_scopes (push_scope cst) G cp (Rel_push _ _ R)); [reflexivity | apply Nat.le_refl|].
      intros x p Hl. apply (r_env _ _ (Rel_push _ _ R) x p Hl). }
    assert (HKp : LK K' cp G).
    { unfold LK. cbn [cp set_loop c_loop]. exists G, G, (c_next cst), (c_next cst).
      assert (Hup : upper cp h = []).
      { unfold upper. cbn [cp set_loop push_scope with_scopes c_scopes]. rewrite sdt_cons by (unfold h, height, push_scope, with_scopes; cbn [c_scopes length]; lia).
        rewrite sdt_short by (unfold h, height, push_scope, with_scopes; cbn [c_scopes length]; lia). reflexivity. }
      assert (Ht : thr cp h (c_next cst)).
      { constructor; rewrite ?Hup.
        - intros s [].
        - intros s Hs _. apply (r_lt _ _ R). exact Hs.
        - apply Nat.le_refl.
        - apply Nat.le_refl. }
      assert (Hs : snap G G (c_next cst)).
      { split; [apply (r_sorted _ _ R)|]. split; [|auto]. intro s. split; [|tauto]. intro Ho. split; [exact Ho|].
        apply (r_lt _ _ R), (r_own_reg _ _ R), Ho. }
      repeat (split; [first [reflexivity | assumption]|]). assumption. }
    destruct (IHb cp ib cs1 G K' Eb Rp HKp) as [Ro [V [T [Cb [Eb' [Pb _]]]]]].
    destruct (arm_ok K' cst G cp ib cs1 Ro V T (c_env cst) R eq_refl eq_refl Cb Eb' Pb (r_env _ _ R))
      as [Xo [CX [Els [Hnx [El1 [Ef1 [_ HX]]]]]]].
    (* the condition, in its own scope *)
    set (cl := set_loop (leave_scope cs1 (c_env cst)) (c_loop cst)) in *.
    assert (Rl : Rel cl G).
    { apply (Rel_same_scopes cst G cl R); [exact Els | exact Hnx|]. intros x p Hl. apply (r_env _ _ R x p Hl). }
    destruct (cexpr_ok inl sg c Fc cq ic rc cs2 G ctx0 Ec (Rel_push _ _ Rl)) as [G2 [T2 [C2 P2]]].
    pose proof P2 as [R2 [E2 [_ [V2 [F2 [D2 _]]]]]].
    destruct (scope_left ctx0 cl G cq cs2 G2 [] T2 (pop_scope cs2) Rl eq_refl eq_refl E2 R2 F2 eq_refl eq_refl)
      as (Gt & Ct & Eot & Dt & _ & Elp).
    { intros x p Hl. change (c_env (pop_scope cs2)) with (c_env cs2) in Hl. rewrite V2 in Hl. apply (r_env _ _ Rl x p Hl). }
    assert (Ctest : own_check ctx0 (iseq (ic :: exit_frees false (hd empty_scope (c_scopes cs2)))) G = Some (Some Gt))
      by (rewrite oc_iseq_cons, C2; exact Ct).
    assert (Hn2 : c_next cst <= c_next cs2)
      by (pose proof (ext_next _ _ _ _ E2) as Hx; change (c_next cq) with (c_next cs1) in Hx; lia).
    split; [|split].
    - apply (loop_passes K skf None _ _ G Gt Xo Ctest).
      + apply (sub_same_own Gt G Eot). intros s Hs. rewrite Dt. apply D2, Hs.
      + exact CX.
      + intros G3 E3. destruct (HX G3 E3) as [Eo3 [D3 _]]. exact (sub_same_own G3 G Eo3 D3).
    - destruct (ext_loop_fun _ _ _ _ E2) as [El2 Ef2].
      apply (ext_with cst cst _ [] [] (ext_refl cst (r_ne _ _ R))); [rewrite Elp; exact Els | exact El2 | exact (eq_trans Ef2 Ef1) | exact Hn2].
    - split; [|split; [intros; tauto | auto]].
      apply (Rel_same_scopes cst G (pop_scope cs2) R); [rewrite Elp; exact Els | exact Hn2 |].
      intros x p Hl. change (c_env (pop_scope cs2)) with (c_env cs2) in Hl. rewrite V2 in Hl. exact (r_env _ _ R x p Hl).
  Qed.
  Lemma atom_ok : forall s, fatom s = true -> stmt_ok s.
  Proof.
    intros s F cst code cs' G K H R _. destruct (catom_ok inl sg s F _ _ _ _ K H R) as [G1 [C1 [V [T [R1 [E1 [F1 D1]]]]]]].
    exact (falls_res s cst G K code cs' G1 V T C1 E1 (conj R1 (conj F1 D1))).
  Qed.

  Lemma seq_ok : forall s1 s2, thru s1 = true -> stmt_ok s1 -> stmt_ok s2 -> stmt_ok (SSeq s1 s2).
  Proof.
    intros s1 s2 Ft IH1 IH2 cst code cs' G K H R HK.
    cbn [cstmt] in H. destruct (cstmt inl sg s1 cst) as [[ia cs1]|] eqn:Ea; [|discriminate H].
    destruct (cstmt inl sg s2 cs1) as [[ib cs2]|] eqn:Eb; [|discriminate H]. inversion H; subst. clear H.
    destruct (IH1 _ _ _ G K Ea R HK) as [Ro1 [V1 [T1 [C1 [E1 [P1 N1]]]]]].
    destruct Ro1 as [G1|]; [|exfalso; exact (N1 Ft eq_refl)].
    destruct (P1 G1 eq_refl) as [R1 [F1 D1]].
    pose proof (LK_step K cst cs1 G G1 HK (post3_stmt_post _ _ _ _ _ _ E1 (P1 G1 eq_refl))) as HK1.
    destruct (IH2 _ _ _ G1 K Eb R1 HK1) as [Ro2 [V2 [T2 [C2 [E2 [P2 N2]]]]]].
    exists Ro2, (V1 ++ V2), (T1 ++ T2). split; [rewrite oc_seq, C1; exact C2|]. split; [eapply ext_trans; eassumption|]. split.
    - intros G2 EG. destruct (P2 G2 EG) as [R2 [F2 D2]]. split; [exact R2|]. split; [|auto].
      intros y Hy. rewrite <- (F1 y Hy). apply F2. pose proof (ext_next _ _ _ _ E1). lia.
    - cbn [thru]. intro Ht. apply andb_true_iff in Ht. apply N2. tauto.
  Qed.

  Lemma block_ok : forall s, stmt_ok s -> stmt_ok (SBlock s).
  Proof.
    intros s IHb cst code cs' G K H R HK.
    cbn [cstmt] in H. destruct (cstmt inl sg s (push_scope cst)) as [[ib cs1]|] eqn:Eb; [|discriminate H]. inversion H; subst. clear H.
    destruct (IHb _ _ _ G K Eb (Rel_push _ _ R) (LK_push _ _ _ HK)) as [Ro [V [T [C1 [E1 [P1 N1]]]]]].
    destruct (arm_ok K cst G (push_scope cst) ib cs1 Ro V T (c_env cst) R eq_refl eq_refl C1 E1 P1 (r_env _ _ R))
      as [Xo [CX [Els [Hnx [El1 [Ef1 [NX HX]]]]]]].
    exists Xo, [], []. split; [rewrite <- iseq_cons_eq; exact CX|]. split; [|split].
    - apply (ext_with cst cst _ [] [] (ext_refl cst (r_ne _ _ R))); [exact Els | exact El1 | exact Ef1 | exact Hnx].
    - intros G3 EG. destruct (HX G3 EG) as [Eo [D3 R3]]. split; [exact R3|]. split; [intros y _; rewrite Eo; tauto | exact D3].
    - cbn [thru]. intro Ht. apply NX, N1, Ht.
  Qed.

  Lemma if_ok : forall c s1 s2, fexpr c = true -> stmt_ok s1 -> stmt_ok s2 -> stmt_ok (SIf c s1 s2).
  Proof.
    intros c s1 s2 Fc IH1 IH2 cst code cs' G K H R HK.
    cbn [cstmt] in H. destruct (cexpr inl sg c cst) as [[[ic rc] cs0]|] eqn:Ec; [|discriminate H].
    destruct (cstmt inl sg s1 (push_scope cs0)) as [[ia cs1]|] eqn:Ea; [|discriminate H].
    destruct (cstmt inl sg s2 (push_scope (leave_scope cs1 (c_env cs0)))) as [[ib cs2]|] eqn:Eb; [|discriminate H].
    inversion H; subst. clear H.
    destruct (cexpr_ok inl sg c Fc _ _ _ _ G K Ec R) as [G0 [T0 [C0 P0]]].
    pose proof P0 as [R0 [E0 [N0 [V0 [F0 [D0 _]]]]]].
    assert (HK0 : LK K cs0 G0) by (apply (LK_step K cst cs0 G G0 HK); eapply expr_to_stmt_post; exact P0).
    destruct (IH1 _ _ _ G0 K Ea (Rel_push _ _ R0) (LK_push _ _ _ HK0)) as [Roa [Va [Ta [Ca [Ea' [Pa Na]]]]]].
    destruct (arm_ok K cs0 G0 (push_scope cs0) ia cs1 Roa Va Ta (c_env cs0) R0 eq_refl eq_refl Ca Ea' Pa (r_env _ _ R0))
      as [Xa [CXa [Elsa [Hnxa [Ela [Efa [NXa HXa]]]]]]].
    set (csm := leave_scope cs1 (c_env cs0)) in *.
    assert (Henv : forall y q, lookup (c_env cs0) y = Some q -> In (root q) (vslots csm))
      by (intros y q Hl; unfold vslots; rewrite Elsa; exact (r_env _ _ R0 y q Hl)).
    assert (Rm : Rel csm G0) by exact (Rel_same_scopes cs0 G0 csm R0 Elsa Hnxa (r_env _ _ R0)).
    assert (HKm : LK K csm G0) by (apply (LK_same K cs0 csm G0 G0 HK0 Elsa Ela Hnxa eq_refl); auto).
    destruct (IH2 _ _ _ G0 K Eb (Rel_push _ _ Rm) (LK_push _ _ _ HKm)) as [Rob [Vb [Tb [Cb [Eb' [Pb Nb]]]]]].
    destruct (arm_ok K csm G0 (push_scope csm) ib cs2 Rob Vb Tb (c_env cs0) Rm eq_refl eq_refl Cb Eb' Pb Henv)
      as [Xb [CXb [Elsb [Hnxb [Elb [Efb [NXb HXb]]]]]]].
    set (csF := leave_scope cs2 (c_env cs0)) in *.
    assert (EF : ext cst csF [] T0).
    { apply (ext_with cst cs0 _ [] T0 E0);
        [rewrite Elsb; exact Elsa | exact (eq_trans Elb Ela) | exact (eq_trans Efb Efa) | exact (Nat.le_trans _ _ _ Hnxa Hnxb)]. }
    assert (HrelF : forall Gx, Rel csm Gx -> Rel csF Gx) by (intros Gx Rx; exact (Rel_same_scopes csm Gx csF Rx Elsb Hnxb Henv)).
    assert (HXa' : arm_post csF G0 Xa).
    { intros Ga EG. destruct (HXa Ga EG) as [Eoa [Da Ra]]. split; [exact Eoa|]. split; [exact Da | exact (HrelF Ga Ra)]. }
    destruct (join_post csF G0 Xa Xb HXa' HXb) as [Rj [Ej [Pj Nj]]].
    exists Rj, [], T0. split; [rewrite oc_seq, C0, oc_if; rewrite <- !iseq_cons_eq; rewrite CXa, CXb; exact Ej|]. split; [exact EF|]. split.
    - intros Gj EG. destruct (Pj Gj EG) as [Eo [Dj Rj']]. split; [exact Rj'|].
      split; [intros y Hy; rewrite Eo; apply F0, Hy | intros y Hy; apply Dj, D0, Hy].
    - cbn [thru]. intro Ht. apply Nj. apply orb_true_iff in Ht. destruct Ht as [Ht|Ht]; [left; apply NXa, Na, Ht | right; apply NXb, Nb, Ht].
  Qed.

  Lemma loop_ok : forall c b, fexpr c = true -> stmt_ok b -> stmt_ok (SWhile c b) /\ stmt_ok (SDoWhile b c).
  Proof.
    intros c b Fc IHb. split; intros cst code cs' G K H R HK; cbn [cstmt] in H;
      (destruct (cstmt inl sg b _) as [[ib cs1]|] eqn:Eb; [|discriminate H]);
      (destruct (cexpr inl sg c _) as [[[ic rc] cs2]|] eqn:Ec; [|discriminate H]); inversion H; subst code cs'; clear H.
    - destruct (while_ok false c b Fc IHb cst G K ib cs1 ic rc cs2 Eb Ec R HK) as (C & E & P).
      exact (falls_res _ _ _ _ _ _ G [] [] C E P).
    - destruct (while_ok true c b Fc IHb cst G K ib cs1 ic rc cs2 Eb Ec R HK) as (C & E & P).
      exact (falls_res _ _ _ _ _ _ G [] [] C E P).
  Qed.

  Lemma break_ok : stmt_ok SBreak.
  Proof.
    intros cst code cs' G K H R HK.
    cbn [cstmt] in H. unfold loop_exit_frees in H. unfold LK in HK.
    destruct (c_loop cst) as [[hb hc]|] eqn:El; [|discriminate H]. inversion H; subst. clear H.
    destruct HK as [Gout [_ [nb [_ [K1 [_ [T1 [_ [S1 _]]]]]]]]].
    destruct (exit_check K cs' G hb nb Gout R T1 S1) as [G1 [C1 Sb]]. apply jump_res; [exact R | reflexivity|].
    rewrite (oc_iseq_app K _ [IBreak] G G1 C1). cbn [iseq own_check]. rewrite K1. cbn [check_simple]. rewrite Sb. reflexivity.
  Qed.

  Lemma continue_ok : stmt_ok SContinue.
  Proof.
    intros cst code cs' G K H R HK.
    cbn [cstmt] in H. unfold loop_exit_frees in H. unfold LK in HK.
    destruct (c_loop cst) as [[hb hc]|] eqn:El; [|discriminate H]. inversion H; subst. clear H.
    destruct HK as [_ [Ghead [_ [nc [_ [K2 [_ [T2 [_ S2]]]]]]]]].
    destruct (exit_check K cs' G hc nc Ghead R T2 S2) as [G1 [C1 Sb]]. apply jump_res; [exact R | reflexivity|].
    rewrite (oc_iseq_app K _ [IContinue] G G1 C1). cbn [iseq own_check]. rewrite K2. cbn [check_simple]. rewrite Sb. reflexivity.
  Qed.

  Lemma cstmt_ok : forall s, fstmt s = true -> forall cst code cs' G K,
    cstmt inl sg s cst = Some (code, cs') -> Rel cst G -> LK K cst G -> sres2 s cst G K code cs'.
  Proof.
    induction s; intros F; cbn [fstmt] in F; try discriminate F; try exact (atom_ok _ F).
    - (* SSeq *) apply andb_true_iff in F. destruct F as [F Ft]. apply andb_true_iff in F. destruct F as [Fa Fb].
      exact (seq_ok s1 s2 Ft (IHs1 Fa) (IHs2 Fb)).
    - (* SBlock *) exact (block_ok s (IHs F)).
    - (* SIf *) apply andb_true_iff in F. destruct F as [F Fb]. apply andb_true_iff in F. destruct F as [Fc Fa].
      exact (if_ok c s1 s2 Fc (IHs1 Fa) (IHs2 Fb)).
    - (* SWhile *) apply andb_true_iff in F. destruct F as [Fc Fb]. exact (proj1 (loop_ok c s Fc (IHs Fb))).
    - (* SDoWhile *) apply andb_true_iff in F. destruct F as [Fc Fb]. exact (proj2 (loop_ok c s Fc (IHs Fb))).
    - (* SBreak *) exact break_ok.
    - (* SContinue *) exact continue_ok.
  Qed.
End Stmt2.

Lemma Rel_init : Rel init_cstate (mkO [] []).
Proof.
  constructor; cbn.
  - discriminate.
  - intros sc0 [Hsc|[]]. subst sc0. split; intros ? [].
  - constructor.
  - intros ? [].
  - exact Logic.I.
  - intros ? [].
  - intros ? [].
  - intros ? [].
  - intros x p H. discriminate H.
  - intros ? [].
  - intros ? [].
Qed.

Definition fprogram (P : program) : bool := fstmt (p_main P) && thru (p_main P).

Theorem compile_ok : forall P, fprogram P = true -> compile P <> None -> program_ok P = true.
Proof.
  intros P F Hc. unfold program_ok. unfold compile in *.
  destruct (cstmt (inline_d P (S (length (p_funs P)))) (sig_of P) (p_main P) init_cstate) as [[im cs]|] eqn:Em; [|congruence].
  unfold fprogram in F. apply andb_true_iff in F. destruct F as [F Ft].
  destruct (cstmt_ok _ _ (p_main P) F _ _ _ (mkO [] []) ctx0 Em Rel_init Logic.I) as [Ro [V [T [C1 [E1 [P1 N1]]]]]].
  destruct Ro as [G1|]; [|exfalso; exact (N1 Ft eq_refl)]. destruct (P1 G1 eq_refl) as [R1 _].
  destruct E1 as [h [t [X1 [X2 _]]]]. cbn in X1. inversion X1; subst h t. rewrite X2. cbn [hd].
  destruct (scope_frees ctx0 cs G1 _ [] R1 X2) as [G2 [C2 [_ [O2 _]]]].
  rewrite oc_iseq_cons, C1, C2.
  destruct (o_own G2) as [|y l] eqn:Eo; [reflexivity|]. exfalso.
  assert (Hy : In y (y :: l)) by (left; reflexivity).
  apply O2 in Hy. destruct Hy as [Hy Hn]. apply Hn.
  apply (r_own_reg _ _ R1) in Hy. unfold reg in Hy. rewrite X2 in Hy. cbn [flat_map] in Hy. rewrite app_nil_r in Hy. exact Hy.
Qed.

Theorem program_balanced_fragment : forall P fuel oracle L,
  fprogram P = true -> run_program fuel oracle P = Some L -> balanced L.
Proof.
  intros P fuel oracle L F Hr. apply (program_ok_balanced P fuel oracle L); [|exact Hr].
  apply compile_ok; [exact F|]. unfold run_program in Hr. destruct (compile P); [discriminate | discriminate Hr].
Qed.
