(* own_check over binary slot numbers.
   OwnCheck.own_check keeps the owned and dead slots as `list nat` and compares slots with Nat.eqb / Nat.ltb.
   Evaluated inside the kernel on tens of thousands of compiled programs (CompileBounded.family_ok) it spends
   most of its steps in those unary comparisons.  own_checkN is the same algorithm over `list N`, every slot
   converted on the way in; the three shapes own_check spells out inline are named here (regrowN: the state
   after IConcat / IGrow; jumpN: where a break or continue lands; falls_intoN: a body that may fall through).
   own_checkN_agrees shows that the two give the same verdict on every instruction, context and state, so a
   sweep may evaluate program_okN in place of program_ok. *)
From Coq Require Import List NArith Bool Arith Lia.
Import ListNotations.
From DDP Require Import Lower.Own Lower.OwnCheck.

(* N.of_nat by table lookup for the slot numbers that occur in practice: nth walks the unary number once, where
   N.of_nat pays a Pos.succ per level (more than twice as dear on the kernel's lazy machine) *)
Definition small_slots : list N := Eval vm_compute in map N.of_nat (seq 0 64).
Definition slotN (s : nat) : N := nth s small_slots (N.of_nat s).

Lemma slotN_eq : forall s, slotN s = N.of_nat s.
Proof.
  intros s. unfold slotN. change small_slots with (map N.of_nat (seq 0 64)).
  destruct (Nat.lt_ge_cases s 64) as [H|H].
  - rewrite (nth_indep _ _ (N.of_nat 0)) by (rewrite map_length, seq_length; exact H).
    rewrite map_nth, seq_nth by exact H. reflexivity.
  - apply nth_overflow. rewrite map_length, seq_length. exact H.
Qed.

Local Notation "# x" := (slotN x) (at level 1, format "# x").

Record ostN := mkON { n_own : list N; n_dead : list N }.

Fixpoint memN (x : N) (l : list N) : bool :=
  match l with [] => false | y :: r => N.eqb x y || memN x r end.
Fixpoint insN (x : N) (l : list N) : list N :=
  match l with
  | [] => [x]
  | y :: r => if N.ltb x y then x :: l else if N.eqb x y then l else y :: insN x r
  end.
Definition delN (x : N) (l : list N) : list N := filter (fun y => negb (N.eqb x y)) l.
Definition interN (a b : list N) : list N := filter (fun x => memN x b) a.
Definition subsetN (a b : list N) : bool := forallb (fun x => memN x b) a.
Fixpoint leqN (a b : list N) : bool :=
  match a, b with
  | [], [] => true
  | x :: a', y :: b' => N.eqb x y && leqN a' b'
  | _, _ => false
  end.

Definition subN (G' G : ostN) : bool := leqN (n_own G') (n_own G) && subsetN (n_dead G) (n_dead G').
Definition joinN (a b : option ostN) : option (option ostN) :=
  match a, b with
  | None, x => Some x
  | x, None => Some x
  | Some A, Some B =>
    if leqN (n_own A) (n_own B) then Some (Some (mkON (n_own A) (interN (n_dead A) (n_dead B)))) else None
  end.

Record ctxN := mkCtxN {
  kn_cont : option (instr * ostN);
  kn_brk : option (instr * ostN);
  kn_ret : option ostN
}.
Definition ctxN0 : ctxN := mkCtxN None None None.

Definition writableN (d : N) (G : ostN) : bool := negb (memN d (n_own G)).
Definition giveN (d : N) (G : ostN) : ostN := mkON (insN d (n_own G)) (delN d (n_dead G)).
Definition takeN (s : N) (G : ostN) : ostN := mkON (delN s (n_own G)) (n_dead G).
Definition regrowN (d a : N) (G : ostN) : ostN :=
  let G1 := takeN a G in giveN d (mkON (n_own G1) (insN a (n_dead G1))).

Fixpoint check_simpleN (i : instr) (G : ostN) : option ostN :=
  match i with
  | ISkip => Some G
  | ISeq a b => match check_simpleN a G with Some S1 => check_simpleN b S1 | None => None end
  | IFree s => let s := #s in
    if memN s (n_own G) then Some (takeN s G) else if memN s (n_dead G) then Some G else None
  | _ => None
  end.

Definition jumpN (k : option (instr * ostN)) (G : ostN) : option (option ostN) :=
  match k with
  | Some (code, T) => match check_simpleN code G with
                      | Some S1 => if subN S1 T then Some None else None
                      | None => None
                      end
  | None => None
  end.
Definition falls_intoN (r : option (option ostN)) (R Out : ostN) : option (option ostN) :=
  match r with
  | Some None => Some (Some Out)
  | Some (Some Sb) => if subN Sb R then Some (Some Out) else None
  | None => None
  end.

(* every slot is converted once per instruction, hence the `let`s: on the lazy machine a conversion costs more
   than the set operations that follow it *)
Fixpoint own_checkN (K : ctxN) (i : instr) (G : ostN) {struct i} : option (option ostN) :=
  match i with
  | ISkip => Some (Some G)
  | ISeq a b => match own_checkN K a G with
                | Some (Some S1) => own_checkN K b S1
                | r => r
                end
  | IUse p => if memN #(root p) (n_own G) then Some (Some G) else None
  | INew d n => let d := #d in if writableN d G then Some (Some (giveN d G)) else None
  | ICopy d p => let d := #d in
    if writableN d G && memN #(root p) (n_own G) then Some (Some (giveN d G)) else None
  | IMove d s => let d := #d in let s := #s in
    if writableN d G && memN s (n_own G) && negb (N.eqb d s) then Some (Some (giveN d (takeN s G))) else None
  | IFree s => let s := #s in
    if memN s (n_own G) then Some (Some (takeN s G)) else if memN s (n_dead G) then Some (Some G) else None
  | IConcat d a pb => let d := #d in let a := #a in let b := #(root pb) in
    if writableN d G && memN a (n_own G) && memN b (n_own G) && negb (N.eqb d a) && negb (N.eqb b a)
    then Some (Some (regrowN d a G)) else None
  | IGrow d a n => let d := #d in let a := #a in
    if writableN d G && memN a (n_own G) && negb (N.eqb d a) then Some (Some (regrowN d a G)) else None
  | IOverwritePart _ _ _ => None
  | IAbsorb d s => let d := #d in let s := #s in
    if memN d (n_own G) && memN s (n_own G) && negb (N.eqb d s) then Some (Some (takeN s G)) else None
  | IAbsorbCopy d p => if memN #d (n_own G) && memN #(root p) (n_own G) then Some (Some G) else None
  | IAssignPart s k src => let s := #s in let src := #src in
    if memN s (n_own G) && memN src (n_own G) && negb (N.eqb s src) then Some (Some (takeN src G)) else None
  | IAssignPartCopy s k p => let s := #s in let b := #(root p) in
    if memN s (n_own G) && memN b (n_own G) && negb (N.eqb b s) then Some (Some G) else None
  | IIf a b => match own_checkN K a G, own_checkN K b G with
               | Some ra, Some rb => joinN ra rb
               | _, _ => None
               end
  | ILoop skipfirst cnt test body oncont onbrk onexit =>
    match own_checkN ctxN0 test G with
    | Some (Some St) =>
      if subN St G then
        match check_simpleN onexit G with
        | Some Sout => falls_intoN (own_checkN (mkCtxN (Some (oncont, G)) (Some (onbrk, Sout)) (kn_ret K)) body G) G Sout
        | None => None
        end
      else None
    | _ => None
    end
  | IBreak => jumpN (kn_brk K) G
  | IContinue => jumpN (kn_cont K) G
  | IRet => match kn_ret K with
            | Some R => if subN G R then Some None else None
            | None => None
            end
  | IFun consumed ret body =>
    let cons := map slotN consumed in
    let ret := option_map slotN ret in
    if forallb (fun s => memN s (n_own G)) cons
       && (match ret with Some r => writableN r G && negb (memN r cons) | None => true end)
    then
      let R0 := fold_right takeN G cons in
      let R := match ret with Some r => giveN r R0 | None => R0 end in
      falls_intoN (own_checkN (mkCtxN None None (Some R)) body G) R R
    else None
  end.

Definition program_okN (P : program) : bool :=
  match compile P with
  | Some code => match own_checkN ctxN0 code (mkON [] []) with
                 | Some (Some G) => match n_own G with [] => true | _ => false end
                 | _ => false
                 end
  | None => false
  end.

(* agreement: N.of_nat is injective and monotone, and that is all the list operations look at *)
Definition oN (G : ost) : ostN := mkON (map N.of_nat (o_own G)) (map N.of_nat (o_dead G)).
Definition tN (k : option (instr * ost)) : option (instr * ostN) := option_map (fun c => (fst c, oN (snd c))) k.
Definition kN (K : ctx) : ctxN := mkCtxN (tN (k_cont K)) (tN (k_brk K)) (option_map oN (k_ret K)).

Lemma eqb_of_nat : forall x y, N.eqb (N.of_nat x) (N.of_nat y) = Nat.eqb x y.
Proof.
  intros x y. destruct (Nat.eqb_spec x y) as [->|H]; [apply N.eqb_refl|].
  apply N.eqb_neq. intros E. apply H, Nat2N.inj, E.
Qed.
Lemma ltb_of_nat : forall x y, N.ltb (N.of_nat x) (N.of_nat y) = Nat.ltb x y.
Proof. intros x y. destruct (Nat.ltb_spec x y); [apply N.ltb_lt|apply N.ltb_ge]; lia. Qed.

Lemma memN_of : forall x l, memN (N.of_nat x) (map N.of_nat l) = mem x l.
Proof. induction l as [|y l IH]; cbn; [reflexivity|]. rewrite eqb_of_nat, IH. reflexivity. Qed.
Lemma insN_of : forall x l, insN (N.of_nat x) (map N.of_nat l) = map N.of_nat (ins x l).
Proof.
  induction l as [|y l IH]; cbn [insN ins map]; [reflexivity|]. rewrite ltb_of_nat, eqb_of_nat, IH.
  destruct (Nat.ltb x y), (Nat.eqb x y); reflexivity.
Qed.
Lemma delN_of : forall x l, delN (N.of_nat x) (map N.of_nat l) = map N.of_nat (del x l).
Proof.
  unfold delN, del. induction l as [|y l IH]; cbn; [reflexivity|]. rewrite eqb_of_nat, IH.
  destruct (Nat.eqb x y); reflexivity.
Qed.
Lemma interN_of : forall a b, interN (map N.of_nat a) (map N.of_nat b) = map N.of_nat (inter a b).
Proof.
  unfold interN, inter. induction a as [|x a IH]; intros b; cbn; [reflexivity|]. rewrite memN_of, IH.
  destruct (mem x b); reflexivity.
Qed.
Lemma subsetN_of : forall a b, subsetN (map N.of_nat a) (map N.of_nat b) = subset a b.
Proof. unfold subsetN, subset. induction a as [|x a IH]; intros b; cbn; [reflexivity|]. rewrite memN_of, IH. reflexivity. Qed.
Lemma leqN_of : forall a b, leqN (map N.of_nat a) (map N.of_nat b) = leq a b.
Proof. induction a as [|x a IH]; intros [|y b]; cbn; try reflexivity. rewrite eqb_of_nat, IH. reflexivity. Qed.

Lemma mem_own_of : forall x G, memN (N.of_nat x) (n_own (oN G)) = mem x (o_own G).
Proof. intros. apply memN_of. Qed.
Lemma mem_dead_of : forall x G, memN (N.of_nat x) (n_dead (oN G)) = mem x (o_dead G).
Proof. intros. apply memN_of. Qed.
Lemma writableN_of : forall d G, writableN (N.of_nat d) (oN G) = writable d G.
Proof. intros. unfold writableN, writable. rewrite mem_own_of. reflexivity. Qed.
Lemma giveN_of : forall d G, giveN (N.of_nat d) (oN G) = oN (give d G).
Proof. intros. unfold giveN, give, oN. cbn [n_own n_dead o_own o_dead]. rewrite insN_of, delN_of. reflexivity. Qed.
Lemma takeN_of : forall s G, takeN (N.of_nat s) (oN G) = oN (take s G).
Proof. intros. unfold takeN, take, oN. cbn [n_own n_dead o_own o_dead]. rewrite delN_of. reflexivity. Qed.
Lemma regrowN_of : forall d a G,
  regrowN (N.of_nat d) (N.of_nat a) (oN G) = oN (give d (mkO (o_own (take a G)) (ins a (o_dead (take a G))))).
Proof. intros. unfold regrowN. rewrite takeN_of, <- giveN_of. unfold oN. cbn [n_own n_dead o_own o_dead]. rewrite insN_of. reflexivity. Qed.
Lemma subN_of : forall A B, subN (oN A) (oN B) = sub A B.
Proof. intros. unfold subN, sub, oN. cbn [n_own n_dead]. rewrite leqN_of, subsetN_of. reflexivity. Qed.
Lemma joinN_of : forall a b,
  joinN (option_map oN a) (option_map oN b) = option_map (option_map oN) (join a b).
Proof.
  intros [A|] [B|]; try reflexivity. cbn [joinN join option_map oN n_own n_dead].
  rewrite leqN_of, interN_of. destruct (leq (o_own A) (o_own B)); reflexivity.
Qed.

Lemma check_simpleN_of : forall i G, check_simpleN i (oN G) = option_map oN (check_simple i G).
Proof.
  induction i; intros G; cbn [check_simple check_simpleN]; rewrite ?slotN_eq; try reflexivity.
  - rewrite IHi1. destruct (check_simple i1 G); cbn; auto.
  - rewrite mem_own_of, mem_dead_of, takeN_of. destruct (mem s (o_own G)), (mem s (o_dead G)); reflexivity.
Qed.

Lemma jumpN_of : forall k G,
  jumpN (tN k) (oN G) =
  option_map (option_map oN)
    match k with
    | Some (code, T) => match check_simple code G with
                        | Some S1 => if sub S1 T then Some None else None
                        | None => None
                        end
    | None => None
    end.
Proof.
  intros [[code T]|] G; cbn; [|reflexivity]. rewrite check_simpleN_of.
  destruct (check_simple code G); cbn; [|reflexivity]. rewrite subN_of. destruct (sub _ _); reflexivity.
Qed.
Lemma falls_intoN_of : forall r R Out,
  falls_intoN (option_map (option_map oN) r) (oN R) (oN Out) =
  option_map (option_map oN)
    match r with
    | Some None => Some (Some Out)
    | Some (Some Sb) => if sub Sb R then Some (Some Out) else None
    | None => None
    end.
Proof. intros [[Sb|]|] R Out; cbn; try reflexivity. rewrite subN_of. destruct (sub _ _); reflexivity. Qed.

Lemma fold_takeN_of : forall l G, fold_right takeN (oN G) (map N.of_nat l) = oN (fold_right take G l).
Proof. induction l as [|s l IH]; intros G; cbn; [reflexivity|]. rewrite IH, takeN_of. reflexivity. Qed.
Lemma forallb_memN_of : forall l G,
  forallb (fun s => memN s (n_own (oN G))) (map N.of_nat l) = forallb (fun s => mem s (o_own G)) l.
Proof. induction l as [|s l IH]; intros G; cbn [forallb map]; [reflexivity|]. rewrite mem_own_of, IH. reflexivity. Qed.

Theorem own_checkN_agrees : forall i K G,
  own_checkN (kN K) i (oN G) = option_map (option_map oN) (own_check K i G).
Proof.
  induction i as [ | a IHa b IHb | | | | d s | s | | | | | | | | a IHa b IHb
                 | sf cnt test IHtest body IHbody oncont _ onbrk _ onexit _ | | | | consumed ret body IHbody ];
    intros K G; cbn [own_check own_checkN]; rewrite ?slotN_eq;
    (* a single action: once the guard and the new state are rewritten, both sides are the same `if` *)
    rewrite ?writableN_of, ?eqb_of_nat, ?mem_own_of, ?mem_dead_of, ?giveN_of, ?takeN_of, ?regrowN_of;
    try (match goal with |- context [if ?b then _ else _] => destruct b end; reflexivity); try reflexivity.
  - (* ISeq *) rewrite IHa. destruct (own_check K a G) as [[S1|]|]; cbn [option_map]; auto.
  - (* IMove *) rewrite giveN_of. destruct (_ && _ && _); reflexivity.
  - (* IFree *) destruct (mem s (o_own G)), (mem s (o_dead G)); reflexivity.
  - (* IIf *) rewrite IHa, IHb.
    destruct (own_check K a G) as [ra|], (own_check K b G) as [rb|]; cbn [option_map]; try reflexivity.
    apply joinN_of.
  - (* ILoop *) change ctxN0 with (kN ctx0). rewrite IHtest.
    destruct (own_check ctx0 test G) as [[St|]|]; cbn [option_map]; try reflexivity.
    rewrite subN_of. destruct (sub St G); [|reflexivity]. rewrite check_simpleN_of.
    destruct (check_simple onexit G) as [Sout|]; cbn [option_map]; [|reflexivity].
    change (mkCtxN (Some (oncont, oN G)) (Some (onbrk, oN Sout)) (kn_ret (kN K)))
      with (kN (mkCtx (Some (oncont, G)) (Some (onbrk, Sout)) (k_ret K))).
    rewrite IHbody. apply falls_intoN_of.
  - (* IBreak *) apply (jumpN_of (k_brk K)).
  - (* IContinue *) apply (jumpN_of (k_cont K)).
  - (* IRet *) unfold kN. destruct (k_ret K) as [R|]; cbn [option_map kn_ret]; [|reflexivity].
    rewrite subN_of. destruct (sub G R); reflexivity.
  - (* IFun *) rewrite (map_ext _ _ slotN_eq).
    destruct ret as [r|]; cbn [option_map]; rewrite ?slotN_eq, forallb_memN_of, ?writableN_of, ?memN_of, fold_takeN_of, ?giveN_of;
      (destruct (_ && _); [|reflexivity]);
      match goal with |- context [mkCtxN None None (Some (oN ?R))] =>
        change (mkCtxN None None (Some (oN R))) with (kN (mkCtx None None (Some R))) end;
      rewrite IHbody; apply falls_intoN_of.
Qed.

Corollary program_okN_agrees : forall P, program_okN P = program_ok P.
Proof.
  intros P. unfold program_okN, program_ok. destruct (compile P) as [code|]; [|reflexivity].
  change ctxN0 with (kN ctx0). change (mkON [] []) with (oN (mkO [] [])). rewrite own_checkN_agrees.
  destruct (own_check ctx0 code (mkO [] [])) as [[G|]|]; cbn; try reflexivity. destruct (o_own G); reflexivity.
Qed.
