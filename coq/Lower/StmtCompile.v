(* DESIGN stage 4, statements of the scalar fragment: a compiler model and program preservation.

   Fragment (decidable: [block_ok G lp ss = true]): declarations and assignments of scalar variables (with the
   implicit numeric conversion), Wenn/Sonst, Solange, Mache ... Solange, Wiederhole n Mal, the counting loop with a
   Zahl, Byte or Kommazahl counter, for-each over a list literal of scalars or a Text literal (with the optional
   index variable), Verlasse die Schleife, Fahre mit der Schleife fort, blocks, expression statements and Schreibe
   of scalar expressions of the fragment of ExprCompile.v.  NOT covered: functions / Gib, Text and list values in
   variables, and the step from these structured instruction trees to the basic blocks of ForLoop / Control.

   The target keeps the variables in cells of machine values (Lower/Ops.mval); expressions are the instruction
   trees of ExprCompile; a declaration/assignment emits the numeric cast of Ops.lower_cast when the types differ;
   loops are structured and are given the fuel discipline of RefSem (one unit per nesting level and iteration),
   so that both sides can be run with the same fuel.  The hidden index, the step and the element sequence of a
   counting or for-each loop are parameters of mfor_i / mfor_k / meach, not cells.

   program_preservation_scalar: whenever RefSem.exec_block ends within the fuel (normally or with a
   Laufzeitfehler), the compiled block, run with the same fuel from the empty state, ends the same way with the
   same output bytes.  Nothing is claimed when RefSem runs out of fuel or hits one of the two guards the fragment
   can reach (negative repeat count, invalid Buchstabe printed). *)
From Coq Require Import ZArith Bool List Lia.
Import ListNotations.
From DDP Require Import Lang.Syntax Lang.F64 Lang.RefSem Lower.Ops Lower.OpsProofs Lower.ForLoop
  Lower.ControlRules Lower.ExprCompile Lower.Tie.
Open Scope Z_scope.

Inductive lstmt : Type :=
| LDecl (t : ty) (x : ident) (e : lir)
| LStore (x : ident) (e : lir)
| LIf (c : lir) (th el : list lstmt)
| LWhile (c : lir) (body : list lstmt)
| LDoWhile (body : list lstmt) (c : lir)
| LRepeat (n : lir) (body : list lstmt)
| LBreak | LContinue
| LBlock (body : list lstmt)
| LEval (e : lir)
| LPrint (e : lir)
| LFor (t : ty) (x : ident) (from to : lir) (step : option lir) (body : list lstmt)
| LForEach (x : ident) (idx : option ident) (src : lsrc) (body : list lstmt)
with lsrc : Type :=
| LSList (es : list lir)        (* a list literal: the elements are evaluated into the copied container *)
| LSText (cs : list Z).         (* a Text literal: its Buchstaben *)

Fixpoint compile_stmt (st : stmt) : lstmt :=
  match st with
  | SDecl t x e => LDecl t x (compile_expr e)
  | SAssign (LVar x) e => LStore x (compile_expr e)
  | SIf c th el => LIf (compile_expr c) (map compile_stmt th) (map compile_stmt el)
  | SWhile c b => LWhile (compile_expr c) (map compile_stmt b)
  | SDoWhile b c => LDoWhile (map compile_stmt b) (compile_expr c)
  | SRepeat c b => LRepeat (compile_expr c) (map compile_stmt b)
  | SBreak => LBreak
  | SContinue => LContinue
  | SBlock b => LBlock (map compile_stmt b)
  | SExpr e => LEval (compile_expr e)
  | SPrint e => LPrint (compile_expr e)
  | SFor t x from to step b =>
      LFor t x (compile_expr from) (compile_expr to) (match step with Some se => Some (compile_expr se) | None => None end)
           (map compile_stmt b)
  | SForEach _ x idx (EListLit es) b => LForEach x idx (LSList (map compile_expr es)) (map compile_stmt b)
  | SForEach _ x idx (EText cs) b => LForEach x idx (LSText cs) (map compile_stmt b)
  | _ => LBlock []            (* outside the fragment *)
  end.

Definition upd (G : tenv) (x : ident) (t : ty) : tenv := fun y => if N.eqb y x then Some t else G y.

Definition assignable (t te : ty) : bool :=
  is_scalar_ty t && (ty_eqb t te || (is_numeric_ty t && is_numeric_ty te)).

Fixpoint stmt_ok (G : tenv) (lp : bool) (st : stmt) : option tenv :=
  let block_ok := fix go (G : tenv) (lp : bool) (ss : list stmt) : bool :=
    match ss with
    | [] => true
    | s :: r => match stmt_ok G lp s with Some G' => go G' lp r | None => false end
    end in
  match st with
  | SDecl t x e => match typeof G e with
                   | Some te => if assignable t te then Some (upd G x t) else None
                   | None => None end
  | SAssign (LVar x) e => match G x, typeof G e with
                          | Some t, Some te => if assignable t te then Some G else None
                          | _, _ => None end
  | SIf c th el => match typeof G c with
                   | Some TBool => if block_ok G lp th && block_ok G lp el then Some G else None
                   | _ => None end
  | SWhile c b => match typeof G c with
                  | Some TBool => if block_ok G true b then Some G else None
                  | _ => None end
  | SDoWhile b c => match typeof G c with
                    | Some TBool => if block_ok G true b then Some G else None
                    | _ => None end
  | SRepeat c b => match typeof G c with
                   | Some TZahl | Some TByte => if block_ok G true b then Some G else None
                   | _ => None end
  | SBreak | SContinue => if lp then Some G else None
  | SBlock b => if block_ok G lp b then Some G else None
  | SExpr e => match typeof G e with Some _ => Some G | None => None end
  | SPrint e => match typeof G e with Some _ => Some G | None => None end
  | SFor t x from to step b =>
      let G1 := upd G x t in
      match typeof G from, typeof G1 to with
      | Some tf, Some tq =>
          if is_num t && assignable t tf && is_num tq &&
             (match step with None => true | Some se => match typeof G1 se with Some ts => is_num ts | None => false end end) &&
             block_ok G1 true b
          then Some G else None
      | _, _ => None
      end
  | SForEach t x idx src b =>
      let G1 := upd G x t in
      let G2 := match idx with Some ix => upd G1 ix TZahl | None => G1 end in
      if is_scalar_ty t &&
         (match src with
          | EListLit (e0 :: es) => forallb (fun e => match typeof G e with Some te => ty_eqb te t | None => false end) (e0 :: es)
          | EText cs => ty_eqb t TChar && forallb (fun c => (- 2^31 <=? c) && (c <? 2^31)) cs
          | _ => false
          end) &&
         block_ok G2 true b
      then Some G else None
  | _ => None
  end.

(* stmt_ok carries a local copy of this checker (nested recursion); they agree: stmt_ok_block *)
Fixpoint block_ok (G : tenv) (lp : bool) (ss : list stmt) : bool :=
  match ss with
  | [] => true
  | s :: r => match stmt_ok G lp s with Some G' => block_ok G' lp r | None => false end
  end.

Record mstate : Type := { cells : list mval; mout : list Z (* reversed, like RefSem *) }.

Inductive mr (A : Type) : Type :=
| MROk (a : A) (ms : mstate)
| MRErr (ms : mstate)          (* Laufzeitfehler *)
| MRStuck
| MRFuel.
Arguments MROk {A}. Arguments MRErr {A}. Arguments MRStuck {A}. Arguments MRFuel {A}.

Inductive mflow : Type := MFNext | MFBreak | MFCont.

Definition mty (m : mval) : ty :=
  match m with MI64 _ => TZahl | MI8 _ => TByte | MI1 _ => TBool | MI32 _ => TChar | MF64 _ => TKomma end.

(* implicit numeric conversion of declarations/assignments: numericCast when the types differ *)
Definition m_coerce (t : ty) (m : mval) : mres :=
  if ty_eqb t (mty m) then MOk m
  else if is_numeric_ty t && is_numeric_ty (mty m) then of_lres (lower_cast t m)
  else MStuck.

Definition m_ld (en : env) (ms : mstate) (x : ident) : option mval :=
  match lookup en x with Some (BLoc a) => nth_error (cells ms) a | _ => None end.

Section Machine.
Variable pow : Z -> Z -> Z.
Variable log10 : Z -> Z.
Variable fmt_float : Z -> list Z.

Definition m_eval (en : env) (ms : mstate) (l : lir) : mres := lir_eval pow log10 (m_ld en ms) l.

(* Schreibe_Zahl / _Kommazahl / _Byte / _Wahrheitswert / _Buchstabe on the machine value *)
Definition m_print (m : mval) : option (list Z) :=
  match print_bytes fmt_float (value_of_mval m) with inl (Some bs) => Some bs | _ => None end.

Definition m_emit (ms : mstate) (bs : list Z) : mstate := {| cells := cells ms; mout := rev_append bs (mout ms) |}.

Definition mr_env (en : env) (r : mr mflow) : mr (mflow * env) :=
  match r with
  | MROk fl ms' => MROk (fl, en) ms'
  | MRErr ms' => MRErr ms' | MRStuck => MRStuck | MRFuel => MRFuel
  end.

Inductive mlres : Type := MLOk (l : list mval) | MLErr | MLStuck.
Fixpoint m_evals (en : env) (ms : mstate) (es : list lir) : mlres :=
  match es with
  | [] => MLOk []
  | e :: r => match m_eval en ms e with
              | MOk m => match m_evals en ms r with MLOk l => MLOk (m :: l) | x => x end
              | MErr => MLErr
              | MStuck => MLStuck
              end
  end.

Definition m_alloc (ms : mstate) (m : mval) : mstate := {| cells := cells ms ++ [m]; mout := mout ms |}.
Definition m_store (ms : mstate) (a : nat) (m : mval) : mstate := {| cells := set_nth (cells ms) a m; mout := mout ms |}.
Definition m_default_step (t : ty) : mval := match t with TKomma => MF64 (f_of_Z 1) | _ => MI64 1 end.

Fixpoint mexec (n : nat) (en : env) (ms : mstate) (st : lstmt) {struct n} : mr (mflow * env) :=
  match n with
  | O => MRFuel
  | S n =>
    match st with
    | LDecl t x e =>
        match m_eval en ms e with
        | MOk m => match m_coerce t m with
                   | MOk m' => MROk (MFNext, (x, BLoc (length (cells ms))) :: en)
                                    {| cells := cells ms ++ [m']; mout := mout ms |}
                   | MErr => MRErr ms
                   | MStuck => MRStuck
                   end
        | MErr => MRErr ms
        | MStuck => MRStuck
        end
    | LStore x e =>
        match m_eval en ms e with
        | MOk m =>
            match lookup en x with
            | Some (BLoc a) =>
                match nth_error (cells ms) a with
                | Some old => match m_coerce (mty old) m with
                              | MOk m' => MROk (MFNext, en) {| cells := set_nth (cells ms) a m'; mout := mout ms |}
                              | MErr => MRErr ms
                              | MStuck => MRStuck
                              end
                | None => MRStuck
                end
            | _ => MRStuck
            end
        | MErr => MRErr ms
        | MStuck => MRStuck
        end
    | LIf c th el =>
        match m_eval en ms c with
        | MOk (MI1 b) => match mblock n en ms (if b then th else el) with
                         | MROk fl ms' => MROk (fl, en) ms'
                         | MRErr ms' => MRErr ms' | MRStuck => MRStuck | MRFuel => MRFuel
                         end
        | MOk _ => MRStuck
        | MErr => MRErr ms
        | MStuck => MRStuck
        end
    | LWhile c b =>
        match mwhile n en ms c b with
        | MROk fl ms' => MROk (fl, en) ms'
        | MRErr ms' => MRErr ms' | MRStuck => MRStuck | MRFuel => MRFuel
        end
    | LDoWhile b c =>
        match mblock n en ms b with
        | MROk MFBreak ms' => MROk (MFNext, en) ms'
        | MROk _ ms' => match mwhile n en ms' c b with
                        | MROk fl ms'' => MROk (fl, en) ms''
                        | MRErr ms'' => MRErr ms'' | MRStuck => MRStuck | MRFuel => MRFuel
                        end
        | MRErr ms' => MRErr ms' | MRStuck => MRStuck | MRFuel => MRFuel
        end
    | LRepeat c b =>
        match m_eval en ms c with
        | MOk m => match as_int m with
                   | LOk (MI64 u) =>      (* the counter: the count widened to i64 *)
                       match mrepeat n en ms u b with
                       | MROk fl ms' => MROk (fl, en) ms'
                       | MRErr ms' => MRErr ms' | MRStuck => MRStuck | MRFuel => MRFuel
                       end
                   | _ => MRStuck
                   end
        | MErr => MRErr ms
        | MStuck => MRStuck
        end
    | LBreak => MROk (MFBreak, en) ms
    | LContinue => MROk (MFCont, en) ms
    | LBlock b =>
        match mblock n en ms b with
        | MROk fl ms' => MROk (fl, en) ms'
        | MRErr ms' => MRErr ms' | MRStuck => MRStuck | MRFuel => MRFuel
        end
    | LEval e =>
        match m_eval en ms e with
        | MOk _ => MROk (MFNext, en) ms
        | MErr => MRErr ms
        | MStuck => MRStuck
        end
    | LPrint e =>
        match m_eval en ms e with
        | MOk m => match m_print m with
                   | Some bs => MROk (MFNext, en) (m_emit ms bs)
                   | None => MRStuck
                   end
        | MErr => MRErr ms
        | MStuck => MRStuck
        end
    | LFor t x from to step body =>
        match m_eval en ms from with
        | MOk m =>
            match m_coerce t m with
            | MOk m0 =>
                let a := length (cells ms) in
                let ms1 := m_alloc ms m0 in
                let en' := (x, BLoc a) :: en in
                match (match step with Some se => m_eval en' ms1 se | None => MOk (m_default_step t) end) with
                | MOk sv =>
                    match t with
                    | TKomma =>
                        match m0, as_float sv with
                        | MF64 i0, LOk (MF64 stpf) => mr_env en (mfor_k n en' ms1 a i0 stpf to body)
                        | _, _ => MRStuck
                        end
                    | TZahl | TByte =>
                        match as_int m0, as_int sv with
                        | LOk (MI64 u0), LOk (MI64 su) => mr_env en (mfor_i n en' ms1 t a u0 su to body)
                        | _, _ => MRStuck
                        end
                    | _ => MRStuck
                    end
                | MErr => MRErr ms1
                | MStuck => MRStuck
                end
            | MErr => MRErr ms
            | MStuck => MRStuck
            end
        | MErr => MRErr ms
        | MStuck => MRStuck
        end
    | LForEach x idx src body =>
        match (match src with
               | LSText cs => MLOk (map (fun c => MI32 (c mod 2^32)) cs)
               | LSList es => m_evals en ms es
               end) with
        | MLOk [] => MROk (MFNext, en) ms
        | MLOk (m0 :: rest) =>
            let a := length (cells ms) in
            let ms1 := m_alloc ms m0 in
            let en1 := (x, BLoc a) :: en in
            match idx with
            | None => mr_env en (meach n en1 ms1 a None (m0 :: rest) body)
            | Some ix => mr_env en (meach n ((ix, BLoc (S a)) :: en1) (m_alloc ms1 (MI64 1)) a (Some (S a)) (m0 :: rest) body)
            end
        | MLErr => MRErr ms
        | MLStuck => MRStuck
        end
    end
  end

with mblock (n : nat) (en : env) (ms : mstate) (ss : list lstmt) {struct n} : mr mflow :=
  match n with
  | O => MRFuel
  | S n =>
    match ss with
    | [] => MROk MFNext ms
    | st :: r =>
        match mexec n en ms st with
        | MROk (MFNext, en') ms' => mblock n en' ms' r
        | MROk (fl, _) ms' => MROk fl ms'
        | MRErr ms' => MRErr ms' | MRStuck => MRStuck | MRFuel => MRFuel
        end
    end
  end

with mwhile (n : nat) (en : env) (ms : mstate) (c : lir) (b : list lstmt) {struct n} : mr mflow :=
  match n with
  | O => MRFuel
  | S n =>
    match m_eval en ms c with
    | MOk (MI1 false) => MROk MFNext ms
    | MOk (MI1 true) =>
        match mblock n en ms b with
        | MROk MFBreak ms' => MROk MFNext ms'
        | MROk _ ms' => mwhile n en ms' c b
        | MRErr ms' => MRErr ms' | MRStuck => MRStuck | MRFuel => MRFuel
        end
    | MOk _ => MRStuck
    | MErr => MRErr ms
    | MStuck => MRStuck
    end
  end

(* icmp ne counter, 0 ; counter := counter - 1 at the head of the body *)
with mrepeat (n : nat) (en : env) (ms : mstate) (u : Z) (b : list lstmt) {struct n} : mr mflow :=
  match n with
  | O => MRFuel
  | S n =>
    if u =? 0 then MROk MFNext ms else
    match mblock n en ms b with
    | MROk MFBreak ms' => MROk MFNext ms'
    | MROk _ ms' => mrepeat n en ms' (sub64 u 1) b
    | MRErr ms' => MRErr ms' | MRStuck => MRStuck | MRFuel => MRFuel
    end
  end
(* counting loop, Zahl/Byte counter: hidden i64 index u and step su live outside the variable cells; the visible
   variable (cell a) is re-assigned from the index at every increment (numericCast: trunc for a Byte) *)
with mfor_i (n : nat) (en : env) (ms : mstate) (t : ty) (a : nat) (u su : Z) (to : lir) (b : list lstmt)
       {struct n} : mr mflow :=
  match n with
  | O => MRFuel
  | S n =>
    match m_eval en ms to with
    | MOk mt =>
        match as_int mt with
        | LOk (MI64 lim) =>
            if (if icmp64 ISlt su 0 then icmp64 ISge u lim else icmp64 ISle u lim) then
              match mblock n en ms b with
              | MROk MFBreak ms' => MROk MFNext ms'
              | MROk _ ms' =>
                  let u' := add64 u su in
                  mfor_i n en (m_store ms' a (match t with TByte => MI8 (trunc64_8 u') | _ => MI64 u' end)) t a u' su to b
              | MRErr ms' => MRErr ms' | MRStuck => MRStuck | MRFuel => MRFuel
              end
            else MROk MFNext ms
        | _ => MRStuck
        end
    | MErr => MRErr ms
    | MStuck => MRStuck
    end
  end

(* Kommazahl counter: double index, step and end value cast to double *)
with mfor_k (n : nat) (en : env) (ms : mstate) (a : nat) (i stpf : Z) (to : lir) (b : list lstmt)
       {struct n} : mr mflow :=
  match n with
  | O => MRFuel
  | S n =>
    match m_eval en ms to with
    | MOk mt =>
        match as_float mt with
        | LOk (MF64 lim) =>
            if (if fcmp FOlt stpf f_pos_zero then fcmp FOge i lim else fcmp FOle i lim) then
              match mblock n en ms b with
              | MROk MFBreak ms' => MROk MFNext ms'
              | MROk _ ms' => let i' := f_add i stpf in mfor_k n en (m_store ms' a (MF64 i')) a i' stpf to b
              | MRErr ms' => MRErr ms' | MRStuck => MRStuck | MRFuel => MRFuel
              end
            else MROk MFNext ms
        | _ => MRStuck
        end
    | MErr => MRErr ms
    | MStuck => MRStuck
    end
  end

(* for-each over the copied container (a list of machine values kept outside the variable cells) *)
with meach (n : nat) (en : env) (ms : mstate) (a : nat) (ai : option nat) (elems : list mval) (b : list lstmt)
       {struct n} : mr mflow :=
  match n with
  | O => MRFuel
  | S n =>
    match elems with
    | [] => MROk MFNext ms
    | m :: rest =>
        match mblock n en (m_store ms a m) b with
        | MROk MFBreak ms' => MROk MFNext ms'
        | MROk _ ms' =>
            match ai with
            | None => meach n en ms' a ai rest b
            | Some c => match nth_error (cells ms') c with
                        | Some (MI64 u) => meach n en (m_store ms' c (MI64 (add64 u 1))) a ai rest b
                        | _ => MRStuck
                        end
            end
        | MRErr ms' => MRErr ms' | MRStuck => MRStuck | MRFuel => MRFuel
        end
    end
  end.

Variable ftab : list fdecl.
Notation exec := (RefSem.exec pow log10 fmt_float ftab).
Notation exec_block := (RefSem.exec_block pow log10 fmt_float ftab).
Notation loop_while := (RefSem.loop_while pow log10 fmt_float ftab).
Notation loop_repeat := (RefSem.loop_repeat pow log10 fmt_float ftab).
Notation loop_for_i := (RefSem.loop_for_i pow log10 fmt_float ftab).
Notation loop_for_k := (RefSem.loop_for_k pow log10 fmt_float ftab).
Notation loop_each := (RefSem.loop_each pow log10 fmt_float ftab).
Notation eval := (RefSem.eval pow log10 fmt_float ftab).
Notation evals := (RefSem.evals pow log10 fmt_float ftab).

Definition cell_rel (v : value) (m : mval) : Prop := wf v /\ m = repr v.
Definition srel (s : state) (ms : mstate) : Prop := out s = mout ms /\ Forall2 cell_rel (store s) (cells ms).

Definition has_cell (s : state) (a : nat) (t : ty) : Prop :=
  exists v, nth_error (store s) a = Some v /\ type_of v = t.
(* the typing environment describes the variables of [en] *)
Definition gok (G : tenv) (en : env) (s : state) : Prop :=
  forall x t, G x = Some t -> exists a, lookup en x = Some (BLoc a) /\ has_cell s a t.
(* the store only grows, cells keep their types *)
Definition tyext (s s' : state) : Prop := forall a t, has_cell s a t -> has_cell s' a t.

Lemma tyext_refl : forall s, tyext s s.
Proof. intros s a t H. exact H. Qed.
Lemma tyext_trans : forall a b c, tyext a b -> tyext b c -> tyext a c.
Proof. intros a b c H1 H2 x t H. auto. Qed.
Lemma gok_ext : forall G en s s', gok G en s -> tyext s s' -> gok G en s'.
Proof. intros G en s s' H E x t HG. destruct (H x t HG) as (a & L & C). eauto. Qed.

Lemma Forall2_nth : forall (A B : Type) (R : A -> B -> Prop) l1 l2 n x,
  Forall2 R l1 l2 -> nth_error l1 n = Some x -> exists y, nth_error l2 n = Some y /\ R x y.
Proof.
  intros A B R l1 l2 n x H. revert n x. induction H; intros [|n] a H1; cbn in *; try discriminate H1; eauto.
  inversion H1; subst. eauto.
Qed.

Lemma Forall2_len : forall (A B : Type) (R : A -> B -> Prop) l1 l2, Forall2 R l1 l2 -> length l1 = length l2.
Proof. intros A B R l1 l2 H. induction H; cbn; auto. Qed.

Lemma Forall2_set_nth : forall (A B : Type) (R : A -> B -> Prop) l1 l2 n x y,
  Forall2 R l1 l2 -> R x y -> Forall2 R (set_nth l1 n x) (set_nth l2 n y).
Proof. intros A B R l1 l2 n x y H. revert n. induction H; intros [|n] HR; cbn; constructor; auto. Qed.

Lemma set_nth_nth_same : forall (A : Type) (l : list A) n x y, nth_error l n = Some y -> nth_error (set_nth l n x) n = Some x.
Proof. induction l; intros n x y H; destruct n; cbn in *; try discriminate H; eauto. Qed.
Lemma set_nth_nth_other : forall (A : Type) (l : list A) n m x, n <> m -> nth_error (set_nth l n x) m = nth_error l m.
Proof. induction l; intros n m x H; destruct n, m; cbn; auto; try congruence. Qed.
Lemma set_nth_length : forall (A : Type) (l : list A) n x, length (set_nth l n x) = length l.
Proof. induction l; intros; destruct n; cbn; auto. Qed.

Lemma srel_len : forall s ms, srel s ms -> length (store s) = length (cells ms).
Proof. intros s ms [_ H]. eapply Forall2_len; eauto. Qed.

Lemma srel_cell : forall s ms a v, srel s ms -> nth_error (store s) a = Some v ->
  wf v /\ nth_error (cells ms) a = Some (repr v).
Proof.
  intros s ms a v [_ HS] N. destruct (Forall2_nth _ _ _ _ _ _ _ HS N) as (m & Nm & W & ->). auto.
Qed.

(* expression evaluation under the invariant *)
Lemma env_ok_of : forall G en s ms, srel s ms -> gok G en s -> env_ok G en s (m_ld en ms).
Proof.
  intros G en s ms SR HG x t Hx Hsc. destruct (HG x t Hx) as (a & L & v & N & T).
  destruct (srel_cell s ms a v SR N) as [W Nm].
  exists (BLoc a), v. unfold m_ld. rewrite L, Nm. cbn [read_bind]. rewrite N. repeat split; auto.
Qed.

Lemma eval_sim : forall G en s ms genv e t n,
  srel s ms -> gok G en s -> typeof G e = Some t ->
  agree True t s (eval n genv en s e) (m_eval en ms (compile_expr e)).
Proof.
  intros. unfold m_eval. eapply expr_preservation_gen; eauto using env_ok_of.
Qed.

Lemma mty_repr : forall v, wf v -> mty (repr v) = type_of v.
Proof. intros v W. destruct v; cbn in W; try contradiction; reflexivity. Qed.

Lemma value_of_repr : forall v, wf v -> value_of_mval (repr v) = v.
Proof.
  intros v W. destruct v; cbn in W; try contradiction; cbn [repr value_of_mval]; try reflexivity.
  - now rewrite signed64_mod.
  - now rewrite signed32_mod.
Qed.

Lemma coerce_sim : forall t te v,
  okv te v -> assignable t te = true ->
  exists w, coerce fmt_float t v = ROk w /\ okv t w /\ m_coerce t (repr v) = MOk (repr w).
Proof.
  intros t te v [W T] A. unfold assignable in A. rewrite is_scalar_ty_scalar in A.
  apply andb_true_iff in A. destruct A as [SC A].
  unfold coerce, m_coerce. rewrite mty_repr by assumption. rewrite T.
  destruct (ty_eqb t te) eqn:E.
  - apply ty_eqb_eq in E. subst. exists v. repeat split; auto.
  - cbn [orb] in A. rewrite A.
    assert (CT : cast_ty t (type_of v) = Some t).
    { rewrite T. apply andb_true_iff in A. destruct A as [A1 A2]. destruct t, te; cbn in *; try discriminate; reflexivity. }
    destruct (cast_sound fmt_float t v t W CT) as [w [Hw Ow]].
    exists w. rewrite Hw, (cast_lowering_correct fmt_float t v w W SC Hw). auto.
Qed.

Definition flow_rel (fl : flow) (m : mflow) : Prop :=
  match fl, m with FNext, MFNext | FBreak, MFBreak | FCont, MFCont => True | _, _ => False end.

Definition guard_ok (g : guard) : Prop :=
  match g with G_repeat_negative | G_bad_codepoint => True | _ => False end.

(* RefSem's outcome [r] from the store [s0] against the machine's [m]: results related by [Q], final stores
   related, the final store an extension of [s0]; nothing is claimed on EFuel and on the guards of guard_ok *)
Definition rel_res {A B : Type} (Q : A -> state -> B -> Prop) (s0 : state) (r : res A) (m : mr B) : Prop :=
  match r with
  | Ok a s' => exists b ms', m = MROk b ms' /\ Q a s' b /\ srel s' ms' /\ tyext s0 s'
  | Fail ELaufzeit s' => exists ms', m = MRErr ms' /\ out s' = mout ms'
  | Fail EFuel _ => True
  | Fail (EUndef g) _ => guard_ok g
  end.

Definition rel_block : state -> res flow -> mr mflow -> Prop :=
  rel_res (fun fl _ mfl => flow_rel fl mfl).
Definition rel_exec (G' : tenv) : state -> res (flow * env) -> mr (mflow * env) -> Prop :=
  rel_res (fun r s' m => snd m = snd r /\ flow_rel (fst r) (fst m) /\ gok G' (snd r) s').

Lemma rel_ok : forall {A B : Type} (Q : A -> state -> B -> Prop) s a b ms,
  Q a s b -> srel s ms -> rel_res Q s (Ok a s) (MROk b ms).
Proof. intros A B Q s a b ms HQ SR. exists b, ms. auto using tyext_refl. Qed.

Lemma rel_base : forall {A B : Type} (Q : A -> state -> B -> Prop) s0 s1 r m,
  tyext s0 s1 -> rel_res Q s1 r m -> rel_res Q s0 r m.
Proof.
  intros A B Q s0 s1 [a s'|[| g|] s'] m T H; cbn [rel_res] in *; auto.
  destruct H as (b & ms' & E & HQ & SR & T'). exists b, ms'. eauto using tyext_trans.
Qed.

(* sequencing: the continuations are compared from the intermediate stores *)
Lemma rel_bind : forall {A B A' B' : Type} (Q : A -> state -> B -> Prop) (Q' : A' -> state -> B' -> Prop) s r m k km,
  rel_res Q' s r m ->
  (forall a s' b ms', Q' a s' b -> srel s' ms' -> tyext s s' -> rel_res Q s' (k a s') (km b ms')) ->
  rel_res Q s (rbind r k)
    (match m with MROk b ms' => km b ms' | MRErr ms' => MRErr ms' | MRStuck => MRStuck | MRFuel => MRFuel end).
Proof.
  intros A B A' B' Q Q' s [a s'|[| g|] s'] m k km H K; cbn [rbind rel_res] in *; auto.
  - destruct H as (b & ms' & -> & HQ & SR & T). eapply rel_base; eauto.
  - destruct H as (ms' & -> & O). eauto.
Qed.

Lemma eval_bind : forall {A B : Type} (Q : A -> state -> B -> Prop) G en s ms genv e t n k km,
  srel s ms -> gok G en s -> typeof G e = Some t ->
  (forall v, okv t v -> rel_res Q s (k v s) (km (repr v))) ->
  rel_res Q s (rbind (eval n genv en s e) k)
    (match m_eval en ms (compile_expr e) with MOk m => km m | MErr => MRErr ms | MStuck => MRStuck end).
Proof.
  intros A B Q G en s ms genv e t n k km SR GK TE K.
  pose proof (eval_sim G en s ms genv e t n SR GK TE) as H.
  destruct (eval n genv en s e) as [v s'|[| g|] s']; cbn [agree rbind] in *.
  - destruct H as (-> & OV & ->). auto.
  - destruct H as (-> & ->). exists ms. split; [reflexivity|apply SR].
  - contradiction.
  - exact I.
Qed.

Lemma write_sim : forall s ms a w,
  srel s ms -> has_cell s a (type_of w) -> wf w ->
  exists s', write_bind s (BLoc a) w = Ok tt s' /\ srel s' (m_store ms a (repr w)) /\ tyext s s'.
Proof.
  intros s ms a w [HO HS] (old & N & T) W.
  assert (LT : (a < length (store s))%nat) by (apply nth_error_Some; congruence).
  cbn [write_bind]. apply Nat.ltb_lt in LT. rewrite LT.
  eexists. split; [reflexivity|]. split.
  - split; [exact HO|]. apply Forall2_set_nth; [exact HS|split; auto].
  - intros b t (v & Nb & Tb). unfold has_cell. cbn [store]. destruct (Nat.eq_dec a b) as [<-|NE].
    + exists w. split; [eapply set_nth_nth_same; eauto|congruence].
    + exists v. split; [rewrite set_nth_nth_other; auto|exact Tb].
Qed.

Lemma write_bind_sim : forall {A B : Type} (Q : A -> state -> B -> Prop) s ms a w k km,
  srel s ms -> has_cell s a (type_of w) -> wf w ->
  (forall s', srel s' (m_store ms a (repr w)) -> tyext s s' -> rel_res Q s' (k tt s') km) ->
  rel_res Q s (rbind (write_bind s (BLoc a) w) k) km.
Proof.
  intros A B Q s ms a w k km SR C W K.
  destruct (write_sim s ms a w SR C W) as (s' & -> & SR' & T). cbn [rbind]. eapply rel_base; eauto.
Qed.

(* after a loop body: `Verlasse die Schleife` ends the loop, falling through and `Fahre fort` go on *)
Lemma flow_dispatch : forall {A B : Type} (Q : A -> state -> B -> Prop) s r m kb kn ret mb mn,
  rel_block s r m ->
  (forall s1 ms1, srel s1 ms1 -> tyext s s1 -> rel_res Q s1 (kb s1) (mb ms1)) ->
  (forall s1 ms1, srel s1 ms1 -> tyext s s1 -> rel_res Q s1 (kn s1) (mn ms1)) ->
  rel_res Q s (rbind r (fun fl s1 => match fl with FBreak => kb s1 | FRet v => ret v s1 | _ => kn s1 end))
    (match m with
     | MROk MFBreak ms1 => mb ms1
     | MROk _ ms1 => mn ms1
     | MRErr ms1 => MRErr ms1 | MRStuck => MRStuck | MRFuel => MRFuel
     end).
Proof.
  intros A B Q s r m kb kn ret mb mn H KB KN. eapply rel_bind; [exact H|].
  intros fl s1 mfl ms1 FR SR T. destruct fl, mfl; try contradiction; auto.
Qed.

Lemma rel_next : forall s ms, srel s ms -> rel_block s (Ok FNext s) (MROk MFNext ms).
Proof. intros. apply rel_ok; [exact I|assumption]. Qed.

Lemma exec_done : forall G en' s ms fl mfl,
  flow_rel fl mfl -> srel s ms -> gok G en' s -> rel_exec G s (Ok (fl, en') s) (MROk (mfl, en') ms).
Proof. intros G en' s ms fl mfl FR SR GK. apply rel_ok; [|exact SR]. split; [reflexivity|split; assumption]. Qed.

(* a statement that runs a block or loop in its own scope: the environment is the one before it *)
Lemma exec_of_block : forall G en s r m,
  gok G en s -> rel_block s r m ->
  rel_exec G s (rbind r (fun fl s => Ok (fl, en) s))
    (match m with MROk fl ms' => MROk (fl, en) ms' | MRErr ms' => MRErr ms' | MRStuck => MRStuck | MRFuel => MRFuel end).
Proof.
  intros G en s r m GK H. eapply rel_bind; [exact H|].
  intros fl s' mfl ms' FR SR T. apply exec_done; eauto using gok_ext.
Qed.

Lemma alloc_sim : forall G en s ms v t x,
  srel s ms -> gok G en s -> okv t v ->
  srel (snd (alloc s v)) (m_alloc ms (repr v)) /\
  gok (upd G x t) ((x, BLoc (length (cells ms))) :: en) (snd (alloc s v)) /\
  tyext s (snd (alloc s v)) /\ has_cell (snd (alloc s v)) (length (cells ms)) t.
Proof.
  intros G en s ms v t x SR HG [W T]. pose proof (srel_len s ms SR) as LEN. destruct SR as [HO HS]. cbn.
  assert (NEW : has_cell {| store := store s ++ [v]; out := out s |} (length (cells ms)) t).
  { exists v. cbn. rewrite <- LEN, nth_error_app2, Nat.sub_diag by lia. auto. }
  assert (EXT : tyext s {| store := store s ++ [v]; out := out s |}).
  { intros a u (w & Nw & Tw). exists w. cbn. rewrite nth_error_app1; auto. apply nth_error_Some. congruence. }
  repeat split; auto.
  - apply Forall2_app; auto. constructor; [split; auto|constructor].
  - intros y u Hy. unfold upd in Hy. cbn [lookup]. destruct (N.eqb y x).
    + inversion Hy; subst. eauto.
    + destruct (HG y u Hy) as (a & L & C). eauto.
Qed.

Lemma m_alloc_len : forall ms m, length (cells (m_alloc ms m)) = S (length (cells ms)).
Proof. intros. cbn. rewrite app_length. cbn. lia. Qed.

Lemma block_ok_cons : forall G lp st r,
  block_ok G lp (st :: r) = true -> exists G', stmt_ok G lp st = Some G' /\ block_ok G' lp r = true.
Proof. intros G lp st r H. cbn [block_ok] in H. destruct (stmt_ok G lp st) as [G'|]; [eauto|discriminate H]. Qed.

(* stmt_ok's local block checker is block_ok *)
Lemma stmt_ok_block : forall G lp ss,
  (fix go (G : tenv) (lp : bool) (ss : list stmt) : bool :=
     match ss with
     | [] => true
     | s :: r => match stmt_ok G lp s with Some G' => go G' lp r | None => false end
     end) G lp ss = block_ok G lp ss.
Proof. intros G lp ss. revert G. induction ss as [|s r IH]; intros G; [reflexivity|]. cbn [block_ok]. destruct (stmt_ok G lp s); auto. Qed.

Lemma one_mod : 1 mod 2^64 = 1.
Proof. reflexivity. Qed.

Lemma to_Z_sim : forall v s, wf v -> is_num (type_of v) = true ->
  exists k, to_Z_res fmt_float v s = Ok k s /\ min64 <= k <= max64 /\ as_int (repr v) = LOk (MI64 (k mod 2^64)).
Proof.
  intros v s W N. destruct v; cbn in N; try discriminate N; unfold to_Z_res.
  - exists z. split; [reflexivity|]. now apply to_i_repr.
  - exists (f_to_Z_sat min64 max64 bits). cbn. split; [reflexivity|]. split; [|reflexivity].
    apply sat_range. unfold min64, max64. lia.
  - exists z. split; [reflexivity|]. now apply to_i_repr.
Qed.

Lemma as_float_sim : forall v, wf v -> is_num (type_of v) = true ->
  exists x, to_f v = Some x /\ as_float (repr v) = LOk (MF64 x).
Proof. intros v W N. destruct (to_f_some v W N) as [x Hx]. eauto using to_f_repr. Qed.

Lemma counter_repr : forall t i, t = TZahl \/ t = TByte -> min64 <= i <= max64 ->
  let w := match t with TByte => VB (wrap8 i) | _ => VZ i end in
  wf w /\ type_of w = t /\
  repr w = match t with TByte => MI8 (trunc64_8 (i mod 2^64)) | _ => MI64 (i mod 2^64) end.
Proof.
  intros t i [-> | ->] Hi; cbn [wf type_of repr].
  - auto.
  - split; [apply wrap8_range|]. split; [reflexivity|]. unfold trunc64_8, wrap8. now rewrite mod_mod_256.
Qed.

Lemma text_elems_ok : forall cs, forallb (fun c => (- 2^31 <=? c) && (c <? 2^31)) cs = true -> Forall (okv TChar) (map VC cs).
Proof.
  intros cs H. apply Forall_map, Forall_forall. intros c Hc.
  apply (proj1 (forallb_forall _ _) H), andb_true_iff in Hc. destruct Hc as [A B].
  apply Z.leb_le in A. apply Z.ltb_lt in B. split; [cbn; lia|reflexivity].
Qed.

Lemma ty_eqb_refl : forall t, ty_eqb t t = true.
Proof. intros. now apply ty_eqb_eq. Qed.

Lemma same_ty_forallb : forall t vs v, Forall (okv t) vs -> type_of v = t ->
  forallb (fun w => ty_eqb (type_of v) (type_of w)) vs = true.
Proof.
  intros t vs v FA TV. apply forallb_forall. intros w Hw.
  destruct (proj1 (Forall_forall _ _) FA w Hw) as [_ TW]. rewrite TV, TW. apply ty_eqb_refl.
Qed.

Lemma evals_sim : forall G en s ms genv t es n,
  srel s ms -> gok G en s ->
  forallb (fun e => match typeof G e with Some te => ty_eqb te t | None => false end) es = true ->
  match evals n genv en s es with
  | Ok vs s' => s' = s /\ Forall (okv t) vs /\ length vs = length es /\ m_evals en ms (map compile_expr es) = MLOk (map repr vs)
  | Fail ELaufzeit s' => s' = s /\ m_evals en ms (map compile_expr es) = MLErr
  | Fail EFuel _ => True
  | Fail (EUndef _) _ => False
  end.
Proof.
  intros G en s ms genv t es. induction es as [|e es IH]; intros [|n] SR GK TY; try exact I.
  - repeat split; auto.
  - rewrite refsem_evals_cons_rule. cbn [forallb] in TY. apply andb_true_iff in TY. destruct TY as [T1 T2].
    destruct (typeof G e) as [te|] eqn:TE; [|discriminate T1]. apply ty_eqb_eq in T1. subst te.
    pose proof (eval_sim G en s ms genv e t n SR GK TE) as HE. cbn [map m_evals].
    destruct (eval n genv en s e) as [v s'|[| g|] s']; cbn [agree rbind] in *; auto.
    + destruct HE as (-> & OV & ->). specialize (IH n SR GK T2).
      destruct (evals n genv en s es) as [vs s'|[| g|] s']; cbn [rbind]; auto.
      * destruct IH as (-> & FA & LN & ->). cbn [map length]. auto.
      * destruct IH as (-> & ->). auto.
    + destruct HE as (-> & ->). auto.
Qed.

(* by induction on the fuel: one statement per interpreter function, each at fuel S n from all of them at n *)
Definition stmt_sim (n : nat) (st : stmt) : Prop :=
  forall G G' lp genv en s ms,
    srel s ms -> gok G en s -> stmt_ok G lp st = Some G' ->
    rel_exec G' s (exec n genv en s st) (mexec n en ms (compile_stmt st)).
Definition P_exec (n : nat) : Prop := forall st, stmt_sim n st.
Definition P_block (n : nat) : Prop :=
  forall G lp genv en s ms ss,
    srel s ms -> gok G en s -> block_ok G lp ss = true ->
    rel_block s (exec_block n genv en s ss) (mblock n en ms (map compile_stmt ss)).
Definition P_while (n : nat) : Prop :=
  forall G genv en s ms c b,
    srel s ms -> gok G en s -> typeof G c = Some TBool -> block_ok G true b = true ->
    rel_block s (loop_while n genv en s c b) (mwhile n en ms (compile_expr c) (map compile_stmt b)).
Definition P_repeat (n : nat) : Prop :=
  forall G genv en s ms k b,
    srel s ms -> gok G en s -> block_ok G true b = true -> 0 <= k <= max64 ->
    rel_block s (loop_repeat n genv en s k b) (mrepeat n en ms (k mod 2^64) (map compile_stmt b)).
Definition P_for_i (n : nat) : Prop :=
  forall G genv en s ms t a i stp to b tq,
    srel s ms -> gok G en s -> (t = TZahl \/ t = TByte) -> has_cell s a t ->
    min64 <= i <= max64 -> min64 <= stp <= max64 ->
    typeof G to = Some tq -> is_num tq = true -> block_ok G true b = true ->
    rel_block s (loop_for_i n genv en s t a i stp to b)
              (mfor_i n en ms t a (i mod 2^64) (stp mod 2^64) (compile_expr to) (map compile_stmt b)).
Definition P_for_k (n : nat) : Prop :=
  forall G genv en s ms a i stp to b tq,
    srel s ms -> gok G en s -> has_cell s a TKomma ->
    typeof G to = Some tq -> is_num tq = true -> block_ok G true b = true ->
    rel_block s (loop_for_k n genv en s a i stp to b)
              (mfor_k n en ms a i stp (compile_expr to) (map compile_stmt b)).
Definition P_each (n : nat) : Prop :=
  forall G genv en s ms a ai elems b t,
    srel s ms -> gok G en s -> block_ok G true b = true -> Forall (okv t) elems ->
    has_cell s a t -> (forall c, ai = Some c -> has_cell s c TZahl) ->
    rel_block s (loop_each n genv en s a ai elems b) (meach n en ms a ai (map repr elems) (map compile_stmt b)).

Lemma block_step : forall n, P_exec n -> P_block n -> P_block (S n).
Proof.
  intros n IHe IHb G lp genv en s ms [|st r] SR GK OK; cbn [map mblock].
  - rewrite refsem_block_nil_rule. now apply rel_next.
  - destruct (block_ok_cons _ _ _ _ OK) as (G' & OKs & OKr). rewrite refsem_block_cons_rule.
    eapply rel_bind; [apply (IHe st G G' lp); eassumption|].
    intros [fl en'] s' [mfl men] ms' (E & FR & GK') SR' _. cbn [fst snd] in *. subst men.
    destruct fl, mfl; try contradiction.
    + apply (IHb G' lp); assumption.
    + apply rel_ok; [exact I|assumption].
    + apply rel_ok; [exact I|assumption].
Qed.

Lemma while_step : forall n, P_block n -> P_while n -> P_while (S n).
Proof.
  intros n IHb IHw G genv en s ms c b SR GK TC OK. rewrite refsem_while_rule. cbn [mwhile].
  eapply eval_bind; eauto. intros v [Wv Tv]. cbv beta. destruct v; try discriminate Tv. destruct b0; cbn [repr].
  - eapply flow_dispatch; [apply (IHb G true); assumption| |]; intros s1 ms1 SR1 T1.
    + now apply rel_next.
    + apply (IHw G); eauto using gok_ext.
  - now apply rel_next.
Qed.

Lemma repeat_step : forall n, P_block n -> P_repeat n -> P_repeat (S n).
Proof.
  intros n IHb IHr G genv en s ms k b SR GK OK HK. rewrite refsem_repeat_rule. cbn [mrepeat].
  assert (DEC : sub64 (k mod 2^64) 1 = (k - 1) mod 2^64) by (unfold sub64, m64; now rewrite Zminus_mod_idemp_l).
  rewrite DEC. unfold max64 in HK. rewrite (Z.mod_small k) by lia.
  destruct (Z.leb_spec k 0) as [K|K].
  - replace k with 0 by lia. now apply rel_next.
  - replace (k =? 0) with false by (symmetry; apply Z.eqb_neq; lia).
    eapply flow_dispatch; [apply (IHb G true); assumption| |]; intros s1 ms1 SR1 T1.
    + now apply rel_next.
    + apply (IHr G); eauto using gok_ext. unfold max64. lia.
Qed.

Lemma fori_step : forall n, P_block n -> P_for_i n -> P_for_i (S n).
Proof.
  intros n IHb IHf G genv en s ms t a i stp to b tq SR GK TT HA HI HS TQ NQ OK.
  rewrite refsem_fori_rule. cbn [mfor_i].
  eapply eval_bind; eauto. intros tv [Wv Tv]. cbv beta.
  destruct (to_Z_sim tv s Wv ltac:(rewrite Tv; exact NQ)) as (lim & HL & RL & AL).
  rewrite HL, AL. cbn [rbind].
  rewrite (icmp_slt0 stp HS), (icmp_sge i lim HI RL), (icmp_sle i lim HI RL).
  destruct (if stp <? 0 then i >=? lim else i <=? lim); [|now apply rel_next].
  eapply flow_dispatch; [apply (IHb G true); assumption| |]; intros s1 ms1 SR1 T1; [now apply rel_next|].
  cbv zeta. rewrite add64_wrap.
  destruct (counter_repr t (wrap64 (i + stp)) TT (wrap64_in64 _)) as (Ww & Tw & Rw). rewrite <- Rw.
  apply write_bind_sim with (ms := ms1); [assumption|rewrite Tw; auto|exact Ww|]. intros s2 SR2 T2.
  apply (IHf G _ _ _ _ _ _ _ _ _ _ tq); eauto using gok_ext, tyext_trans. apply wrap64_in64.
Qed.

Lemma fork_step : forall n, P_block n -> P_for_k n -> P_for_k (S n).
Proof.
  intros n IHb IHf G genv en s ms a i stp to b tq SR GK HA TQ NQ OK.
  rewrite refsem_forkomma_rule. cbn [mfor_k].
  eapply eval_bind; eauto. intros tv [Wv Tv]. cbv beta.
  destruct (as_float_sim tv Wv ltac:(rewrite Tv; exact NQ)) as (lim & HL & AL). rewrite HL, AL. cbn [fcmp].
  destruct (if f_lt stp f_pos_zero then f_ge i lim else f_le i lim); [|now apply rel_next].
  eapply flow_dispatch; [apply (IHb G true); assumption| |]; intros s1 ms1 SR1 T1; [now apply rel_next|].
  cbv zeta. apply write_bind_sim with (ms := ms1) (w := VK (f_add i stp)); [assumption|auto|apply wf_fadd|]. intros s2 SR2 T2.
  apply (IHf G _ _ _ _ _ _ _ _ _ tq); eauto using gok_ext, tyext_trans.
Qed.

Lemma each_step : forall n, P_block n -> P_each n -> P_each (S n).
Proof.
  intros n IHb IHx G genv en s ms a ai [|v rest] b t SR GK OK FA HA HI; cbn [map meach].
  - rewrite refsem_foreach_nil_rule. now apply rel_next.
  - rewrite refsem_foreach_rule. destruct (Forall_inv FA) as [Wv Tv]. pose proof (Forall_inv_tail FA) as FR.
    apply write_bind_sim with (ms := ms); [assumption|rewrite Tv; exact HA|exact Wv|]. intros s1 SR1 T1.
    eapply flow_dispatch; [apply (IHb G true); eauto using gok_ext| |]; intros s2 ms2 SR2 T2; [now apply rel_next|].
    assert (T : tyext s s2) by eauto using tyext_trans.
    destruct ai as [c|].
    + (* the index variable is loaded, incremented and stored *)
      destruct (T c TZahl (HI c eq_refl)) as (iv & Ni & Ti). destruct (srel_cell s2 ms2 c iv SR2 Ni) as [_ Nm].
      destruct iv; try discriminate Ti. cbn [read_bind]. rewrite Ni, Nm. cbn [rbind repr].
      replace (MI64 (add64 (z mod 2^64) 1)) with (repr (VZ (wrap64 (z + 1))))
        by (cbn [repr]; f_equal; symmetry; apply (add64_wrap z 1)).
      apply write_bind_sim with (ms := ms2); [assumption|exists (VZ z); auto|apply wrap64_in64|]. intros s3 SR3 T3.
      apply (IHx G _ _ _ _ _ _ _ _ t); eauto 6 using gok_ext, tyext_trans.
    + cbn [rbind]. apply (IHx G _ _ _ _ _ _ _ _ t); eauto using gok_ext.
Qed.

(* for-each once the elements are known: the loop variable (and the index variable) are allocated, then the loop *)
Lemma foreach_tail : forall n, P_each n -> forall G genv en s ms t x idx vs b,
  srel s ms -> gok G en s -> Forall (okv t) vs ->
  block_ok (match idx with Some ix => upd (upd G x t) ix TZahl | None => upd G x t end) true b = true ->
  rel_exec G s
    (match vs with
     | [] => Ok (FNext, en) s
     | v0 :: _ =>
         let (a, s) := alloc s v0 in
         let en1 := (x, BLoc a) :: en in
         match idx with
         | None => rbind (loop_each n genv en1 s a None vs b) (fun fl s => Ok (fl, en) s)
         | Some ix =>
             let (ai, s) := alloc s (VZ 1) in
             rbind (loop_each n genv ((ix, BLoc ai) :: en1) s a (Some ai) vs b) (fun fl s => Ok (fl, en) s)
         end
     end)
    (match map repr vs with
     | [] => MROk (MFNext, en) ms
     | m0 :: rest =>
         let a := length (cells ms) in
         let ms1 := m_alloc ms m0 in
         let en1 := (x, BLoc a) :: en in
         match idx with
         | None => mr_env en (meach n en1 ms1 a None (m0 :: rest) (map compile_stmt b))
         | Some ix => mr_env en (meach n ((ix, BLoc (S a)) :: en1) (m_alloc ms1 (MI64 1)) a (Some (S a)) (m0 :: rest) (map compile_stmt b))
         end
     end).
Proof.
  intros n IHx G genv en s ms t x idx [|v0 rest] b SR GK FA OKb; cbn [map].
  - now apply exec_done.
  - destruct (alloc_sim G en s ms v0 t x SR GK (Forall_inv FA)) as (SR1 & GK1 & T1 & C1).
    cbn [alloc]. rewrite (srel_len s ms SR). cbv zeta. cbn [alloc snd] in *.
    destruct idx as [ix|].
    + assert (W1 : okv TZahl (VZ 1)) by (split; [cbn; unfold min64, max64; lia|reflexivity]).
      destruct (alloc_sim _ _ _ _ (VZ 1) TZahl ix SR1 GK1 W1) as (SR2 & GK2 & T2 & C2).
      cbn [alloc snd] in *. rewrite (srel_len _ _ SR1), m_alloc_len in *.
      eapply rel_base; [eapply tyext_trans; eassumption|].
      apply exec_of_block; [eauto using gok_ext, tyext_trans|].
      apply (IHx (upd (upd G x t) ix TZahl) _ _ _ _ _ _ (v0 :: rest) _ t); auto.
      intros c E. inversion E; subst c. exact C2.
    + eapply rel_base; [exact T1|].
      apply exec_of_block; [eauto using gok_ext|].
      apply (IHx (upd G x t) _ _ _ _ _ _ (v0 :: rest) _ t); auto.
      intros c E. discriminate E.
Qed.

Lemma decl_sim : forall n t x e, stmt_sim (S n) (SDecl t x e).
Proof.
  intros n t x e G G' lp genv en s ms SR GK OK. cbn [stmt_ok] in OK.
  destruct (typeof G e) as [te|] eqn:TE; [|discriminate OK].
  destruct (assignable t te) eqn:AS; [|discriminate OK]. injection OK as <-.
  rewrite refsem_decl_rule. cbn [compile_stmt mexec]. eapply eval_bind; eauto. intros v OV. cbv beta.
  destruct (coerce_sim t te v OV AS) as (w & -> & OW & ->). cbn [lift rbind alloc].
  destruct (alloc_sim G en s ms w t x SR GK OW) as (SR1 & GK1 & T1 & _). rewrite (srel_len s ms SR).
  eapply rel_base; [exact T1|]. now apply exec_done.
Qed.

Lemma assign_sim : forall n l e, stmt_sim (S n) (SAssign l e).
Proof.
  intros n l e G G' lp genv en s ms SR GK OK. cbn [stmt_ok] in OK.
  destruct l as [x|x i]; [|discriminate OK].
  destruct (G x) as [t|] eqn:GX; [|discriminate OK].
  destruct (typeof G e) as [te|] eqn:TE; [|discriminate OK].
  destruct (assignable t te) eqn:AS; [|discriminate OK]. injection OK as <-.
  rewrite refsem_assign_rule. cbn [compile_stmt mexec]. eapply eval_bind; eauto. intros v OV. cbv beta.
  destruct (GK x t GX) as (a & -> & old & N & T). destruct (srel_cell s ms a old SR N) as [Wo ->].
  cbn [read_bind]. rewrite N. cbn [rbind]. rewrite (mty_repr old Wo), T.
  destruct (coerce_sim t te v OV AS) as (w & -> & [Ww Tw] & ->). cbn [lift rbind].
  apply write_bind_sim with (ms := ms); [exact SR|exists old; split; congruence|exact Ww|]. intros s1 SR1 T1.
  apply exec_done; [exact I|exact SR1|eauto using gok_ext].
Qed.

Lemma if_sim : forall n c th el, P_block n -> stmt_sim (S n) (SIf c th el).
Proof.
  intros n c th el IHb G G' lp genv en s ms SR GK OK.
  cbn [stmt_ok] in OK. rewrite (stmt_ok_block G lp th), (stmt_ok_block G lp el) in OK.
  destruct (typeof G c) as [[]|] eqn:TC; try discriminate OK.
  destruct (block_ok G lp th && block_ok G lp el) eqn:BB; [|discriminate OK]. injection OK as <-.
  apply andb_true_iff in BB. destruct BB as [B1 B2].
  rewrite refsem_if_rule. cbn [compile_stmt mexec]. eapply eval_bind; eauto. intros v [Wv Tv]. cbv beta.
  destruct v; try discriminate Tv.
  apply exec_of_block; [exact GK|]. destruct b; apply (IHb G lp); assumption.
Qed.

Lemma while_sim : forall n c b, P_while n -> stmt_sim (S n) (SWhile c b).
Proof.
  intros n c b IHw G G' lp genv en s ms SR GK OK. cbn [stmt_ok] in OK. rewrite stmt_ok_block in OK.
  destruct (typeof G c) as [[]|] eqn:TC; try discriminate OK.
  destruct (block_ok G true b) eqn:BB; [|discriminate OK]. injection OK as <-.
  rewrite refsem_while_stmt_rule. cbn [compile_stmt mexec]. apply exec_of_block; [exact GK|]. now apply (IHw G).
Qed.

Lemma dowhile_sim : forall n b c, P_block n -> P_while n -> stmt_sim (S n) (SDoWhile b c).
Proof.
  intros n b c IHb IHw G G' lp genv en s ms SR GK OK. cbn [stmt_ok] in OK. rewrite stmt_ok_block in OK.
  destruct (typeof G c) as [[]|] eqn:TC; try discriminate OK.
  destruct (block_ok G true b) eqn:BB; [|discriminate OK]. injection OK as <-.
  rewrite refsem_dowhile_rule. cbn [compile_stmt mexec].
  eapply flow_dispatch; [apply (IHb G true); assumption| |]; intros s1 ms1 SR1 T1.
  - apply exec_done; [exact I|exact SR1|eauto using gok_ext].
  - apply exec_of_block; [eauto using gok_ext|]. apply (IHw G); eauto using gok_ext.
Qed.

Lemma repeat_sim : forall n c b, P_repeat n -> stmt_sim (S n) (SRepeat c b).
Proof.
  intros n c b IHr G G' lp genv en s ms SR GK OK. cbn [stmt_ok] in OK. rewrite stmt_ok_block in OK.
  destruct (typeof G c) as [tc|] eqn:TC; [|discriminate OK].
  assert (TI : is_int tc = true) by (destruct tc; try discriminate OK; reflexivity).
  assert (BB : block_ok G true b = true /\ G' = G).
  { destruct tc; try discriminate OK; destruct (block_ok G true b); inversion OK; auto. }
  destruct BB as [BB ->].
  rewrite refsem_repeat_stmt_rule. cbn [compile_stmt mexec]. eapply eval_bind; eauto. intros v [Wv Tv]. cbv beta.
  assert (TK : exists k, to_i v = Some k) by (destruct v; subst tc; try discriminate TI; cbn; eauto).
  destruct TK as [k TK]. destruct (to_i_repr v k Wv TK) as [RK ->]. rewrite TK.
  destruct (Z.ltb_spec k 0) as [KN|KN]; [exact I|].
  apply exec_of_block; [exact GK|]. apply (IHr G); auto. lia.
Qed.

Lemma for_sim : forall n t x from to step b, P_for_i n -> P_for_k n -> stmt_sim (S n) (SFor t x from to step b).
Proof.
  intros n t x from to step body IHfi IHfk G G' lp genv en s ms SR GK OK. cbn [stmt_ok] in OK. rewrite stmt_ok_block in OK.
  cbn [compile_stmt].
  destruct (typeof G from) as [tf|] eqn:TF; [|discriminate OK].
  destruct (typeof (upd G x t) to) as [tq|] eqn:TQ; [|discriminate OK].
  match type of OK with (if ?c then _ else _) = _ => destruct c eqn:BB; [|discriminate OK] end. injection OK as <-.
  apply andb_true_iff in BB. destruct BB as [BB OKb]. apply andb_true_iff in BB. destruct BB as [BB STP].
  apply andb_true_iff in BB. destruct BB as [BB NQ]. apply andb_true_iff in BB. destruct BB as [NT AS].
  rewrite refsem_for_rule. cbn [mexec]. eapply eval_bind; eauto. intros v OV. cbv beta.
  destruct (coerce_sim t tf v OV AS) as (w & -> & OW & ->). cbn [lift rbind alloc]. cbv zeta.
  destruct (alloc_sim G en s ms w t x SR GK OW) as (SR1 & GK1 & T1 & C1). rewrite (srel_len s ms SR).
  cbn [alloc snd] in *. eapply rel_base; [exact T1|].
  set (a := length (cells ms)) in *. set (en' := (x, BLoc a) :: en) in *.
  set (s1 := {| store := store s ++ [w]; out := out s |}) in *. set (ms1 := m_alloc ms (repr w)) in *.
  (* both sides go on with the step value [sv]; their continuations, named from the goal, agree on every numeric [sv] *)
  match goal with |- rel_res _ _ (rbind _ ?K) (match _ with MOk sv => @?KM sv | MErr => _ | MStuck => _ end) =>
    assert (LOOP : forall sv, wf sv -> is_num (type_of sv) = true -> rel_exec G s1 (K sv s1) (KM (repr sv)))
  end.
  { intros sv Wsv Nsv. cbv beta. destruct OW as [Ww Tw].
    assert (GKo : gok G en s1) by eauto using gok_ext.
    destruct t; try discriminate NT.
    - destruct (to_Z_sim sv s1 Wsv Nsv) as (stp & -> & RS & ->).
      destruct w; try discriminate Tw. destruct (to_i_repr (VZ z) z Ww eq_refl) as [RZ ->]. cbn [to_i rbind].
      apply exec_of_block; [exact GKo|]. apply (IHfi (upd G x TZahl) _ _ _ _ _ _ _ _ _ _ tq); auto.
    - destruct (as_float_sim sv Wsv Nsv) as (stp & -> & ->).
      destruct w; try discriminate Tw. cbn [repr].
      apply exec_of_block; [exact GKo|]. apply (IHfk (upd G x TKomma) _ _ _ _ _ _ _ _ _ tq); auto.
    - destruct (to_Z_sim sv s1 Wsv Nsv) as (stp & -> & RS & ->).
      destruct w; try discriminate Tw. destruct (to_i_repr (VB z) z Ww eq_refl) as [RZ ->]. cbn [to_i rbind].
      apply exec_of_block; [exact GKo|]. apply (IHfi (upd G x TByte) _ _ _ _ _ _ _ _ _ _ tq); auto. }
  destruct step as [se|].
  + destruct (typeof (upd G x t) se) as [ts|] eqn:TS; [|discriminate STP].
    eapply eval_bind; eauto. intros sv [Wsv Tsv]. cbv beta. apply LOOP; [exact Wsv|now rewrite Tsv].
  + assert (DS : wf (default_step t) /\ is_num (type_of (default_step t)) = true /\
                 m_default_step t = repr (default_step t)).
    { destruct t; try discriminate NT; (split; [|split; reflexivity]);
        [|apply f_of_Z_canon|]; cbn; unfold min64, max64; lia. }
    destruct DS as (Wd & Nd & ->). cbn [rbind]. now apply LOOP.
Qed.

Lemma foreach_sim : forall n t x idx e b, P_each n -> stmt_sim (S n) (SForEach t x idx e b).
Proof.
  intros n t x idx e body IHx G G' lp genv en s ms SR GK OK. cbn [stmt_ok] in OK. rewrite stmt_ok_block in OK.
  cbn [compile_stmt].
  match type of OK with (if ?c then _ else _) = _ => destruct c eqn:BB; [|discriminate OK] end. injection OK as <-.
  apply andb_true_iff in BB. destruct BB as [BB OKb]. apply andb_true_iff in BB. destruct BB as [ST SRC].
  rewrite refsem_foreach_stmt_rule. destruct n as [|n']; [exact I|].
  destruct e; try discriminate SRC.
  + (* Text literal *)
    apply andb_true_iff in SRC. destruct SRC as [TC RG].
    change (eval (S n') genv en s (EText cs)) with (Ok (VT cs) s). cbn [rbind mexec]. rewrite TC. cbn [rbind].
    apply ty_eqb_eq in TC. subst t.
    replace (map (fun c => MI32 (c mod 2^32)) cs) with (map repr (map VC cs)) by (rewrite map_map; reflexivity).
    apply (foreach_tail (S n') IHx G genv en s ms TChar x idx (map VC cs) body SR GK (text_elems_ok cs RG) OKb).
  + (* list literal *)
    destruct es as [|e0 es]; [discriminate SRC|].
    rewrite refsem_listlit_rule. cbn [mexec].
    pose proof (evals_sim G en s ms genv t (e0 :: es) n' SR GK SRC) as HV.
    destruct (evals n' genv en s (e0 :: es)) as [vs s'|[| g|] s']; cbn [rbind]; try contradiction; try exact I.
    * destruct HV as (-> & FA & LN & ->). destruct vs as [|v vs']; [discriminate LN|].
      destruct (Forall_inv FA) as [Wv Tv].
      rewrite (same_ty_forallb t (v :: vs') v FA Tv). cbn [rbind]. rewrite Tv, ty_eqb_refl. cbn [rbind].
      apply (foreach_tail (S n') IHx G genv en s ms t x idx (v :: vs') body SR GK FA OKb).
    * destruct HV as (-> & ->). exists ms. split; [reflexivity|apply SR].
Qed.

Lemma print_sim : forall n e, stmt_sim (S n) (SPrint e).
Proof.
  intros n e G G' lp genv en s ms SR GK OK. cbn [stmt_ok] in OK. cbn [compile_stmt].
  destruct (typeof G e) as [te|] eqn:TE; [|discriminate OK]. injection OK as <-.
  rewrite refsem_print_rule. cbn [mexec]. eapply eval_bind; eauto. intros v [Wv Tv]. cbv beta.
  unfold m_print. rewrite (value_of_repr v Wv).
  destruct (print_bytes fmt_float v) as [[bs|]|g] eqn:PB.
  + destruct SR as [HO HS]. exists (MFNext, en), (m_emit ms bs).
    split; [reflexivity|]. split; [split; [reflexivity|split; [exact I|exact GK]]|].
    split; [split; [cbn; now rewrite HO|exact HS]|]. intros a u C. exact C.
  + destruct v; cbn in Wv; try contradiction; cbn in PB; try discriminate PB. destruct (valid_cp c); discriminate PB.
  + destruct v; cbn in Wv; try contradiction; cbn in PB; try discriminate PB. destruct (valid_cp c); inversion PB. exact I.
Qed.

Lemma exec_step : forall n, P_block n -> P_while n -> P_repeat n -> P_for_i n -> P_for_k n -> P_each n -> P_exec (S n).
Proof.
  intros n IHb IHw IHr IHfi IHfk IHx st.
  destruct st; try (intros G G' lp genv en s ms SR GK OK; discriminate OK).
  - now apply decl_sim.
  - now apply assign_sim.
  - now apply if_sim.
  - now apply while_sim.
  - now apply dowhile_sim.
  - now apply repeat_sim.
  - now apply for_sim.
  - now apply foreach_sim.
  - (* SBreak *) intros G G' lp genv en s ms SR GK OK. cbn [stmt_ok] in OK.
    destruct lp; [|discriminate OK]. injection OK as <-. now apply exec_done.
  - (* SContinue *) intros G G' lp genv en s ms SR GK OK. cbn [stmt_ok] in OK.
    destruct lp; [|discriminate OK]. injection OK as <-. now apply exec_done.
  - (* SBlock *) intros G G' lp genv en s ms SR GK OK. cbn [stmt_ok] in OK. rewrite stmt_ok_block in OK.
    destruct (block_ok G lp body) eqn:BB; [|discriminate OK]. injection OK as <-.
    rewrite refsem_block_stmt_rule. cbn [compile_stmt mexec]. apply exec_of_block; [exact GK|]. now apply (IHb G lp).
  - (* SExpr *) intros G G' lp genv en s ms SR GK OK. cbn [stmt_ok] in OK.
    destruct (typeof G e) as [te|] eqn:TE; [|discriminate OK]. injection OK as <-.
    rewrite refsem_expr_stmt_rule by (intros f args ->; discriminate TE). cbn [compile_stmt mexec].
    eapply eval_bind; eauto. intros v OV. cbv beta. now apply exec_done.
  - now apply print_sim.
Qed.

Definition P_all (n : nat) : Prop :=
  P_exec n /\ P_block n /\ P_while n /\ P_repeat n /\ P_for_i n /\ P_for_k n /\ P_each n.

Lemma sim_all : forall n, P_all n.
Proof.
  induction n as [|n (IHe & IHb & IHw & IHr & IHfi & IHfk & IHx)].
  - (* without fuel every function of RefSem is Fail EFuel, about which rel_res claims nothing *)
    repeat split; intros until 0; intros; exact I.
  - repeat split; auto using exec_step, block_step, while_step, repeat_step, fori_step, fork_step, each_step.
Qed.

Definition init_state : state := {| store := []; out := [] |}.
Definition init_mstate : mstate := {| cells := []; mout := [] |}.

Definition observe (r : res flow) : option (bool * list Z) :=       (* (Laufzeitfehler?, stdout) *)
  match r with
  | Ok _ s => Some (false, rev (out s))
  | Fail ELaufzeit s => Some (true, rev (out s))
  | _ => None
  end.
Definition m_observe (r : mr mflow) : option (bool * list Z) :=
  match r with
  | MROk _ ms => Some (false, rev (mout ms))
  | MRErr ms => Some (true, rev (mout ms))
  | _ => None
  end.

Theorem program_preservation_scalar : forall fuel ss o,
  block_ok (fun _ => None) false ss = true ->
  observe (exec_block fuel [] [] init_state ss) = Some o ->
  m_observe (mblock fuel [] init_mstate (map compile_stmt ss)) = Some o.
Proof.
  intros fuel ss o OK H.
  destruct (sim_all fuel) as (_ & PB & _).
  assert (SR : srel init_state init_mstate) by (split; [reflexivity|constructor]).
  assert (GK : gok (fun _ => None) [] init_state) by (intros x t Hx; discriminate Hx).
  pose proof (PB (fun _ => None) false [] [] init_state init_mstate ss SR GK OK) as R.
  destruct (exec_block fuel [] [] init_state ss) as [fl s|[| g|] s]; try discriminate H; cbn in H.
  - destruct R as (mfl & ms & -> & _ & [HO _] & _). cbn. now rewrite <- HO.
  - destruct R as (ms & -> & HO). cbn. now rewrite <- HO.
Qed.

End Machine.
