(* C08 — the -O2 parameter-copy elision as a simulation.
   The elide-mode state is the copy-mode state with the buffers of the elided ("borrowed") parameters
   replaced by handles on the lenders' buffers:  se = patch B sc.  Every operation commutes with
   `patch B` as long as nothing writes through a borrowed parameter or a lender.  This file holds those
   equations; the theorem elision_sound is in Opt2Full.v. *)
From Coq Require Import List ZArith Bool Arith Lia.
Import ListNotations.
From DDP Require Import Lower.ListFacts Lower.Opt2 Lower.Opt2Base Lower.Opt2Fbase Lower.Opt2Copy Lower.Opt2Safe.

(* one elided parameter: its variable, the lender's variable, the buffer the copy-mode run gave the
   parameter, the lender's buffer *)
Record borrow := mkB { b_pa : nat; b_al : nat; b_lc : nat; b_ll : nat }.

Fixpoint patchh (B : list borrow) (h : list cell) : list cell :=
  match B with
  | [] => h
  | b :: r => upd (patchh r h) (b_lc b) (Alias (b_ll b))
  end.
Definition patch (B : list borrow) (sc : state) : state := set_heap sc (patchh B (heap sc)).

Lemma patchh_length : forall B h, length (patchh B h) = length h.
Proof. induction B as [|b B IH]; cbn; intros; auto. rewrite upd_length. auto. Qed.

Lemma patchh_out : forall B h l, ~ In l (map b_lc B) -> nth_error (patchh B h) l = nth_error h l.
Proof.
  induction B as [|b B IH]; cbn; intros h l H; auto.
  rewrite nth_error_upd_neq by tauto. apply IH. tauto.
Qed.

Lemma patchh_in : forall B h b, NoDup (map b_lc B) -> In b B -> b_lc b < length h ->
  nth_error (patchh B h) (b_lc b) = Some (Alias (b_ll b)).
Proof.
  induction B as [|b0 B IH]; cbn; intros h b Hnd Hin Hl; [contradiction|]. inv Hnd.
  destruct Hin as [->|Hin].
  - apply nth_error_upd_eq. rewrite patchh_length. auto.
  - rewrite nth_error_upd_neq. { apply IH; auto. }
    intros E. apply H1. rewrite E. apply in_map. auto.
Qed.

Lemma patchh_app : forall B h c, (forall b, In b B -> b_lc b < length h) -> patchh B (h ++ [c]) = patchh B h ++ [c].
Proof.
  induction B as [|b B IH]; cbn; intros h c H; auto.
  rewrite IH by auto. apply upd_app_l. rewrite patchh_length. auto.
Qed.

Lemma patchh_upd : forall B h l c, ~ In l (map b_lc B) -> patchh B (upd h l c) = upd (patchh B h) l c.
Proof.
  induction B as [|b B IH]; cbn; intros h l c H; auto.
  rewrite IH by tauto. clear IH. generalize (patchh B h). intros g.
  assert (Hne : b_lc b <> l) by tauto. clear H. revert l Hne. generalize (b_lc b).
  induction g as [|x g IHg]; intros [|n] [|l] Hne; cbn; auto; try congruence. f_equal. apply IHg. congruence.
Qed.

Lemma patch_nil : forall sc, patch [] sc = sc.
Proof. intros [v h t o]. reflexivity. Qed.

(* the invariant tying the borrows to the copy-mode state: the parameter holds its own copy, the lender holds a
   buffer with the same contents; a lender is never itself a borrowed parameter and its buffer never a borrowed copy
   (`lender` below resolves chains), so a handle never points to a handle *)
Definition Binv (B : list borrow) (sc : state) : Prop :=
  NoDup (map b_lc B) /\
  forall b, In b B ->
    ptr_at sc (b_pa b) (b_lc b) /\ ptr_at sc (b_al b) (b_ll b) /\
    (exists c, nth_error (heap sc) (b_lc b) = Some (Live c) /\ nth_error (heap sc) (b_ll b) = Some (Live c)) /\
    ~ In (b_al b) (map b_pa B) /\ ~ In (b_ll b) (map b_lc B).

Definition safe_addr (B : list borrow) (a : nat) : Prop := ~ In a (map b_pa B) /\ ~ In a (map b_al B).

Lemma safe_addr_neq : forall B a b, safe_addr B a -> In b B -> b_pa b <> a /\ b_al b <> a.
Proof. intros B a b [N1 N2] Hb. split; intros E; [apply N1|apply N2]; rewrite <- E; apply in_map; auto. Qed.

Lemma safe_addr_intro : forall B a, (forall b, In b B -> b_pa b <> a /\ b_al b <> a) -> safe_addr B a.
Proof.
  intros B a H. split; intros Hi; apply in_map_iff in Hi; destruct Hi as (b & E & Hb); destruct (H b Hb); auto.
Qed.

Lemma safe_addr_app : forall B1 B2 a, safe_addr (B1 ++ B2) a <-> safe_addr B1 a /\ safe_addr B2 a.
Proof. intros B1 B2 a. unfold safe_addr. rewrite !map_app, !in_app_iff. tauto. Qed.

Lemma Binv_nil : forall sc, Binv [] sc.
Proof. intros. split; [constructor | intros b []]. Qed.

Lemma Binv_lc_lt : forall B sc b, Binv B sc -> In b B -> b_lc b < length (heap sc).
Proof. intros B sc b [_ H] Hin. destruct (H b Hin) as (_ & _ & (c & Hc & _) & _). eapply nth_error_lt; eauto. Qed.

Lemma Binv_ll_notlc : forall B sc b, Binv B sc -> In b B -> ~ In (b_ll b) (map b_lc B).
Proof. intros B sc b [Hnd H] Hin. destruct (H b Hin) as (_ & _ & _ & _ & N). exact N. Qed.

(* a buffer owned by an address that is neither a borrowed parameter nor a lender is not involved *)
Lemma safe_loc : forall X B sc a l, Sep X sc -> Binv B sc -> safe_addr B a -> ptr_at sc a l ->
  ~ In l (map b_lc B) /\ ~ In l (map b_ll B).
Proof.
  intros X B sc a l HS [Hnd H] [S1 S2] Hp. split; intros Hi; apply in_map_iff in Hi; destruct Hi as (b & E & Hin);
    destruct (H b Hin) as (P1 & P2 & _).
  - rewrite E in P1. apply S1. rewrite (sep_inj _ _ HS _ _ _ Hp P1). apply in_map. auto.
  - rewrite E in P2. apply S2. rewrite (sep_inj _ _ HS _ _ _ Hp P2). apply in_map. auto.
Qed.

(* buffers held by temporaries / extra owners are not involved either *)
Lemma owner_loc : forall X B sc l, Sep X sc -> Binv B sc -> In l (tmps sc ++ X) ->
  ~ In l (map b_lc B) /\ ~ In l (map b_ll B).
Proof.
  intros X B sc l HS [Hnd H] Hl. split; intros Hi; apply in_map_iff in Hi; destruct Hi as (b & E & Hin);
    destruct (H b Hin) as (P1 & P2 & _).
  - rewrite E in P1. exact (sep_xvar _ _ HS _ _ P1 Hl).
  - rewrite E in P2. exact (sep_xvar _ _ HS _ _ P2 Hl).
Qed.

Lemma Binv_keeps : forall B sc sc',
  Binv B sc -> (forall b, In b B -> keeps sc sc' (b_pa b) /\ keeps sc sc' (b_al b)) -> Binv B sc'.
Proof.
  intros B sc sc' [Hnd H] K. split; auto. intros b Hin.
  destruct (H b Hin) as (P1 & P2 & (c & C1 & C2) & N). destruct (K b Hin) as ((K1 & K2) & (K3 & K4)).
  unfold ptr_at in *. split; [congruence|split; [congruence|split; [|auto]]].
  exists c. rewrite (K2 _ P1), (K4 _ P2). auto.
Qed.

Definition lift0 (B : list borrow) (r : res state) : res state :=
  match r with Ok s => Ok (patch B s) | Er e => Er e end.
Definition lift1 {A} (B : list borrow) (r : res (A * state)) : res (A * state) :=
  match r with Ok (a, s) => Ok (a, patch B s) | Er e => Er e end.

Lemma lift0_nil : forall r, lift0 [] r = r.
Proof. intros [s|er]; cbn; [rewrite patch_nil|]; auto. Qed.

Lemma lift0_keeps_ok : forall B r sc', lift0 B r = Ok sc' -> exists s, r = Ok s.
Proof. intros B [s|er] sc' H; [eauto|discriminate H]. Qed.

Lemma target_patch : forall B sc l, Binv B sc -> live sc l ->
  nth_error (heap (patch B sc)) (target l (patch B sc)) = nth_error (heap sc) l.
Proof.
  intros B sc l HB [c Hc]. unfold target. cbn.
  destruct (in_dec Nat.eq_dec l (map b_lc B)) as [Hi|Hn].
  - apply in_map_iff in Hi. destruct Hi as (b & <- & Hin).
    rewrite patchh_in; [|apply HB|auto|eapply Binv_lc_lt; eauto].
    rewrite patchh_out by (eapply Binv_ll_notlc; eauto).
    destruct HB as [_ H]. destruct (H b Hin) as (_ & _ & (c' & C1 & C2) & _). congruence.
  - rewrite (patchh_out B (heap sc) l) by auto. rewrite Hc. rewrite patchh_out by auto. auto.
Qed.

Lemma read_patch : forall B sc l, Binv B sc -> live sc l -> read l (patch B sc) = read l sc.
Proof.
  intros B sc l HB Hl. unfold read at 1. rewrite target_patch; auto.
  destruct Hl as [c Hc]. rewrite Hc. symmetry. apply read_live. auto.
Qed.

Lemma alloc_patch : forall B sc c l sc', Binv B sc -> alloc c sc = (l, sc') -> alloc c (patch B sc) = (l, patch B sc').
Proof.
  intros B sc c l sc' HB H. unfold alloc in *. inv H. cbn. rewrite patchh_length. f_equal.
  unfold patch, set_heap. cbn. rewrite patchh_app; auto. intros b Hb. eapply Binv_lc_lt; eauto.
Qed.

Lemma alloc_alias_patch : forall BB sc c t l sc' pa al,
  Binv BB sc -> alloc (Live c) sc = (l, sc') ->
  alloc (Alias t) (patch BB sc) = (l, patch (mkB pa al l t :: BB) sc').
Proof.
  intros BB sc c t l sc' pa al HB H. unfold alloc in *. inv H. cbn. rewrite patchh_length. f_equal.
  unfold patch, set_heap. cbn. f_equal.
  rewrite patchh_app by (intros b Hb; eapply Binv_lc_lt; eauto).
  rewrite <- (patchh_length BB (heap sc)). generalize (patchh BB (heap sc)). intros g.
  induction g as [|x g IH]; cbn; auto. f_equal. auto.
Qed.

Lemma free_patch : forall B sc l, live sc l -> ~ In l (map b_lc B) -> free l (patch B sc) = lift0 B (free l sc).
Proof.
  intros B sc l [c Hc] Hn. unfold free. cbn. rewrite patchh_out by auto. rewrite Hc. cbn.
  unfold patch, set_heap. cbn. rewrite patchh_upd; auto.
Qed.

Lemma write_patch : forall B sc l c, live sc l -> ~ In l (map b_lc B) ->
  write l c (patch B sc) = lift0 B (write l c sc).
Proof.
  intros B sc l c Hl Hn. unfold write.
  assert (T1 : target l (patch B sc) = l).
  { unfold target. cbn. rewrite patchh_out by auto. destruct Hl as [c0 H0]. rewrite H0. auto. }
  rewrite T1, (target_live sc l) by auto. cbn. rewrite patchh_out by auto.
  destruct Hl as [c0 H0]. rewrite H0. cbn. unfold patch, set_heap. cbn. rewrite patchh_upd; auto.
Qed.

Lemma get_slot_patch : forall B sc a, get_slot a (patch B sc) = get_slot a sc.
Proof. reflexivity. Qed.
Lemma set_slot_patch : forall B sc a s, set_slot a s (patch B sc) = patch B (set_slot a s sc).
Proof. reflexivity. Qed.
Lemma add_tmp_patch : forall B sc l, add_tmp l (patch B sc) = patch B (add_tmp l sc).
Proof. reflexivity. Qed.
Lemma claim_patch : forall B sc l, claim l (patch B sc) = patch B (claim l sc).
Proof. reflexivity. Qed.
Lemma add_out_patch : forall B sc o, add_out (patch B sc) o = patch B (add_out sc o).
Proof. reflexivity. Qed.
Lemma set_tmps_patch : forall B sc t, set_tmps (patch B sc) t = patch B (set_tmps sc t).
Proof. reflexivity. Qed.
Lemma new_var_patch : forall B sc s a sc', new_var s sc = (a, sc') -> new_var s (patch B sc) = (a, patch B sc').
Proof. intros B sc s a sc' H. unfold new_var in *. inv H. reflexivity. Qed.

Lemma Binv_ext : forall X B sc sc', Sep X sc -> Binv B sc -> ext sc sc' -> Binv B sc'.
Proof. intros X B sc sc' HS HB He. eapply Binv_keeps; eauto. intros b _. split; eapply ext_keeps; eauto. Qed.

Lemma eval_patch : forall X B e x sc, Sep X sc -> Binv B sc -> eval e x (patch B sc) = lift1 B (eval e x sc).
Proof.
  intros X B e x. induction x as [z|y|c|a IHa b IHb|a IHa i IHi|a IHa]; intros sc HS HB; cbn [eval].
  - reflexivity.
  - destruct (lookup e y) as [ad|]; [|reflexivity]. rewrite get_slot_patch.
    destruct (get_slot ad sc) as [[z|l|]|er]; reflexivity.
  - destruct (alloc (Live c) sc) as [l sc1] eqn:Ea. rewrite (alloc_patch _ _ _ _ _ HB Ea). reflexivity.
  - rewrite IHa by auto. destruct (eval e a sc) as [[va st1]|er] eqn:E1; [|reflexivity]. cbn [lift1 bind].
    destruct (eval_spec _ _ _ _ _ _ E1 HS) as (S1 & X1 & R1). pose proof (Binv_ext _ _ _ _ HS HB X1) as B1.
    rewrite IHb by auto. destruct (eval e b st1) as [[vb st2]|er] eqn:E2; [|reflexivity]. cbn [lift1 bind].
    destruct (eval_spec _ _ _ _ _ _ E2 S1) as (S2 & X2 & R2). pose proof (Binv_ext _ _ _ _ S1 B1 X2) as B2.
    destruct va as [z|la ta]; [reflexivity|].
    assert (La : live st2 la) by (eapply rv_read_live; [exact S2|eapply rv_ok_ext; eauto]).
    rewrite read_patch by auto. destruct (read la st2) as [ca|er]; [|reflexivity]. cbn [bind].
    assert (Rb : (match vb with RSeq lb _ => read lb (patch B st2) | RInt z => Ok [z] end) =
                 (match vb with RSeq lb _ => read lb st2 | RInt z => Ok [z] end)).
    { destruct vb as [z|lb tb]; [reflexivity|]. apply read_patch; auto. eapply rv_read_live; eauto. }
    rewrite Rb. destruct (match vb with RSeq lb _ => read lb st2 | RInt z => Ok [z] end) as [cb|er]; [|reflexivity]. cbn [bind].
    destruct (alloc (Live (ca ++ cb)) st2) as [l st3] eqn:Ea. rewrite (alloc_patch _ _ _ _ _ B2 Ea). reflexivity.
  - rewrite IHa by auto. destruct (eval e a sc) as [[va st1]|er] eqn:E1; [|reflexivity]. cbn [lift1 bind].
    destruct (eval_spec _ _ _ _ _ _ E1 HS) as (S1 & X1 & R1). pose proof (Binv_ext _ _ _ _ HS HB X1) as B1.
    rewrite IHi by auto. destruct (eval e i st1) as [[vi st2]|er] eqn:E2; [|reflexivity]. cbn [lift1 bind].
    destruct (eval_spec _ _ _ _ _ _ E2 S1) as (S2 & X2 & R2). pose proof (Binv_ext _ _ _ _ S1 B1 X2) as B2.
    destruct va as [z|la ta]; [reflexivity|]. destruct vi as [z|li ti]; [|reflexivity].
    assert (La : live st2 la) by (eapply rv_read_live; [exact S2|eapply rv_ok_ext; eauto]).
    rewrite read_patch by auto. destruct (read la st2) as [ca|er]; [|reflexivity]. cbn [bind].
    destruct (idx_ok z (length ca)); reflexivity.
  - rewrite IHa by auto. destruct (eval e a sc) as [[va st1]|er] eqn:E1; [|reflexivity]. cbn [lift1 bind].
    destruct (eval_spec _ _ _ _ _ _ E1 HS) as (S1 & X1 & R1). pose proof (Binv_ext _ _ _ _ HS HB X1) as B1.
    destruct va as [z|la ta]; [reflexivity|].
    assert (La : live st1 la) by (eapply rv_read_live; eauto).
    rewrite read_patch by auto. destruct (read la st1) as [ca|er]; reflexivity.
Qed.

(* evaluating an expression in both runs and continuing: the continuation may assume the invariants again.
   L is the lifting of the result type (lift0 B or lift1 B) *)
Lemma eval_bind : forall X B e x sc C (L : res C -> res C) (kT kF : rv * state -> res C),
  Sep X sc -> Binv B sc -> (forall er, L (Er er) = Er er) ->
  (forall v sc', eval e x sc = Ok (v, sc') -> Sep X sc' -> Binv B sc' -> ext sc sc' -> rv_ok sc' v ->
     kT (v, patch B sc') = L (kF (v, sc'))) ->
  bind (eval e x (patch B sc)) kT = L (bind (eval e x sc) kF).
Proof.
  intros X B e x sc C L kT kF HS HB HL H. rewrite (eval_patch X) by auto.
  destruct (eval e x sc) as [[v sc']|er] eqn:E; cbn [lift1 bind]; [|symmetry; apply HL].
  destruct (eval_spec _ _ _ _ _ _ E HS) as (S1 & X1 & R1). apply H; auto. apply (Binv_ext X B sc sc'); auto.
Qed.

Lemma claim_or_copy_patch : forall B sc l tmp, Binv B sc -> live sc l ->
  claim_or_copy l tmp (patch B sc) = lift1 B (claim_or_copy l tmp sc).
Proof.
  intros B sc l tmp HB Hr. unfold claim_or_copy. destruct tmp; [reflexivity|].
  unfold copy_of. rewrite read_patch by auto.
  destruct (read l sc) as [c|er]; [|reflexivity]. cbn [bind].
  destruct (alloc (Live c) sc) as [l' sc1] eqn:Ea. rewrite (alloc_patch _ _ _ _ _ HB Ea). reflexivity.
Qed.

Lemma own_value_patch : forall X B sc v, Sep X sc -> Binv B sc -> rv_ok sc v ->
  own_value v (patch B sc) = lift1 B (own_value v sc).
Proof.
  intros X B sc v HS HB Hr. destruct v as [z|l tmp]; [reflexivity|]. cbn [own_value].
  rewrite claim_or_copy_patch by (auto; eapply rv_read_live; eauto). destruct (claim_or_copy l tmp sc) as [[l' s1]|er]; reflexivity.
Qed.

Lemma free_list_patch : forall B ls sc,
  (forall l, In l ls -> live sc l /\ ~ In l (map b_lc B)) -> NoDup ls ->
  free_list ls (patch B sc) = lift0 B (free_list ls sc).
Proof.
  intros B ls. induction ls as [|l ls IH]; intros sc H Hnd; [reflexivity|]. cbn [free_list]. inv Hnd.
  destruct (H l (or_introl eq_refl)) as [Hl Hn]. rewrite free_patch by auto.
  destruct (free l sc) as [sc1|er] eqn:Ef; [|reflexivity]. cbn [lift0 bind].
  apply IH; auto. intros l' Hin. destruct (H l' (or_intror Hin)) as [[c Hc] Hn']. split; auto.
  pose proof (free_ok _ _ _ Ef Hl) as (_ & Hh & _). exists c. rewrite Hh, nth_error_upd_neq; auto. intros ->. auto.
Qed.

Lemma end_stmt_patch : forall X B sc, Sep X sc -> Binv B sc -> end_stmt (patch B sc) = lift0 B (end_stmt sc).
Proof.
  intros X B sc HS HB. unfold end_stmt. cbn [tmps patch set_heap].
  rewrite free_list_patch.
  - destruct (free_list (tmps sc) sc) as [s1|er]; reflexivity.
  - intros l Hin. split; [eapply (sep_xlive _ _ HS); apply in_or_app; auto|].
    eapply owner_loc; eauto. apply in_or_app; auto.
  - eapply nodup_app_l. apply (sep_xnodup _ _ HS).
Qed.

Lemma Binv_lt : forall B sc b, Binv B sc -> In b B -> b_pa b < length (vars sc) /\ b_al b < length (vars sc).
Proof. intros B sc b [_ H] Hin. destruct (H b Hin) as (P1 & P2 & _). split; eapply nth_error_lt; eauto. Qed.

Lemma Binv_step : forall B sc sc' (P : nat -> Prop),
  Binv B sc -> (forall b, b < length (vars sc) -> ~ P b -> keeps sc sc' b) ->
  (forall b, In b B -> ~ P (b_pa b) /\ ~ P (b_al b)) -> Binv B sc'.
Proof.
  intros B sc sc' P HB K HP. eapply Binv_keeps; eauto. intros b Hin.
  destruct (Binv_lt _ _ _ HB Hin). destruct (HP b Hin). split; apply K; auto.
Qed.

Lemma Binv_heap_same : forall X B sc sc', Sep X sc -> Binv B sc -> vars sc' = vars sc ->
  (forall k, k < length (heap sc) -> nth_error (heap sc') k = nth_error (heap sc) k) -> Binv B sc'.
Proof. intros. eapply Binv_keeps; eauto. intros b _. split; eapply heap_keeps; eauto. Qed.

Lemma Binv_new_var : forall B sc s a sc', Binv B sc -> new_var s sc = (a, sc') -> Binv B sc'.
Proof.
  intros B sc s a sc' HB Hn. eapply Binv_keeps; eauto. intros b Hin.
  destruct (Binv_lt _ _ _ HB Hin). split; eapply new_var_keeps; eauto.
Qed.

Lemma do_decl_patch : forall X B e x ex sc, Sep X sc -> Binv B sc ->
  do_decl e x ex (patch B sc) = lift1 B (do_decl e x ex sc).
Proof.
  intros X B e x ex sc HS HB. unfold do_decl.
  apply (eval_bind X); auto. intros v st1 E1 S1 B1 X1 R1. cbv beta iota.
  rewrite (own_value_patch X) by auto. destruct (own_value v st1) as [[s st2]|er] eqn:E2; [|reflexivity]. cbn [lift1 bind].
  destruct (own_value_spec _ _ _ _ _ S1 R1 E2) as (O1 & O2 & O3 & O4 & O5).
  pose proof (Binv_heap_same _ _ _ _ S1 B1 O2 O4) as B2.
  destruct (new_var s st2) as [a st3] eqn:En. rewrite (new_var_patch _ _ _ _ _ En).
  assert (S3 : Sep X st3).
  { destruct s as [z|l|]; [eapply Sep_new_var_int; eauto | eapply Sep_new_var_ptr; eauto | contradiction]. }
  pose proof (Binv_new_var _ _ _ _ _ B2 En) as B3.
  rewrite (end_stmt_patch X) by auto. destruct (end_stmt st3) as [st4|er]; reflexivity.
Qed.

Lemma store_value_patch : forall X B sc a v, Sep X sc -> Binv B sc -> rv_ok sc v -> safe_addr B a ->
  store_value a v (patch B sc) = lift0 B (store_value a v sc).
Proof.
  intros X B sc a v HS HB Hr Hs. unfold store_value. rewrite get_slot_patch.
  destruct (get_slot a sc) as [s|er] eqn:Eg; [|reflexivity]. cbn [bind]. apply get_slot_ok in Eg.
  destruct s as [z0|lold|]; destruct v as [z|l tmp]; try reflexivity.
  assert (Hp : ptr_at sc a lold) by exact Eg.
  rewrite claim_or_copy_patch by (auto; eapply rv_read_live; eauto).
  destruct (claim_or_copy l tmp sc) as [[l' st1]|er] eqn:Ec; [|reflexivity]. cbn [lift1 bind].
  destruct (claim_or_copy_spec _ _ _ _ _ _ HS Hr Ec) as (C1 & C2 & C3 & C4 & C5 & C6).
  pose proof (Binv_heap_same _ _ _ _ HS HB C2 C4) as B1.
  assert (Hp1 : ptr_at st1 a lold) by (unfold ptr_at in *; congruence).
  destruct (safe_loc _ _ _ _ _ C1 B1 Hs Hp1) as [N1 N2].
  assert (Hlo : live st1 lold) by (eapply (sep_live _ _ C1); eauto).
  rewrite free_patch by auto. destruct (free lold st1) as [st2|er]; reflexivity.
Qed.

Lemma do_assign_patch : forall X B e x ex sc, Sep X sc -> Binv B sc ->
  (forall a, lookup e x = Some a -> safe_addr B a) ->
  do_assign e x ex (patch B sc) = lift0 B (do_assign e x ex sc).
Proof.
  intros X B e x ex sc HS HB Hsafe. unfold do_assign.
  apply (eval_bind X); auto. intros v st1 E1 S1 B1 X1 R1. cbv beta iota.
  destruct (lookup e x) as [a|]; [|reflexivity].
  rewrite (store_value_patch X) by auto. destruct (store_value a v st1) as [st2|er] eqn:E2; [|reflexivity]. cbn [lift0 bind].
  destruct (store_value_spec _ _ _ _ _ S1 R1 E2) as (V1 & V2 & V3 & V4 & V5).
  assert (B2 : Binv B st2).
  { eapply Binv_keeps; eauto. intros b Hin. destruct (safe_addr_neq _ _ _ (Hsafe a eq_refl) Hin). split; apply V5; auto. }
  apply (end_stmt_patch X); auto.
Qed.

Lemma do_assign_idx_patch : forall X B e x i v sc, Sep X sc -> Binv B sc ->
  (forall a, lookup e x = Some a -> safe_addr B a) ->
  do_assign_idx e x i v (patch B sc) = lift0 B (do_assign_idx e x i v sc).
Proof.
  intros X B e x i v sc HS HB Hsafe. unfold do_assign_idx.
  apply (eval_bind X); auto. intros vv st1 E1 S1 B1 X1 R1. cbv beta iota.
  apply (eval_bind X); auto. intros vi st2 E2 S2 B2 X2 R2. cbv beta iota.
  destruct (lookup e x) as [a|]; [|reflexivity].
  destruct vv as [zv|? ?]; [|reflexivity]. destruct vi as [zi|? ?]; [|reflexivity].
  rewrite get_slot_patch. destruct (get_slot a st2) as [s|er] eqn:Eg; [|reflexivity]. cbn [bind]. apply get_slot_ok in Eg.
  destruct s as [?|l|]; try reflexivity.
  assert (Hp : ptr_at st2 a l) by exact Eg.
  destruct (safe_loc _ _ _ _ _ S2 B2 (Hsafe a eq_refl) Hp) as [N1 N2].
  assert (Hl : live st2 l) by (eapply (sep_live _ _ S2); eauto).
  rewrite read_patch by auto. destruct (read l st2) as [c|er]; [|reflexivity]. cbn [bind].
  destruct (idx_ok zi (length c)); [|reflexivity].
  rewrite write_patch by auto. destruct (write l (upd c (Z.to_nat zi - 1) zv) st2) as [st3|er] eqn:Ew; [|reflexivity]. cbn [lift0 bind].
  pose proof (Sep_write _ _ _ _ _ _ S2 Hp Ew) as S3.
  assert (B3 : Binv B st3).
  { eapply Binv_keeps; eauto. intros b Hin. destruct (safe_addr_neq _ _ _ (Hsafe a eq_refl) Hin).
    split; eapply write_keeps; eauto. }
  apply (end_stmt_patch X); auto.
Qed.

Lemma do_print_patch : forall X B e ex sc, Sep X sc -> Binv B sc ->
  do_print e ex (patch B sc) = lift0 B (do_print e ex sc).
Proof.
  intros X B e ex sc HS HB. unfold do_print.
  apply (eval_bind X); auto. intros v st1 E1 S1 B1 X1 R1. cbv beta iota.
  destruct v as [z|l t].
  - rewrite add_out_patch. apply (end_stmt_patch X).
    + apply (Sep_mono X st1); auto.
    + exact B1.
  - rewrite read_patch by (auto; eapply rv_read_live; eauto). destruct (read l st1) as [c|er]; [|reflexivity]. cbn [bind].
    rewrite add_out_patch. apply (end_stmt_patch X).
    + apply (Sep_mono X st1); auto.
    + exact B1.
Qed.

Lemma do_cond_patch : forall X B e c sc, Sep X sc -> Binv B sc ->
  do_cond e c (patch B sc) = lift1 B (do_cond e c sc).
Proof.
  intros X B e c sc HS HB. unfold do_cond.
  apply (eval_bind X); auto. intros v st1 E1 S1 B1 X1 R1. cbv beta iota.
  destruct v as [z|l t]; [|reflexivity].
  rewrite (end_stmt_patch X) by auto. destruct (end_stmt st1) as [st2|er]; reflexivity.
Qed.

Lemma for_init_patch : forall X B e ex sc, Sep X sc -> Binv B sc ->
  for_init e ex (patch B sc) = lift1 B (for_init e ex sc).
Proof.
  intros X B e ex sc HS HB. unfold for_init.
  apply (eval_bind X); auto. intros v st1 E1 S1 B1 X1 R1. cbv beta iota.
  destruct v as [z|l t]; [reflexivity|].
  rewrite claim_or_copy_patch by (auto; eapply rv_read_live; eauto).
  destruct (claim_or_copy l t st1) as [[lc st2]|er] eqn:E2; [|reflexivity]. cbn [lift1 bind].
  destruct (claim_or_copy_spec _ _ _ _ _ _ S1 R1 E2) as (C1 & C2 & C3 & C4 & C5 & C6).
  pose proof (Binv_heap_same _ _ _ _ S1 B1 C2 C4) as B2.
  assert (Hl : live st2 lc) by (eapply (sep_xlive _ _ C1); rewrite in_middle; auto).
  rewrite read_patch by auto. destruct (read lc st2) as [c|er]; [|reflexivity]. cbn [bind].
  rewrite (end_stmt_patch (lc :: X)) by auto. destruct (end_stmt st2) as [st3|er]; reflexivity.
Qed.

(* the lender of the buffer l held by variable a: a's own lender if a is itself a borrowed parameter,
   otherwise a.  It is not a borrowed parameter, its buffer is not a borrowed copy and holds what l holds,
   and it is where a handle on l points in the elide-mode state *)
Definition lender (BB : list borrow) (l a : nat) : nat * nat :=
  match find (fun b => Nat.eqb (b_lc b) l) BB with
  | Some b0 => (b_al b0, b_ll b0)
  | None => (a, l)
  end.

Lemma lender_spec : forall X BB sc l a, Sep X sc -> Binv BB sc -> ptr_at sc a l ->
  ptr_at sc (fst (lender BB l a)) (snd (lender BB l a)) /\
  (exists c, nth_error (heap sc) l = Some (Live c) /\ nth_error (heap sc) (snd (lender BB l a)) = Some (Live c)) /\
  ~ In (fst (lender BB l a)) (map b_pa BB) /\ ~ In (snd (lender BB l a)) (map b_lc BB) /\
  (In (fst (lender BB l a)) (map b_al BB) \/ fst (lender BB l a) = a) /\
  target l (patch BB sc) = snd (lender BB l a).
Proof.
  intros X BB sc l a HS HB Hp. unfold lender, target. cbn [heap patch set_heap].
  destruct (find (fun b => Nat.eqb (b_lc b) l) BB) as [b0|] eqn:Ef; cbn [fst snd].
  - apply find_some in Ef. destruct Ef as [Hin E]. apply Nat.eqb_eq in E. subst l.
    pose proof (Binv_lc_lt _ _ _ HB Hin) as Hlt. destruct HB as [Hnd H].
    destruct (H b0 Hin) as (P1 & P2 & (c & C1 & C2) & N & M).
    split; [exact P2|split; [exists c; auto|split; [exact N|split; [exact M|split; [left; apply in_map; auto|]]]]].
    rewrite patchh_in; auto.
  - assert (Hn : ~ In l (map b_lc BB)).
    { intros Hi. apply in_map_iff in Hi. destruct Hi as (b & E & Hin).
      pose proof (find_none _ _ Ef _ Hin) as F. cbn in F. rewrite E, Nat.eqb_refl in F. discriminate F. }
    destruct (sep_live _ _ HS _ _ Hp) as [c Hc].
    split; [exact Hp|split; [exists c; auto|split; [|split; [exact Hn|split; [right; auto|]]]]].
    + intros Hi. apply in_map_iff in Hi. destruct Hi as (b & E & Hin). destruct HB as [_ H].
      destruct (H b Hin) as (P1 & _). rewrite E in P1. apply Hn.
      unfold ptr_at in *. rewrite Hp in P1. inv P1. apply in_map. auto.
    + rewrite patchh_out by auto. rewrite Hc. reflexivity.
Qed.

(* pushing the borrow created for an elided argument: its parameter variable and its copy are new *)
Lemma Binv_push : forall X BB sc a l c lc sc2 ad sc3,
  Sep X sc -> Binv BB sc -> ptr_at sc a l -> nth_error (heap sc) l = Some (Live c) ->
  alloc (Live c) sc = (lc, sc2) -> new_var (VPtr lc) sc2 = (ad, sc3) ->
  Binv (mkB ad (fst (lender BB l a)) lc (snd (lender BB l a)) :: BB) sc3.
Proof.
  intros X BB sc a l c lc sc2 ad sc3 HS HB Hp Hc Ha Hn.
  destruct (lender_spec X BB sc l a HS HB Hp) as (P2 & (c' & C1 & C2) & N & M & _ & _).
  assert (c' = c) by congruence. subst c'.
  generalize dependent (snd (lender BB l a)). generalize dependent (fst (lender BB l a)). intros al N ll P2 C2 M.
  pose proof (alloc_spec _ _ _ _ Ha) as (-> & Hh & Hv & Ht & Ho).
  pose proof (new_var_spec _ _ _ _ Hn) as (-> & N2 & N3 & N4 & N5).
  assert (Hold : forall b k, ptr_at sc b k -> ptr_at sc3 b k /\ b < length (vars sc2)).
  { unfold ptr_at. intros b k H. apply nth_error_lt in H as Hlt. rewrite N2, Hv. rewrite nth_error_app1; auto. }
  assert (Hhold : forall k cc, nth_error (heap sc) k = Some cc -> nth_error (heap sc3) k = Some cc /\ k < length (heap sc)).
  { intros k cc H. apply nth_error_lt in H as Hlt. rewrite N3, Hh, nth_error_app1; auto. }
  destruct HB as [Hnd H].
  assert (Hlt : forall b, In b BB -> b_lc b < length (heap sc) /\ b_pa b < length (vars sc2) /\ b_al b < length (vars sc2)).
  { intros b Hin. destruct (H b Hin) as (P1 & P2' & (cc & D1 & D2) & _).
    split; [eapply Hhold; eauto|split; eapply Hold; eauto]. }
  split.
  - cbn. constructor; auto. intros Hi. apply in_map_iff in Hi. destruct Hi as (b & E & Hin). destruct (Hlt b Hin). lia.
  - intros b [<-|Hin]; cbn [b_pa b_al b_lc b_ll].
    + split; [unfold ptr_at; rewrite N2; apply nth_error_app_new|]. split; [eapply Hold; eauto|].
      split; [exists c; split; [rewrite N3, Hh; apply nth_error_app_new|eapply Hhold; eauto]|].
      split; cbn; intros [E|Hi]; auto.
      * destruct (Hold _ _ P2). lia.
      * destruct (Hhold _ _ C2). lia.
    + destruct (H b Hin) as (Q1 & Q2 & (cc & D1 & D2) & N' & M'). destruct (Hlt b Hin) as (L1 & L2 & L3).
      split; [eapply Hold; eauto|split; [eapply Hold; eauto|split; [exists cc; split; eapply Hhold; eauto|]]].
      split; cbn; intros [E|Hi]; auto; try lia. destruct (Hhold _ _ D2). lia.
Qed.

(* binding one parameter in both modes: both fail alike, or both bind the parameter to the same address and the
   elide-mode state is the copy-mode state patched by BB and at most one new borrow *)
Lemma bind_one_patch : forall mt all k i p a e X BB sc, Sep X sc -> Binv BB sc ->
  match bind_one false mt all k i p a e sc with
  | Er er => bind_one true mt all k i p a e (patch BB sc) = Er er
  | Ok (ad, st3) =>
      exists Bhd,
        bind_one true mt all k i p a e (patch BB sc) = Ok (ad, patch (Bhd ++ BB) st3) /\
        Binv (Bhd ++ BB) st3 /\
        (forall b', In b' Bhd ->
           pref p = false /\ b_pa b' = ad /\ is_const mt k i = true /\
           (In (b_al b') (map b_al BB) \/
            exists x, lookup e x = Some (b_al b') /\ fbase sc <= b_al b' /\ existsb (is_ref_of x) all = false))
  end.
Proof.
  intros mt all k i p a e X BB sc HS HB. unfold bind_one.
  destruct (pref p) eqn:Ep; destruct a as [ex|x]; try reflexivity.
  - destruct (lookup e x) as [ad|]; [|reflexivity]. exists []. split; [reflexivity|split; [exact HB|intros b' []]].
  - rewrite (eval_patch X) by auto. destruct (eval e ex sc) as [[v st1]|er] eqn:E1; [|reflexivity]. cbn [lift1 bind andb].
    destruct (eval_spec _ _ _ _ _ _ E1 HS) as (S1 & X1 & R1). pose proof (Binv_ext _ _ _ _ HS HB X1) as B1.
    destruct v as [z|l tmp].
    + destruct (new_var (VInt z) st1) as [ad st2] eqn:En. rewrite (new_var_patch _ _ _ _ _ En).
      exists []. split; [reflexivity|split; [eapply Binv_new_var; eauto|intros b' []]].
    + change (may_elide e all ex (patch BB st1)) with (may_elide e all ex st1).
      destruct (is_const mt k i && negb tmp && may_elide e all ex st1) eqn:Ec.
      * (* elided: the argument is a variable x; copy mode copies its buffer, elide mode makes a handle on its lender's *)
        apply andb_true_iff in Ec. destruct Ec as [Ec Ec3]. apply andb_true_iff in Ec. destruct Ec as [Ec1 Ec2].
        apply negb_true_iff in Ec2. subst tmp.
        assert (Hx : exists x ax, ex = EVar x /\ lookup e x = Some ax /\ ptr_at sc ax l /\ st1 = sc).
        { destruct ex as [?|x|?|? ?|? ?|?]; try discriminate Ec3. cbn [eval] in E1.
          destruct (lookup e x) as [ax|] eqn:Lx; [|discriminate E1]. bind_as E1 s Hs E1. apply get_slot_ok in Hs.
          destruct s; inv E1. exists x, ax. auto. }
        destruct Hx as (x & ax & -> & Lx & Px & ->).
        destruct (sep_live _ _ HS _ _ Px) as [c Hc].
        cbn [claim_or_copy]. unfold copy_of. rewrite (read_live _ _ _ Hc). cbn [bind].
        destruct (alloc (Live c) sc) as [lc sc2] eqn:Ea. cbn [bind].
        destruct (new_var (VPtr lc) sc2) as [ad sc3] eqn:En.
        destruct (lender_spec X BB sc l ax HS HB Px) as (_ & _ & _ & _ & BP2 & Etgt).
        exists [mkB ad (fst (lender BB l ax)) lc (snd (lender BB l ax))].
        split; [|split; [exact (Binv_push _ _ _ _ _ _ _ _ _ _ HS HB Px Hc Ea En)|]].
        { rewrite Etgt, (alloc_alias_patch BB sc c (snd (lender BB l ax)) lc sc2 ad (fst (lender BB l ax))) by auto.
          rewrite (new_var_patch _ _ _ _ _ En). reflexivity. }
        intros b0 [<-|[]]. split; [auto|split; [auto|split; [auto|]]]. cbn [b_al].
        destruct BP2 as [BP2|BP2]; [left; exact BP2|]. right. exists x. rewrite BP2.
        unfold may_elide in Ec3. rewrite Lx in Ec3. apply andb_true_iff in Ec3. destruct Ec3 as [Ec3 _].
        apply andb_true_iff in Ec3. destruct Ec3 as [Q1 Q2].
        apply Nat.leb_le in Q1. apply negb_true_iff in Q2. auto.
      * (* copied or claimed, in both modes *)
        rewrite claim_or_copy_patch by (auto; eapply rv_read_live; eauto).
        destruct (claim_or_copy l tmp st1) as [[l' st2]|er] eqn:E2; [|reflexivity]. cbn [lift1 bind].
        destruct (claim_or_copy_spec _ _ _ _ _ _ S1 R1 E2) as (C1 & C2 & C3 & C4 & C5 & C6).
        pose proof (Binv_heap_same _ _ _ _ S1 B1 C2 C4) as B2.
        destruct (new_var (VPtr l') st2) as [ad st3] eqn:En. rewrite (new_var_patch _ _ _ _ _ En).
        exists []. split; [reflexivity|split; [eapply Binv_new_var; eauto|intros b' []]].
Qed.

Lemma filter_filter_lt : forall (B : list borrow) a,
  filter (fun b => Nat.ltb (b_pa b) (S a)) (filter (fun b => negb (Nat.eqb (b_pa b) a)) B) =
  filter (fun b => Nat.ltb (b_pa b) a) B.
Proof.
  induction B as [|b B IH]; intros a; cbn [filter]; auto.
  destruct (Nat.eqb_spec (b_pa b) a) as [E|N]; cbn [negb filter].
  - rewrite IH. destruct (Nat.ltb_spec (b_pa b) a); [lia|auto].
  - rewrite IH. destruct (Nat.ltb_spec (b_pa b) (S a)); destruct (Nat.ltb_spec (b_pa b) a); auto; lia.
Qed.

Lemma filter_borrows : forall (Bn B : list borrow) n,
  (forall b, In b Bn -> n <= b_pa b) -> (forall b, In b B -> b_pa b < n) ->
  filter (fun b => Nat.ltb (b_pa b) n) (Bn ++ B) = B.
Proof.
  intros Bn B n H1 H2. rewrite filter_app. rewrite (filter_all _ _ B).
  - replace (filter (fun b => Nat.ltb (b_pa b) n) Bn) with (@nil borrow); auto.
    clear H2. induction Bn as [|b Bn IH]; cbn [filter]; auto.
    destruct (Nat.ltb_spec (b_pa b) n) as [L|L]; [specialize (H1 b (or_introl eq_refl)); lia|]. apply IH. intros; apply H1; cbn; auto.
  - intros b Hb. apply Nat.ltb_lt. auto.
Qed.

Lemma Binv_filter : forall f B sc, Binv B sc -> Binv (filter f B) sc.
Proof.
  intros f B sc [Hnd H]. split.
  - clear H. induction B as [|b B IH]; cbn; [constructor|]. inv Hnd. destruct (f b); cbn; auto.
    constructor; auto. intros Hi. apply H1. apply in_map_iff in Hi. destruct Hi as (b' & E & Hin).
    apply filter_In in Hin. rewrite <- E. apply in_map. tauto.
  - intros b Hin. apply filter_In in Hin. destruct Hin as [Hin _].
    destruct (H b Hin) as (P1 & P2 & P3 & N & M). split; [auto|split; [auto|split; [auto|split]]].
    + intros Hi. apply N. apply in_map_iff in Hi. destruct Hi as (b' & E & Hin'). apply filter_In in Hin'.
      rewrite <- E. apply in_map. tauto.
    + intros Hi. apply M. apply in_map_iff in Hi. destruct Hi as (b' & E & Hin'). apply filter_In in Hin'.
      rewrite <- E. apply in_map. tauto.
Qed.

Lemma patchh_drop : forall B h b,
  NoDup (map b_lc B) -> In b B ->
  upd (patchh B h) (b_lc b) Freed = patchh (filter (fun b' => negb (Nat.eqb (b_lc b') (b_lc b))) B) (upd h (b_lc b) Freed).
Proof.
  induction B as [|b0 B IH]; cbn; intros h b Hnd Hin; [contradiction|]. inv Hnd.
  destruct Hin as [->|Hin].
  - rewrite Nat.eqb_refl. cbn. rewrite upd_upd.
    rewrite filter_all.
    + rewrite patchh_upd by auto. reflexivity.
    + intros b' Hb'. apply negb_true_iff. apply Nat.eqb_neq. intros E. apply H1. rewrite <- E. apply in_map. auto.
  - destruct (Nat.eqb_spec (b_lc b0) (b_lc b)) as [E|N].
    + exfalso. apply H1. rewrite E. apply in_map. auto.
    + cbn. rewrite upd_comm by auto. rewrite IH by auto. reflexivity.
Qed.

(* leaving a frame whose variables start at a: the borrows whose parameter lies in it go; all lenders lie below a0,
   the base of that frame *)
Lemma exit_from_patch : forall n a X BBc sc a0,
  Sep X sc -> Binv BBc sc -> a + n = length (vars sc) -> a0 <= a -> (forall b, In b BBc -> b_al b < a0) ->
  exit_from n a (patch BBc sc) = lift0 (filter (fun b => Nat.ltb (b_pa b) a) BBc) (exit_from n a sc).
Proof.
  induction n as [|n IH]; intros a X BBc sc a0 HS HB Hlen Ha0 Hal; cbn [exit_from].
  - cbn [lift0]. rewrite filter_all; auto. intros b Hb. destruct (Binv_lt _ _ _ HB Hb). apply Nat.ltb_lt. lia.
  - rewrite get_slot_patch. destruct (get_slot a sc) as [s|er] eqn:Eg; [|reflexivity]. cbn [bind]. apply get_slot_ok in Eg.
    set (BB1 := filter (fun b => negb (Nat.eqb (b_pa b) a)) BBc).
    assert (Hstep : forall sc1, Sep X (set_slot a VDead sc1) -> Binv BB1 (set_slot a VDead sc1) ->
               length (vars sc1) = length (vars sc) ->
               exit_from n (S a) (patch BB1 (set_slot a VDead sc1)) =
               lift0 (filter (fun b => Nat.ltb (b_pa b) a) BBc) (exit_from n (S a) (set_slot a VDead sc1))).
    { intros sc1 S1 B1 L1. rewrite (IH (S a) X BB1 (set_slot a VDead sc1) a0); auto.
      - unfold BB1. rewrite filter_filter_lt. reflexivity.
      - cbn. rewrite upd_length. lia.
      - intros b Hb. apply Hal. unfold BB1 in Hb. apply filter_In in Hb. tauto. }
    assert (Hnot : forall b, In b BB1 -> b_pa b <> a /\ b_al b <> a).
    { intros b Hb. unfold BB1 in Hb. apply filter_In in Hb. destruct Hb as [Hb Hf].
      apply negb_true_iff in Hf. apply Nat.eqb_neq in Hf. specialize (Hal b Hb). split; [auto|lia]. }
    assert (Hnone : (forall l, s <> VPtr l) ->
              exit_from n (S a) (set_slot a VDead (patch BBc sc)) =
              lift0 (filter (fun b => Nat.ltb (b_pa b) a) BBc) (exit_from n (S a) (set_slot a VDead sc))).
    { (* no buffer: nothing to free, a is not a borrowed parameter *)
      intros Hs. rewrite set_slot_patch.
      assert (E1 : BB1 = BBc).
      { unfold BB1. apply filter_all. intros b Hb. apply negb_true_iff. apply Nat.eqb_neq. intros E.
        destruct HB as [_ H]. destruct (H b Hb) as (P1 & _). unfold ptr_at in P1. rewrite E, Eg in P1. inv P1. eapply Hs; eauto. }
      rewrite <- E1 at 1. apply Hstep; auto.
      - eapply Sep_set_nonptr; eauto; congruence.
      - rewrite E1. eapply Binv_keeps; eauto. intros b Hb. rewrite <- E1 in Hb. destruct (Hnot b Hb).
        split; apply set_slot_keeps; auto. }
    destruct s as [z|l|]; [apply Hnone; discriminate| |apply Hnone; discriminate].
    (* a buffer: freed in copy mode; in elide mode freed too or, if a is a borrowed parameter, the handle dropped *)
    assert (Hp : ptr_at sc a l) by exact Eg.
    assert (Hl : live sc l) by (eapply (sep_live _ _ HS); eauto).
    rewrite (release_live l sc Hl).
    destruct (free l sc) as [sc1|er] eqn:Ef.
    2:{ exfalso. destruct (free_live _ _ Hl) as [s1 Hs1]. congruence. }
    pose proof (free_ok _ _ _ Ef Hl) as (F1 & F2 & F3 & F4 & F5).
    assert (S1 : Sep X (set_slot a VDead sc1)) by (eapply Sep_release; eauto; congruence).
    assert (B1 : Binv BB1 (set_slot a VDead sc1)).
    { eapply Binv_keeps; [apply Binv_filter; exact HB|]. intros b Hb. destruct (Hnot b Hb).
      split; eapply release_keeps; eauto. }
    assert (Erel : release l (patch BBc sc) = Ok (patch BB1 sc1)).
    { destruct (in_dec Nat.eq_dec a (map b_pa BBc)) as [Hi|Hn].
      - apply in_map_iff in Hi. destruct Hi as (b & E & Hin).
        destruct HB as [Hnd H]. destruct (H b Hin) as (P1 & _). rewrite E in P1.
        assert (El : b_lc b = l) by (unfold ptr_at in *; congruence). subst l.
        unfold release. cbn [heap patch set_heap]. rewrite patchh_in; auto.
        f_equal. unfold patch, set_heap. cbn. rewrite F2, F3, F4, F5, (free_fbase _ _ _ Ef). f_equal.
        rewrite patchh_drop by auto. f_equal. unfold BB1. apply filter_ext_in. intros b' Hb'.
        f_equal. destruct (H b' Hb') as (P1' & _).
        destruct (Nat.eqb_spec (b_pa b') a) as [E1|N1]; destruct (Nat.eqb_spec (b_lc b') (b_lc b)) as [E2|N2]; auto.
        + exfalso. apply N2. rewrite E1 in P1'. unfold ptr_at in *. congruence.
        + exfalso. apply N1. rewrite E2 in P1'. eapply (sep_inj _ _ HS); eauto.
      - assert (Hsafe : safe_addr BBc a).
        { split; auto. intros Hi. apply in_map_iff in Hi. destruct Hi as (b & E & Hin). specialize (Hal b Hin). lia. }
        destruct (safe_loc _ _ _ _ _ HS HB Hsafe Hp) as [N1 N2].
        assert (E1 : BB1 = BBc).
        { unfold BB1. apply filter_all. intros b Hb. apply negb_true_iff. apply Nat.eqb_neq. intros E.
          apply Hn. rewrite <- E. apply in_map. auto. }
        rewrite E1. unfold release. cbn [heap patch set_heap]. rewrite patchh_out by auto.
        destruct Hl as [c Hc]. rewrite Hc. fold (patch BBc sc). rewrite free_patch by (auto; exists c; auto).
        rewrite Ef. reflexivity. }
    rewrite Erel. cbn [bind]. rewrite set_slot_patch. apply Hstep; auto. congruence.
Qed.

Lemma ret_value_patch : forall X BB ce fr st2, Sep X st2 -> Binv BB st2 ->
  ret_value ce fr (patch BB st2) = lift1 BB (ret_value ce fr st2).
Proof.
  intros X BB ce fr st2 HS HB. unfold ret_value. destruct fr as [re|]; [|reflexivity].
  apply (eval_bind X); auto. intros v st3 E1 S1 B1 X1 R1. cbv beta iota.
  destruct v as [z|l t].
  - rewrite (end_stmt_patch X) by auto. destruct (end_stmt st3) as [st4|er]; reflexivity.
  - rewrite claim_or_copy_patch by (auto; eapply rv_read_live; eauto).
    destruct (claim_or_copy l t st3) as [[l' st4]|er] eqn:E2; [|reflexivity]. cbn [lift1 bind].
    destruct (claim_or_copy_spec _ _ _ _ _ _ S1 R1 E2) as (C1 & C2 & C3 & C4 & C5 & C6).
    pose proof (Binv_heap_same _ _ _ _ S1 B1 C2 C4) as B2.
    rewrite (end_stmt_patch (l' :: X)) by auto. destruct (end_stmt st4) as [st5|er]; reflexivity.
Qed.

(* what the definitions of Opt2Safe.v compute *)
Lemma pindex_spec : forall ps x i r, pindex ps x i = Some r ->
  exists j p, nth_error ps j = Some p /\ pname p = x /\ r = (i + j, pref p) /\
              (forall j' p', j' < j -> nth_error ps j' = Some p' -> pname p' <> x).
Proof.
  induction ps as [|p ps IH]; cbn; intros x i r H; [discriminate H|].
  destruct (Nat.eqb_spec (pname p) x) as [E|N].
  - inv H. exists 0, p. split; [auto|split; [auto|split; [f_equal; lia|]]]. intros j' p' Hj. lia.
  - destruct (IH _ _ _ H) as (j & q & Hq & Hn & -> & Hf). exists (S j), q.
    split; [auto|split; [auto|split; [f_equal; lia|]]].
    intros [|j'] p' Hj Hp; cbn in Hp; [inv Hp; auto|]. eapply Hf; eauto. lia.
Qed.

Lemma pindex_none : forall ps x i, pindex ps x i = None -> ~ In x (map pname ps).
Proof.
  induction ps as [|p ps IH]; cbn; intros x i H; [tauto|].
  destruct (Nat.eqb_spec (pname p) x); [discriminate H|]. intros [E|Hi]; [auto|]. eapply IH; eauto.
Qed.

Lemma pindex_nodup : forall ps j p i, NoDup (map pname ps) -> nth_error ps j = Some p ->
  pindex ps (pname p) i = Some (i + j, pref p).
Proof.
  induction ps as [|q ps IH]; intros [|j] p i Hnd Hp; cbn in *; try discriminate Hp.
  - inv Hp. rewrite Nat.eqb_refl. f_equal. f_equal. lia.
  - inv Hnd. destruct (Nat.eqb_spec (pname q) (pname p)) as [E|N].
    + exfalso. apply H1. rewrite E. apply in_map. eapply nth_error_In; eauto.
    + rewrite (IH j p (S i)); auto. f_equal. f_equal. lia.
Qed.

Lemma mem_true : forall x l, mem x l = true <-> In x l.
Proof.
  intros x l. unfold mem. rewrite existsb_exists. split.
  - intros (y & Hy & E). apply Nat.eqb_eq in E. subst. auto.
  - intros H. exists x. split; auto. apply Nat.eqb_refl.
Qed.

Lemma nodupb_NoDup : forall l, nodupb l = true -> NoDup l.
Proof.
  induction l as [|x l IH]; cbn; intros H; [constructor|]. apply andb_true_iff in H. destruct H as [H1 H2].
  constructor; auto. intros Hi. apply mem_true in Hi. rewrite Hi in H1. discriminate H1.
Qed.

Lemma fresh_kind : forall mt funs gnames gw c x, fresh_name funs gnames c x = true ->
  kind_of mt funs gnames c x = KLocal /\ may_write mt funs gnames gw c x = true.
Proof.
  intros mt funs gnames gw c x H. unfold fresh_name in H. apply andb_true_iff in H. destruct H as [H1 H2].
  apply negb_true_iff in H1. apply negb_true_iff in H2.
  unfold kind_of, may_write, is_param in *. destruct c as [j|].
  - destruct (pindex (fparams (fn funs j)) x 0); [discriminate H1|]. rewrite H2. auto.
  - rewrite H2. auto.
Qed.

Lemma args_ok_nth : forall mt funs gnames gw c k all args i j a,
  args_ok mt funs gnames gw c k all i args = true -> nth_error args j = Some a ->
  match a with
  | ARef y => is_const mt k (i + j) || may_write mt funs gnames gw c y
  | AVal (EVar x) => negb (is_const mt k (i + j)) || elide_arg_safe mt funs gnames gw c k all x
  | AVal _ => true
  end = true.
Proof.
  intros mt funs gnames gw c k all args. induction args as [|a0 args IH]; intros i j a H Hj; [destruct j; discriminate Hj|].
  cbn in H. apply andb_true_iff in H. destruct H as [H1 H2]. destruct j as [|j]; cbn in Hj.
  - inv Hj. rewrite Nat.add_0_r. exact H1.
  - rewrite Nat.add_succ_r. apply (IH (S i) j a H2 Hj).
Qed.

Lemma upto_in : forall n j, In j (upto n) <-> j < n.
Proof.
  induction n as [|n IH]; cbn; intros j; [split; [contradiction|lia]|].
  rewrite in_app_iff, IH. cbn. split; [intros [H|[H|[]]]; lia|intros H; destruct (Nat.eq_dec j n); [right; auto|left; lia]].
Qed.
