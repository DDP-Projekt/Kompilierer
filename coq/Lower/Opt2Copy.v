(* C08 — copy mode (every value parameter is a fresh copy): the separation invariant and the frame
   property.  Sep X st: every variable slot that holds a buffer holds a LIVE buffer of its own, the
   temporaries and the extra owners X (holders that are not variables: a for-each loop's copy, a
   pending return value, the caller's temporaries while a callee runs) own further distinct live
   buffers. *)
From Coq Require Import List ZArith Bool Arith Lia Permutation.
Import ListNotations.
From DDP Require Import Lower.Opt2 Lower.Opt2Base Lower.Opt2Fbase.

Record Sep (X : list nat) (st : state) : Prop := mkSep {
  sep_live : forall a l, ptr_at st a l -> live st l;
  sep_inj : forall a b l, ptr_at st a l -> ptr_at st b l -> a = b;
  sep_xlive : forall l, In l (tmps st ++ X) -> live st l;
  sep_xnodup : NoDup (tmps st ++ X);
  sep_xvar : forall a l, ptr_at st a l -> ~ In l (tmps st ++ X) }.

(* what an observer of variable a sees is unchanged from st to st' *)
Definition keeps (st st' : state) (a : nat) : Prop :=
  nth_error (vars st') a = nth_error (vars st) a /\
  forall l, ptr_at st a l -> nth_error (heap st') l = nth_error (heap st) l.

Lemma keeps_refl : forall st a, keeps st st a.
Proof. split; auto. Qed.

Lemma keeps_trans : forall s1 s2 s3 a, keeps s1 s2 a -> keeps s2 s3 a -> keeps s1 s3 a.
Proof.
  intros s1 s2 s3 a [H1 H2] [H3 H4]. split; [congruence|].
  intros l Hp. rewrite H4; auto. unfold ptr_at in *. congruence.
Qed.

Definition unowned (X : list nat) (st : state) (l : nat) : Prop :=
  live st l /\ (forall a, ~ ptr_at st a l) /\ ~ In l (tmps st ++ X).

Definition value_of (st : state) (a : nat) : option (Z + list Z) :=
  match nth_error (vars st) a with
  | Some (VInt z) => Some (inl z)
  | Some (VPtr l) => match nth_error (heap st) l with Some (Live c) => Some (inr c) | _ => None end
  | _ => None
  end.

Lemma keeps_value : forall st st' a, keeps st st' a -> value_of st' a = value_of st a.
Proof.
  intros st st' a [H1 H2]. unfold value_of. rewrite H1.
  destruct (nth_error (vars st) a) as [[z|l|]|] eqn:E; auto.
  rewrite (H2 l); auto.
Qed.

Lemma nodup_middle : forall (t X : list nat) l, NoDup (t ++ l :: X) <-> (~ In l (t ++ X) /\ NoDup (t ++ X)).
Proof.
  intros. split.
  - intros H. split.
    + apply NoDup_remove_2; auto.
    + apply NoDup_remove_1 in H; auto.
  - intros [H1 H2]. eapply Permutation_NoDup; [apply Permutation_middle|]. constructor; auto.
Qed.

Lemma in_middle : forall (t X : list nat) l x, In x (t ++ l :: X) <-> (x = l \/ In x (t ++ X)).
Proof.
  intros. rewrite !in_app_iff. cbn. intuition.
Qed.

(* the owners that are not variables may be re-arranged between the temporaries and X *)
Lemma Sep_perm : forall X X' st st',
  vars st' = vars st -> heap st' = heap st -> Permutation (tmps st ++ X) (tmps st' ++ X') ->
  Sep X st -> Sep X' st'.
Proof.
  intros X X' st st' Hv Hh P [S1 S2 S3 S4 S5].
  constructor; unfold ptr_at, live in *; rewrite ?Hv, ?Hh; eauto.
  - intros l H. apply S3. eapply Permutation_in; [symmetry; apply P | auto].
  - eapply Permutation_NoDup; eauto.
  - intros a l Hp H. eapply S5; eauto. eapply Permutation_in; [symmetry; apply P | auto].
Qed.

(* the invariant survives a change that creates no pointer and kills no buffer (new buffers, new contents, new
   slots without a buffer, output), whichever component of the state it touches *)
Lemma Sep_mono : forall X st st',
  Sep X st -> tmps st' = tmps st -> (forall b l, ptr_at st' b l -> ptr_at st b l) -> (forall l, live st l -> live st' l) ->
  Sep X st'.
Proof.
  intros X st st' [S1 S2 S3 S4 S5] Ht Hp Hl. constructor; rewrite ?Ht; eauto.
Qed.

Lemma remove_nat_perm : forall l t, In l t -> Permutation t (l :: remove_nat l t).
Proof.
  induction t as [|y t IH]; cbn; intros Hin; [contradiction|]. destruct (Nat.eqb_spec y l) as [->|Hne]; [reflexivity|].
  destruct Hin as [->|Hin]; [congruence|]. rewrite perm_swap. constructor. auto.
Qed.

Lemma Sep_alloc : forall X st c l st',
  Sep X st -> alloc c st = (l, st') ->
  Sep X st' /\ (forall c', c = Live c' -> unowned X st' l).
Proof.
  intros X st c l st' HS Ha. apply alloc_spec in Ha. destruct Ha as (-> & Hh & Hv & Ht & Ho).
  split.
  - apply (Sep_mono X st); auto.
    + unfold ptr_at. rewrite Hv. auto.
    + intros l [c0 Hl]. exists c0. rewrite Hh. rewrite nth_error_app1; auto. eapply nth_error_lt; eauto.
  - destruct HS as [S1 S2 S3 S4 S5]. intros c' ->. repeat split.
    + exists c'. rewrite Hh. apply nth_error_app_new.
    + intros a Hp. unfold ptr_at in Hp. rewrite Hv in Hp. apply S1 in Hp. apply live_lt in Hp. lia.
    + rewrite Ht. intros Hin. apply S3 in Hin. apply live_lt in Hin. lia.
Qed.

Lemma Sep_add_x : forall X st l, Sep X st -> unowned X st l -> Sep (l :: X) st.
Proof.
  intros X st l [S1 S2 S3 S4 S5] (U1 & U2 & U3).
  constructor; auto.
  - intros l' H. rewrite in_middle in H. destruct H as [->|H]; auto.
  - apply nodup_middle. auto.
  - intros a l' Hp H. rewrite in_middle in H. destruct H as [->|H]; [eapply U2; eauto | eapply S5; eauto].
Qed.

Lemma Sep_add_tmp : forall X st l, Sep X st -> unowned X st l -> Sep X (add_tmp l st).
Proof.
  intros X st l HS HU. apply (Sep_perm (l :: X) X st (add_tmp l st)); auto; [|apply Sep_add_x; auto].
  cbn. symmetry. apply Permutation_middle.
Qed.

Lemma Sep_claim : forall X st l, Sep X st -> In l (tmps st) -> Sep (l :: X) (claim l st).
Proof.
  intros X st l HS Hin. apply (Sep_perm X (l :: X) st (claim l st)); auto. cbn.
  rewrite (remove_nat_perm l (tmps st) Hin) at 1. cbn. apply Permutation_middle.
Qed.

Lemma Sep_x_perm : forall X Y st, Permutation X Y -> Sep X st -> Sep Y st.
Proof. intros X Y st P. apply Sep_perm; auto. apply Permutation_app_head. exact P. Qed.

Lemma Sep_x_swap : forall X st l1 l2, Sep (l1 :: l2 :: X) st -> Sep (l2 :: l1 :: X) st.
Proof. intros X st l1 l2. apply Sep_x_perm. apply perm_swap. Qed.

Lemma new_var_keeps : forall s st a st' b, new_var s st = (a, st') -> b < length (vars st) -> keeps st st' b.
Proof.
  intros s st a st' b Hn Hb. apply new_var_spec in Hn. destruct Hn as (-> & Hv & Hh & Ht & Ho).
  split; [rewrite Hv; apply nth_error_app1; auto | rewrite Hh; auto].
Qed.

(* freeing a buffer held by an extra owner *)
Lemma Sep_free_x : forall X st l st', Sep (l :: X) st -> free l st = Ok st' -> Sep X st'.
Proof.
  intros X st l st' [S1 S2 S3 S4 S5] Hf. apply free_ok in Hf; [|apply S3; rewrite in_middle; auto]. destruct Hf as (Hl & Hh & Hv & Ht & Ho).
  apply nodup_middle in S4. destruct S4 as [S4a S4b].
  assert (Hk : forall l', l' <> l -> live st l' -> live st' l').
  { intros l' Hne [c Hc]. exists c. rewrite Hh, nth_error_upd_neq; auto. }
  constructor; unfold ptr_at in *; rewrite ?Hv, ?Ht.
  - intros a l' Hp. apply Hk; eauto. intros ->. eapply S5; eauto. rewrite in_middle; auto.
  - eauto.
  - intros l' Hin. apply Hk. { intros ->. auto. } apply S3. rewrite in_middle; auto.
  - auto.
  - intros a l' Hp Hin. eapply S5; eauto. rewrite in_middle; auto.
Qed.

Lemma free_x_keeps : forall X st l st' a, Sep (l :: X) st -> free l st = Ok st' -> keeps st st' a.
Proof.
  intros X st l st' a HS Hf. apply free_ok in Hf; [|apply (sep_xlive _ _ HS); rewrite in_middle; auto]. destruct Hf as (Hl & Hh & Hv & Ht & Ho).
  split; [congruence|]. intros l' Hp. rewrite Hh. apply nth_error_upd_neq.
  intros ->. eapply (sep_xvar _ _ HS); eauto. rewrite in_middle; auto.
Qed.

(* a variable gives up its buffer (assignment target, scope exit) *)
Lemma ptr_at_set_slot : forall st a s b l,
  a < length (vars st) ->
  ptr_at (set_slot a s st) b l <-> ((b = a /\ s = VPtr l) \/ (b <> a /\ ptr_at st b l)).
Proof.
  intros st a s b l Ha. unfold ptr_at, set_slot. cbn. rewrite nth_error_upd.
  destruct (Nat.eqb_spec a b) as [->|Hne].
  - destruct (Nat.ltb_spec b (length (vars st))) as [Hlt|Hge]; [|lia].
    split.
    + intros E. inv E. auto.
    + intros [[_ ->]|[E _]]; congruence.
  - split; [intros E; right; split; [congruence | auto] | intros [[-> _]|[_ E]]; congruence].
Qed.

Lemma Sep_release : forall X st a l st1 s,
  Sep X st -> ptr_at st a l -> free l st = Ok st1 -> (forall l', s <> VPtr l') ->
  Sep X (set_slot a s st1).
Proof.
  intros X st a l st1 s [S1 S2 S3 S4 S5] Hp Hf Hs.
  apply free_ok in Hf; [|eauto]. destruct Hf as (Hl & Hh & Hv & Ht & Ho).
  assert (Ha : a < length (vars st1)) by (rewrite Hv; eapply nth_error_lt; eauto).
  assert (Hk : forall l', l' <> l -> live st l' -> live (set_slot a s st1) l').
  { intros l' Hne [c Hc]. exists c. cbn. rewrite Hh, nth_error_upd_neq; auto. }
  assert (Hq : forall b l', ptr_at (set_slot a s st1) b l' -> b <> a /\ ptr_at st b l').
  { intros b l' H. apply ptr_at_set_slot in H; auto. destruct H as [[_ E]|[Hne H]]; [exfalso; eapply Hs; eauto|].
    split; auto. unfold ptr_at in *. congruence. }
  constructor; cbn [tmps set_slot set_vars]; rewrite ?Ht.
  - intros b l' H. apply Hq in H. destruct H as [Hne H]. apply Hk; eauto.
    intros ->. apply Hne. eauto.
  - intros b c l' H1 H2. apply Hq in H1. apply Hq in H2. destruct H1, H2. eauto.
  - intros l' Hin. apply Hk; auto. intros ->. eapply S5; eauto.
  - auto.
  - intros b l' H. apply Hq in H. destruct H. eauto.
Qed.

Lemma release_keeps : forall X st a l st1 s b,
  Sep X st -> ptr_at st a l -> free l st = Ok st1 -> b <> a -> keeps st (set_slot a s st1) b.
Proof.
  intros X st a l st1 s b HS Hp Hf Hne. apply free_ok in Hf; [|eapply (sep_live _ _ HS); eauto]. destruct Hf as (Hl & Hh & Hv & Ht & Ho).
  split; cbn.
  - rewrite nth_error_upd_neq; auto. congruence.
  - intros l' Hp'. rewrite Hh. apply nth_error_upd_neq. intros ->. apply Hne. eapply (sep_inj _ _ HS); eauto.
Qed.

(* overwriting a slot that holds no buffer by another such slot *)
Lemma Sep_set_nonptr : forall X st a s s',
  Sep X st -> nth_error (vars st) a = Some s -> (forall l, s <> VPtr l) -> (forall l, s' <> VPtr l) ->
  Sep X (set_slot a s' st).
Proof.
  intros X st a s s' HS Ha Hs Hs'. apply (Sep_mono X st); auto.
  intros b l H. apply ptr_at_set_slot in H; [|eapply nth_error_lt; eauto].
  destruct H as [[_ E]|[_ H]]; [exfalso; eapply Hs'; eauto | auto].
Qed.

Lemma Sep_set_int : forall X st a z z',
  Sep X st -> nth_error (vars st) a = Some (VInt z) -> Sep X (set_slot a (VInt z') st).
Proof. intros X st a z z' HS Ha. eapply Sep_set_nonptr; eauto; discriminate. Qed.

(* a variable that holds no buffer adopts the buffer l held so far by an extra owner *)
Lemma Sep_adopt : forall X st a s l,
  Sep (l :: X) st -> nth_error (vars st) a = Some s -> (forall l', s <> VPtr l') -> Sep X (set_slot a (VPtr l) st).
Proof.
  intros X st a s l [S1 S2 S3 S4 S5] Ha Hs.
  assert (Hlt : a < length (vars st)) by (eapply nth_error_lt; eauto).
  apply nodup_middle in S4. destruct S4 as [S4a S4b].
  assert (Hq : forall b l0, ptr_at (set_slot a (VPtr l) st) b l0 -> (b = a /\ l0 = l) \/ (b <> a /\ ptr_at st b l0)).
  { intros b l0 H. apply ptr_at_set_slot in H; auto. destruct H as [[-> E]|H]; [inv E; auto|auto]. }
  constructor; cbn [tmps heap set_slot set_vars live].
  - intros b l0 H. apply Hq in H. destruct H as [[-> ->]|[_ H]]; [apply S3; rewrite in_middle; auto|eauto].
  - intros b c l0 H1 H2. apply Hq in H1. apply Hq in H2.
    destruct H1 as [[-> ->]|[Hb H1]], H2 as [[-> E]|[Hc H2]]; subst; eauto.
    + exfalso. eapply S5; eauto. rewrite in_middle; auto.
    + exfalso. eapply S5; eauto. rewrite in_middle; auto.
  - intros l0 Hin. apply S3. rewrite in_middle; auto.
  - auto.
  - intros b l0 H Hin. apply Hq in H. destruct H as [[-> ->]|[_ H]]; auto. eapply S5; eauto. rewrite in_middle; auto.
Qed.

(* an assignment target: its old buffer is freed (Sep_release), then it adopts the new one *)
Lemma Sep_replace : forall X st a l l' st1,
  Sep (l' :: X) st -> ptr_at st a l -> free l st = Ok st1 ->
  Sep X (set_slot a (VPtr l') st1).
Proof.
  intros X st a l l' st1 HS Hp Hf.
  assert (H1 : Sep (l' :: X) (set_slot a VDead st1)) by (eapply Sep_release; eauto; discriminate).
  assert (Ha : a < length (vars st1)).
  { apply free_ok in Hf; [|eapply sep_live; eauto]. destruct Hf as (_ & _ & Hv & _). rewrite Hv. eapply nth_error_lt; eauto. }
  replace (set_slot a (VPtr l') st1) with (set_slot a (VPtr l') (set_slot a VDead st1)).
  - apply (Sep_adopt X _ a VDead l'); auto; [|discriminate]. cbn. apply nth_error_upd_eq; auto.
  - unfold set_slot, set_vars. cbn. rewrite upd_upd. reflexivity.
Qed.

Lemma Sep_new_var_nonptr : forall X st s a st',
  Sep X st -> (forall l, s <> VPtr l) -> new_var s st = (a, st') -> Sep X st'.
Proof.
  intros X st s a st' HS Hs Hn. apply new_var_spec in Hn. destruct Hn as (-> & Hv & Hh & Ht & Ho).
  apply (Sep_mono X st); auto; [|unfold live; rewrite Hh; auto].
  unfold ptr_at. intros b l' H. rewrite Hv, nth_error_app_snoc in H.
  destruct (Nat.ltb_spec b (length (vars st))); auto.
  destruct (Nat.eqb_spec b (length (vars st))); [|discriminate H]. inv H. exfalso. eapply Hs; eauto.
Qed.

Lemma Sep_new_var_int : forall X st z a st',
  Sep X st -> new_var (VInt z) st = (a, st') -> Sep X st'.
Proof. intros X st z a st' HS Hn. eapply Sep_new_var_nonptr; eauto. discriminate. Qed.

(* a new variable for a buffer held so far by an extra owner: a new empty variable, which adopts it *)
Lemma Sep_new_var_ptr : forall X st l a st',
  Sep (l :: X) st -> new_var (VPtr l) st = (a, st') -> Sep X st'.
Proof.
  intros X st l a st' HS Hn. unfold new_var in Hn. inv Hn.
  assert (S0 : Sep (l :: X) (set_vars st (vars st ++ [VDead]))).
  { apply (Sep_new_var_nonptr _ st VDead (length (vars st))); auto. discriminate. }
  replace (set_vars st (vars st ++ [VPtr l])) with (set_slot (length (vars st)) (VPtr l) (set_vars st (vars st ++ [VDead]))).
  - apply (Sep_adopt X _ _ VDead l); auto; [|discriminate]. cbn. apply nth_error_app_new.
  - unfold set_slot, set_vars. cbn. rewrite upd_snoc. reflexivity.
Qed.

Lemma set_slot_keeps : forall st a s b, b <> a -> keeps st (set_slot a s st) b.
Proof. intros. split; cbn; auto. apply nth_error_upd_neq; auto. Qed.

(* in-place write into the buffer of variable a *)
Lemma Sep_write : forall X st a l c st',
  Sep X st -> ptr_at st a l -> write l c st = Ok st' -> Sep X st'.
Proof.
  intros X st a l c st' HS Hp Hw. apply write_ok in Hw. destruct Hw as (Hl & Hh & Hv & Ht & Ho).
  rewrite (target_live st l) in Hh, Hl by (eapply sep_live; eauto).
  apply (Sep_mono X st); auto; [unfold ptr_at; rewrite Hv; auto|].
  intros l' [c0 Hc]. unfold live. rewrite Hh, nth_error_upd.
  destruct (Nat.eqb_spec l l'); [|eauto]. subst. apply nth_error_lt in Hc.
  destruct (Nat.ltb_spec l' (length (heap st))); [eauto | lia].
Qed.

Lemma write_keeps : forall X st a l c st' b,
  Sep X st -> ptr_at st a l -> write l c st = Ok st' -> b <> a -> keeps st st' b.
Proof.
  intros X st a l c st' b HS Hp Hw Hne. apply write_ok in Hw. destruct Hw as (Hl & Hh & Hv & Ht & Ho).
  rewrite (target_live st l) in Hh, Hl by (eapply sep_live; eauto).
  split; [congruence|]. intros l' Hp'. rewrite Hh. apply nth_error_upd_neq.
  intros ->. apply Hne. eapply (sep_inj _ _ HS); eauto.
Qed.

Lemma free_list_spec : forall ls st st',
  free_list ls st = Ok st' -> (forall l, In l ls -> live st l) -> NoDup ls ->
  vars st' = vars st /\ tmps st' = tmps st /\ out st' = out st /\ length (heap st') = length (heap st) /\
  (forall l, ~ In l ls -> nth_error (heap st') l = nth_error (heap st) l) /\
  (forall l, In l ls -> l < length (heap st)).
Proof.
  induction ls as [|l ls IH]; cbn; intros st st' H Hlv Hnd.
  - inv H. repeat split; auto. contradiction.
  - bind_as H st1 Hb Hk. apply free_ok in Hb; [|auto]. destruct Hb as (Hl & Hh & Hv & Ht & Ho). inv Hnd.
    apply IH in Hk; auto.
    + destruct Hk as (K1 & K2 & K3 & K4 & K5 & K6).
      repeat split; try congruence.
      * rewrite K4, Hh, upd_length. auto.
      * intros l' Hn. rewrite K5 by tauto. rewrite Hh. apply nth_error_upd_neq. tauto.
      * intros l' [<-|Hin]; auto. apply K6 in Hin. rewrite Hh, upd_length in Hin. auto.
    + intros l' Hin. destruct (Hlv l' (or_intror Hin)) as [c Hc]. exists c. rewrite Hh, nth_error_upd_neq; auto.
      intros ->. auto.
Qed.

Lemma nodup_app_disj : forall (t X : list nat) l, NoDup (t ++ X) -> In l t -> In l X -> False.
Proof.
  induction t as [|y t IH]; cbn; intros X l H Ht Hx; [contradiction|].
  inv H. destruct Ht as [->|Ht]; [apply H2; apply in_or_app; auto | eauto].
Qed.

Lemma nodup_app_l : forall (t X : list nat), NoDup (t ++ X) -> NoDup t.
Proof.
  induction t as [|y t IH]; cbn; intros X H; [constructor|]. inv H. constructor; eauto.
  intro Hi. apply H2. apply in_or_app; auto.
Qed.

Lemma nodup_app_r : forall (t X : list nat), NoDup (t ++ X) -> NoDup X.
Proof. induction t as [|y t IH]; cbn; intros X H; auto. inv H. auto. Qed.

Lemma end_stmt_spec : forall X st st',
  Sep X st -> end_stmt st = Ok st' ->
  Sep X st' /\ tmps st' = [] /\ vars st' = vars st /\ out st' = out st /\ (forall a, keeps st st' a).
Proof.
  intros X st st' [S1 S2 S3 S4 S5] H. unfold end_stmt in H. bind_as H a Hb Hk. inv Hk.
  apply free_list_spec in Hb; [|intros l Hl; apply S3; apply in_or_app; auto|eapply nodup_app_l; eauto].
  destruct Hb as (K1 & K2 & K3 & K4 & K5 & K6).
  assert (Hk : forall l, ~ In l (tmps st) -> live st l -> live (set_tmps a []) l).
  { intros l Hn [c Hc]. exists c. cbn. rewrite K5; auto. }
  split; [|repeat split; cbn; auto].
  - constructor; unfold ptr_at in *; cbn [vars tmps set_tmps app]; rewrite ?K1.
    + intros b l Hp. apply Hk; eauto. intros Hin. eapply S5; eauto. apply in_or_app; auto.
    + eauto.
    + intros l Hin. apply Hk. { intros Hi. eapply nodup_app_disj; eauto. } apply S3. apply in_or_app; auto.
    + eapply nodup_app_r; eauto.
    + intros b l Hp Hin. eapply S5; eauto. apply in_or_app; auto.
  - congruence.
  - intros l Hp. apply K5. intros Hin. eapply S5; eauto. apply in_or_app; auto.
Qed.

Definition rv_ok (st : state) (v : rv) : Prop :=
  match v with
  | RInt _ => True
  | RSeq l true => In l (tmps st)
  | RSeq l false => exists a, ptr_at st a l
  end.

Lemma ext_keeps : forall X st st' a, Sep X st -> ext st st' -> keeps st st' a.
Proof.
  intros X st st' a HS He. split; [destruct He as (-> & _); auto|].
  intros l Hp. apply ext_heap; auto. apply live_lt. eapply sep_live; eauto.
Qed.

Lemma rv_ok_ext : forall st st' v, ext st st' -> rv_ok st v -> rv_ok st' v.
Proof.
  intros st st' [z|l [|]] (E1 & _ & _ & [t E4] & _); cbn; auto.
  - intros H. rewrite E4. apply in_or_app; auto.
  - intros [a H]. exists a. unfold ptr_at in *. congruence.
Qed.

Lemma Sep_alloc_tmp : forall X st c l st1, Sep X st -> alloc (Live c) st = (l, st1) -> Sep X (add_tmp l st1).
Proof. intros X st c l st1 HS Ha. destruct (Sep_alloc _ _ _ _ _ HS Ha) as [HS1 HU]. apply Sep_add_tmp; eauto. Qed.

Lemma rv_read_live : forall X st l tmp, Sep X st -> rv_ok st (RSeq l tmp) -> live st l.
Proof.
  intros X st l [|] HS H; cbn in H.
  - eapply sep_xlive; eauto. apply in_or_app; auto.
  - destruct H as [a H]. eapply sep_live; eauto.
Qed.

(* evaluation preserves the separation; a value is a temporary or what a variable holds *)
Lemma eval_spec : forall X e x st v st',
  eval e x st = Ok (v, st') -> Sep X st ->
  Sep X st' /\ ext st st' /\ rv_ok st' v.
Proof.
  intros X e x st v st' H HS. enough (Sep X st' /\ rv_ok st' v) by (pose proof (eval_ext _ _ _ _ _ H); tauto).
  revert st v st' H HS.
  induction x as [z|y|c|a IHa b IHb|a IHa i IHi|a IHa]; intros st v st' H HS; cbn in H.
  - inv H. split; [auto | exact I].
  - destruct (lookup e y) as [ad|]; [|discriminate H]. bind_as H s Hs H. apply get_slot_ok in Hs.
    destruct s as [z|l|]; inv H; (split; [auto | cbn; eauto]).
  - destruct (alloc (Live c) st) as [l st1] eqn:Ea. inv H. split; [eapply Sep_alloc_tmp; eauto | cbn; auto].
  - bind_as H r Ha H. destruct r as [va st1]. bind_as H r Hb H. destruct r as [vb st2].
    destruct (IHa _ _ _ Ha HS) as (S1 & _). destruct (IHb _ _ _ Hb S1) as (S2 & _).
    destruct va as [z|la ta]; [discriminate H|]. bind_as H ca Hca H. bind_as H cb Hcb H.
    destruct (alloc (Live (ca ++ cb)) st2) as [l st3] eqn:Ea. inv H. split; [eapply Sep_alloc_tmp; eauto | cbn; auto].
  - bind_as H r Ha H. destruct r as [va st1]. bind_as H r Hi H. destruct r as [vi st2].
    destruct (IHa _ _ _ Ha HS) as (S1 & _). destruct (IHi _ _ _ Hi S1) as (S2 & _).
    destruct va as [z|la ta]; [discriminate H|]. destruct vi as [z|li ti]; [|discriminate H].
    bind_as H ca Hca H. destruct (idx_ok z (length ca)); inv H. split; [auto | exact I].
  - bind_as H r Ha H. destruct r as [va st1]. destruct (IHa _ _ _ Ha HS) as (S1 & _).
    destruct va as [z|la ta]; [discriminate H|]. bind_as H ca Hca H. inv H. split; [auto | exact I].
Qed.

(* claimOrCopy: the receiver gets a buffer nobody else holds *)
Lemma claim_or_copy_spec : forall X st l tmp l' st',
  Sep X st -> rv_ok st (RSeq l tmp) -> claim_or_copy l tmp st = Ok (l', st') ->
  Sep (l' :: X) st' /\ vars st' = vars st /\ out st' = out st /\
  (forall k, k < length (heap st) -> nth_error (heap st') k = nth_error (heap st) k) /\
  (forall x, In x (tmps st') -> In x (tmps st)) /\
  (exists c, nth_error (heap st) l = Some (Live c) /\ nth_error (heap st') l' = Some (Live c)).
Proof.
  intros X st l tmp l' st' HS Hr H. unfold claim_or_copy in H. destruct tmp.
  - inv H. cbn in Hr. split; [apply Sep_claim; auto|]. cbn. split; [auto|split; [auto|split; [auto|split]]].
    + intros x Hx. eapply remove_nat_in; eauto.
    + destruct (rv_read_live _ _ _ true HS Hr) as [c Hc]. eauto.
  - unfold copy_of in H. bind_as H a Hb Hk. apply read_ok_live in Hb; [|eapply rv_read_live; eauto].
    destruct (alloc (Live a) st) as [l0 st0] eqn:Ea. inv Hk.
    pose proof (Sep_alloc _ _ _ _ _ HS Ea) as [HS1 HU].
    apply alloc_spec in Ea. destruct Ea as (-> & Hh & Hv & Ht & Ho).
    split; [apply Sep_add_x; eauto|]. split; [auto|split; [auto|split; [|split]]].
    + intros k Hk. rewrite Hh. apply nth_error_app1; auto.
    + rewrite Ht. auto.
    + exists a. split; auto. rewrite Hh. apply nth_error_app_new.
Qed.

(* the slot the receiver gets holds the value: the same number, or a buffer of its own with the same contents *)
Definition holds (v : rv) (h : list cell) (s : slot) (h' : list cell) : Prop :=
  match v, s with
  | RInt z, VInt z' => z' = z
  | RSeq l _, VPtr l' => exists c, nth_error h l = Some (Live c) /\ nth_error h' l' = Some (Live c)
  | _, _ => False
  end.

Lemma own_value_spec : forall X st v s st',
  Sep X st -> rv_ok st v -> own_value v st = Ok (s, st') ->
  match s with VPtr l => Sep (l :: X) st' | VInt _ => Sep X st' | VDead => False end /\
  vars st' = vars st /\ out st' = out st /\
  (forall k, k < length (heap st) -> nth_error (heap st') k = nth_error (heap st) k) /\
  (forall x, In x (tmps st') -> In x (tmps st)) /\
  holds v (heap st) s (heap st').
Proof.
  intros X st v s st' HS Hr H. destruct v as [z|l tmp]; cbn in H.
  - inv H. split; [auto|split; [auto|split; [auto|split; [auto|split; [auto|reflexivity]]]]].
  - bind_as H r Hb Hk. destruct r as [l' st1]. inv Hk.
    destruct (claim_or_copy_spec _ _ _ _ _ _ HS Hr Hb) as (A1 & A2 & A3 & A4 & A5 & A6).
    split; [auto|split; [auto|split; [auto|split; [auto|split; [auto|exact A6]]]]].
Qed.

Lemma heap_keeps : forall X st st' a, Sep X st -> vars st' = vars st ->
  (forall k, k < length (heap st) -> nth_error (heap st') k = nth_error (heap st) k) -> keeps st st' a.
Proof.
  intros X st st' a HS Hv Hh. split; [congruence|]. intros l Hp. apply Hh. apply live_lt. eapply sep_live; eauto.
Qed.

Lemma store_value_spec : forall X st a v st',
  Sep X st -> rv_ok st v -> store_value a v st = Ok st' ->
  Sep X st' /\ length (vars st') = length (vars st) /\ out st' = out st /\
  (forall x, In x (tmps st') -> In x (tmps st)) /\
  (forall b, b <> a -> keeps st st' b).
Proof.
  intros X st a v st' HS Hr H. unfold store_value in H. bind_as H s Hb Hk. apply get_slot_ok in Hb.
  destruct s as [z0|lold|]; destruct v as [z|l tmp]; try discriminate Hk.
  - inv Hk. split; [eapply Sep_set_int; eauto|]. cbn. rewrite upd_length.
    split; [auto|split; [auto|split; [auto|]]]. intros b Hne. apply set_slot_keeps; auto.
  - bind_as Hk r C1 Hk. destruct r as [l' st2']. bind_as Hk st2 C2 Hk. inv Hk.
    destruct (claim_or_copy_spec _ _ _ _ _ _ HS Hr C1) as (A1 & A2 & A3 & A4 & A5 & A6).
    assert (Hp : ptr_at st2' a lold) by (unfold ptr_at; congruence).
    split; [eapply Sep_replace; eauto|].
    pose proof (free_ok _ _ _ C2 (sep_live _ _ A1 _ _ Hp)) as (F1 & F2 & F3 & F4 & F5).
    cbn. rewrite upd_length. split; [congruence|split; [congruence|split]].
    + rewrite F4. auto.
    + intros b Hneb. eapply keeps_trans; [eapply heap_keeps; eauto|].
      eapply release_keeps; eauto.
Qed.

(* the effect of a statement: the invariant again, no temporaries left, the same frame base, no variable
   lost, and no variable outside P changed *)
Record step_ok (X : list nat) (st st' : state) (P : nat -> Prop) : Prop := mkStep {
  so_sep : Sep X st';
  so_tmps : tmps st' = [];
  so_fbase : fbase st' = fbase st;
  so_len : length (vars st) <= length (vars st');
  so_keeps : forall b, b < length (vars st) -> ~ P b -> keeps st st' b }.

Lemma step_ok_trans : forall X st st1 st2 (P P' : nat -> Prop),
  step_ok X st st1 P -> step_ok X st1 st2 P' ->
  (forall b, b < length (vars st) -> ~ P b -> ~ P' b) ->
  step_ok X st st2 P.
Proof.
  intros X st st1 st2 P P' [A1 A2 A0 A3 A4] [B1 B2 B0 B3 B4] HP.
  constructor; [auto|auto|congruence|lia|].
  intros b Hb Hn. eapply keeps_trans; [apply A4; auto|apply B4; [lia|auto]].
Qed.

Lemma step_ok_weaken : forall X st st' (P P' : nat -> Prop),
  step_ok X st st' P -> (forall b, b < length (vars st) -> P b -> P' b) -> step_ok X st st' P'.
Proof.
  intros X st st' P P' [A1 A2 A0 A3 A4] HP. constructor; auto.
Qed.

(* every statement ends by freeing its temporaries *)
Lemma step_end : forall X st st2 st' (P : nat -> Prop),
  Sep X st2 -> end_stmt st2 = Ok st' -> fbase st2 = fbase st -> length (vars st) <= length (vars st2) ->
  (forall b, b < length (vars st) -> ~ P b -> keeps st st2 b) ->
  step_ok X st st' P /\ vars st' = vars st2 /\ out st' = out st2.
Proof.
  intros X st st2 st' P HS He Hf Hl Hk. destruct (end_stmt_spec _ _ _ HS He) as (T1 & T2 & T3 & T4 & T5).
  split; [|auto]. constructor; auto.
  - rewrite (end_stmt_fbase _ _ He). exact Hf.
  - rewrite T3. exact Hl.
  - intros b Hb Hn. eapply keeps_trans; [apply Hk; auto|apply T5].
Qed.

(* a value is evaluated, taken into a slot of its own (own_value) and a new variable is made of it: what a
   declaration and the binding of a value parameter have in common *)
Lemma eval_own_var : forall X e ex st v st1 s st2 a st3,
  eval e ex st = Ok (v, st1) -> own_value v st1 = Ok (s, st2) -> new_var s st2 = (a, st3) -> Sep X st ->
  Sep X st3 /\ a = length (vars st) /\ vars st3 = vars st ++ [s] /\ out st3 = out st /\ fbase st3 = fbase st /\
  (forall b, b < length (vars st) -> keeps st st3 b) /\ holds v (heap st1) s (heap st3).
Proof.
  intros X e ex st v st1 s st2 a st3 Hev Hown En HS.
  destruct (eval_spec _ _ _ _ _ _ Hev HS) as (S1 & E1 & R1). pose proof E1 as (Ev & Eo & _ & _ & Ef).
  destruct (own_value_spec _ _ _ _ _ S1 R1 Hown) as (O1 & O2 & O3 & O4 & O5 & O6).
  pose proof (new_var_fbase _ _ _ _ En) as Fn. pose proof (new_var_spec _ _ _ _ En) as (Ea & N2 & N3 & N4 & N5).
  split; [|split; [congruence|split; [congruence|split; [congruence|split; [|split]]]]].
  - destruct s as [z|l|]; [eapply Sep_new_var_int; eauto | eapply Sep_new_var_ptr; eauto | contradiction].
  - rewrite Fn, (own_value_fbase _ _ _ _ Hown). exact Ef.
  - intros b Hb'. eapply keeps_trans; [eapply ext_keeps; eauto|].
    eapply keeps_trans; [eapply heap_keeps; eauto|]. eapply new_var_keeps; eauto. rewrite O2, Ev. auto.
  - rewrite N3. exact O6.
Qed.

Lemma do_decl_spec : forall X e x ex st e' st',
  do_decl e x ex st = Ok (e', st') -> Sep X st ->
  step_ok X st st' (fun _ => False) /\ e' = (x, length (vars st)) :: e /\ length (vars st') = S (length (vars st)) /\
  out st' = out st /\
  (* the new variable holds the value of the expression *)
  exists v st1 s, eval e ex st = Ok (v, st1) /\ nth_error (vars st') (length (vars st)) = Some s /\
                  holds v (heap st1) s (heap st').
Proof.
  intros X e x ex st e' st' H HS. unfold do_decl in H.
  bind_as H r Hev H. destruct r as [v st1]. bind_as H r Hown H. destruct r as [s st2].
  destruct (new_var s st2) as [ad st3] eqn:En. bind_as H st4 Hend H. inv H.
  destruct (eval_own_var _ _ _ _ _ _ _ _ _ _ Hev Hown En HS) as (S3 & -> & V3 & O3 & F3 & K3 & H3).
  assert (Hs : nth_error (vars st3) (length (vars st)) = Some s) by (rewrite V3; apply nth_error_app_new).
  destruct (step_end X st st3 st' (fun _ => False) S3 Hend F3) as (D & Dv & Do).
  - rewrite V3, app_length. lia.
  - intros b Hb' _. auto.
  - split; [exact D|split; [auto|split; [rewrite Dv, V3, app_length; cbn; lia|split; [congruence|]]]].
    exists v, st1, s. split; [auto|split; [congruence|]].
    destruct v as [z|l t], s as [z'|l'|]; cbn in H3 |- *; auto. destruct H3 as (c & C1 & C2). exists c. split; [auto|].
    destruct (end_stmt_spec _ _ _ S3 Hend) as (_ & _ & _ & _ & T5). rewrite (proj2 (T5 _) l' Hs). exact C2.
Qed.

Lemma do_assign_spec : forall X e x ex st st',
  do_assign e x ex st = Ok st' -> Sep X st ->
  exists a, lookup e x = Some a /\ step_ok X st st' (fun b => b = a) /\ length (vars st') = length (vars st).
Proof.
  intros X e x ex st st' H HS. unfold do_assign in H.
  bind_as H r Hev H. destruct r as [v st1]. destruct (lookup e x) as [ad|]; [|discriminate H]. bind_as H st2 Hst H.
  destruct (eval_spec _ _ _ _ _ _ Hev HS) as (S1 & E1 & R1). pose proof E1 as (Ev & _).
  destruct (store_value_spec _ _ _ _ _ S1 R1 Hst) as (V1 & V2 & V3 & V4 & V5).
  exists ad. split; auto.
  destruct (step_end X st st2 st' (fun b => b = ad) V1 H) as (D & Dv & _).
  - rewrite (store_value_fbase _ _ _ _ Hst). apply E1.
  - rewrite V2, Ev. auto.
  - intros b Hb' Hne. eapply keeps_trans; [eapply ext_keeps; [exact HS|eassumption]|apply V5; auto].
  - split; [exact D|congruence].
Qed.

Lemma do_assign_idx_spec : forall X e x i v st st',
  do_assign_idx e x i v st = Ok st' -> Sep X st ->
  exists a, lookup e x = Some a /\ step_ok X st st' (fun b => b = a) /\ length (vars st') = length (vars st).
Proof.
  intros X e x i v st st' H HS. unfold do_assign_idx in H.
  bind_as H r Hev1 H. destruct r as [vv st1]. bind_as H r Hev2 H. destruct r as [vi st2].
  destruct (lookup e x) as [ad|]; [|discriminate H].
  destruct vv as [zv|? ?]; [|discriminate H]. destruct vi as [zi|? ?]; [|discriminate H].
  bind_as H s Hs H. apply get_slot_ok in Hs. destruct s as [?|l|]; try discriminate H.
  bind_as H c Hc H. destruct (idx_ok zi (length c)); [|discriminate H]. bind_as H st3 Hw H.
  destruct (eval_spec _ _ _ _ _ _ Hev1 HS) as (S1 & E1 & R1).
  destruct (eval_spec _ _ _ _ _ _ Hev2 S1) as (S2 & E2 & R2).
  pose proof (ext_trans _ _ _ E1 E2) as E12. pose proof E12 as (Ev & _).
  assert (Hp : ptr_at st2 ad l) by exact Hs.
  pose proof (write_ok _ _ _ _ Hw) as (W1 & W2 & W3 & W4 & W5).
  exists ad. split; auto.
  destruct (step_end X st st3 st' (fun b => b = ad) (Sep_write _ _ _ _ _ _ S2 Hp Hw) H) as (D & Dv & _).
  - rewrite (write_fbase _ _ _ _ Hw). apply E12.
  - rewrite W3, Ev. auto.
  - intros b Hb' Hne. eapply keeps_trans; [eapply ext_keeps; [exact HS|eassumption]|eapply write_keeps; eauto].
  - split; [exact D|congruence].
Qed.

Lemma do_print_spec : forall X e ex st st',
  do_print e ex st = Ok st' -> Sep X st ->
  step_ok X st st' (fun _ => False) /\ length (vars st') = length (vars st).
Proof.
  intros X e ex st st' H HS. unfold do_print in H.
  bind_as H r Hev H. destruct r as [v st1].
  destruct (eval_spec _ _ _ _ _ _ Hev HS) as (S1 & E1 & R1). pose proof E1 as (Ev & _).
  assert (K : exists o, end_stmt (add_out st1 o) = Ok st').
  { destruct v as [z|l t]; [eauto|]. bind_as H c Hc H. eauto. }
  destruct K as [o K].
  assert (S1' : Sep X (add_out st1 o)) by (apply (Sep_mono X st1); auto).
  destruct (step_end X st (add_out st1 o) st' (fun _ => False) S1' K) as (D & Dv & _).
  - apply E1.
  - cbn. rewrite Ev. auto.
  - intros b Hb' _. eapply keeps_trans; [eapply ext_keeps; [exact HS|eassumption]|]. split; auto.
  - split; [exact D|]. cbn in Dv. congruence.
Qed.

Lemma do_cond_spec : forall X e c st b st',
  do_cond e c st = Ok (b, st') -> Sep X st ->
  step_ok X st st' (fun _ => False) /\ vars st' = vars st /\ out st' = out st.
Proof.
  intros X e c st b st' H HS. unfold do_cond in H.
  bind_as H r Hev H. destruct r as [v st1]. destruct v as [z|? ?]; [|discriminate H]. bind_as H st2 Hend H. inv H.
  destruct (eval_spec _ _ _ _ _ _ Hev HS) as (S1 & E1 & R1). pose proof E1 as (Ev & Eo & _).
  destruct (step_end X st st1 st' (fun _ => False) S1 Hend) as (D & Dv & Do).
  - apply E1.
  - rewrite Ev. auto.
  - intros b' Hb' _. eapply ext_keeps; eauto.
  - split; [exact D|split; congruence].
Qed.

Lemma for_init_spec : forall X e ex st lc c st',
  for_init e ex st = Ok (lc, c, st') -> Sep X st ->
  step_ok (lc :: X) st st' (fun _ => False) /\ vars st' = vars st /\ out st' = out st.
Proof.
  intros X e ex st lc c st' H HS. unfold for_init in H.
  bind_as H r Hev H. destruct r as [v st1]. destruct v as [?|l tmp]; [discriminate H|].
  bind_as H r Hcc H. destruct r as [lc' st2]. bind_as H c' Hc H. bind_as H st3 Hend H. inv H.
  destruct (eval_spec _ _ _ _ _ _ Hev HS) as (S1 & E1 & R1). pose proof E1 as (Ev & Eo & _).
  destruct (claim_or_copy_spec _ _ _ _ _ _ S1 R1 Hcc) as (A1 & A2 & A3 & A4 & A5 & A6).
  destruct (step_end (lc :: X) st st2 st' (fun _ => False) A1 Hend) as (D & Dv & Do).
  - rewrite (claim_or_copy_fbase _ _ _ _ _ Hcc). apply E1.
  - rewrite A2, Ev. auto.
  - intros b' Hb' _. eapply keeps_trans; [eapply ext_keeps; [exact HS|eassumption]|eapply heap_keeps; eauto].
  - split; [exact D|split; congruence].
Qed.

Definition env_ok (genv e : env) (st : state) : Prop :=
  (forall a, In a (map snd e) -> a < length (vars st)) /\ incl (map snd genv) (map snd e).

Lemma env_ok_mono : forall genv e st st', env_ok genv e st -> length (vars st) <= length (vars st') -> env_ok genv e st'.
Proof. intros genv e st st' [H1 H2] Hl. split; auto. intros a Ha. apply H1 in Ha. lia. Qed.

Lemma env_ok_decl : forall genv e sc sc' x, env_ok genv e sc -> length (vars sc) < length (vars sc') ->
  env_ok genv ((x, length (vars sc)) :: e) sc'.
Proof.
  intros genv e sc sc' x [H1 H2] Hl. split.
  - cbn. intros a [<-|Ha]; [lia|]. apply H1 in Ha. lia.
  - intros a Ha. cbn. right. auto.
Qed.

(* what the recursive executor is assumed to satisfy (instantiated by induction on the fuel) *)
Definition ex_ok (genv : env) (ex : env -> list stmt -> state -> res state) : Prop :=
  forall X e ss st st', ex e ss st = Ok st' -> Sep X st -> tmps st = [] -> env_ok genv e st ->
    step_ok X st st' (fun b => In b (map snd e)).

(* a step that changes only variables the environment names, followed by the rest of the block *)
Lemma step_then : forall genv ex X e rest st st1 st' (P : nat -> Prop),
  ex_ok genv ex -> step_ok X st st1 P -> (forall b, P b -> In b (map snd e)) -> env_ok genv e st ->
  ex e rest st1 = Ok st' -> step_ok X st st' (fun b => In b (map snd e)).
Proof.
  intros genv ex X e rest st st1 st' P Hex D HP He H.
  pose proof (Hex _ _ _ _ _ H (so_sep _ _ _ _ D) (so_tmps _ _ _ _ D) (env_ok_mono _ _ _ _ He (so_len _ _ _ _ D))) as R.
  eapply step_ok_trans; [eapply step_ok_weaken; [exact D|auto]|exact R|auto].
Qed.

Lemma for_loop_spec : forall genv ex x body e c X st st',
  ex_ok genv ex ->
  for_loop ex x body e c st = Ok st' -> Sep X st -> tmps st = [] -> env_ok genv e st ->
  step_ok X st st' (fun b => In b (map snd e)).
Proof.
  intros genv ex x body e c. induction c as [|z c IH]; intros X st st' Hex H HS Ht He; cbn in H.
  - inv H. constructor; auto. intros; apply keeps_refl.
  - destruct (new_var (VInt z) st) as [a st1] eqn:En. bind_as H st2 Hbody H.
    pose proof (Sep_new_var_int _ _ _ _ _ HS En) as S1.
    pose proof (new_var_fbase _ _ _ _ En) as Fb.
    pose proof (new_var_spec _ _ _ _ En) as (-> & N2 & N3 & N4 & N5).
    assert (L1 : length (vars st1) = S (length (vars st))) by (rewrite N2, app_length; cbn; lia).
    assert (He1 : env_ok genv ((x, length (vars st)) :: e) st1) by (apply env_ok_decl; auto; lia).
    destruct (Hex X _ _ _ _ Hbody S1 (eq_trans N4 Ht) He1) as [B1 B2 B0 B3 B4].
    assert (L2 : length (vars st) <= length (vars st2)) by lia.
    pose proof (IH X st2 st' Hex H B1 B2 (env_ok_mono _ _ _ _ He L2)) as S2.
    eapply step_ok_trans with (st1 := st2); [|exact S2|auto].
    constructor; [auto|auto|congruence|auto|].
    intros b Hb' Hn. eapply keeps_trans; [eapply new_var_keeps; eauto|].
    apply B4; [lia|]. cbn. intros [E|Hi]; [lia|auto].
Qed.

(* for-each up to the release of its holder lc, which is an extra owner while the loop runs *)
Lemma for_step : forall genv ex X e x ex0 body st lc c st1 st2 st3,
  ex_ok genv ex ->
  for_init e ex0 st = Ok (lc, c, st1) -> for_loop ex x body e c st1 = Ok st2 -> free lc st2 = Ok st3 ->
  Sep X st -> tmps st = [] -> env_ok genv e st ->
  step_ok X st st3 (fun b => In b (map snd e)) /\
  step_ok (lc :: X) st st1 (fun _ => False) /\ step_ok (lc :: X) st1 st2 (fun b => In b (map snd e)).
Proof.
  intros genv ex X e x ex0 body st lc c st1 st2 st3 Hex Hd Hl Hf HS Ht He.
  destruct (for_init_spec _ _ _ _ _ _ _ Hd HS) as (D1 & _).
  pose proof (for_loop_spec _ _ _ _ _ _ _ _ _ Hex Hl (so_sep _ _ _ _ D1) (so_tmps _ _ _ _ D1)
                (env_ok_mono _ _ _ _ He (so_len _ _ _ _ D1))) as R1.
  split; [|auto]. destruct D1 as [A1 A2 A0 A3 A4], R1 as [B1 B2 B0 B3 B4].
  pose proof (free_ok _ _ _ Hf (sep_xlive _ _ B1 lc ltac:(rewrite in_middle; auto))) as (F1 & F2 & F3 & F4 & F5).
  constructor; [eapply Sep_free_x; eauto|congruence|rewrite (free_fbase _ _ _ Hf); congruence|rewrite F3; lia|].
  intros b Hb Hn. eapply keeps_trans; [apply A4; auto|].
  eapply keeps_trans; [apply B4; [lia|auto]|eapply free_x_keeps; eauto].
Qed.

Fixpoint ref_addrs (e : env) (args : list arg) : list nat :=
  match args with
  | [] => []
  | ARef x :: r => match lookup e x with Some a => a :: ref_addrs e r | None => ref_addrs e r end
  | AVal _ :: r => ref_addrs e r
  end.

Lemma ref_addrs_in : forall e args b, In b (ref_addrs e args) -> In b (map snd e).
Proof.
  induction args as [|[ex|x] args IH]; cbn; intros b H; auto; [contradiction|].
  destruct (lookup e x) eqn:El; auto. destruct H as [<-|H]; auto. eapply lookup_in; eauto.
Qed.

Lemma ref_addrs_cons : forall e a args, ref_addrs e (a :: args) = ref_addrs e [a] ++ ref_addrs e args.
Proof. intros e [ex|x] args; cbn; [reflexivity|]. destruct (lookup e x); reflexivity. Qed.

(* one parameter, copy mode: bound to the address of a Referenz argument, or to a new variable that owns the value
   of the argument (as in a declaration) *)
Lemma bind_one_copy_spec : forall mt all f i p a e X st ad st3,
  bind_one false mt all f i p a e st = Ok (ad, st3) -> Sep X st ->
  Sep X st3 /\ length (vars st) <= length (vars st3) /\ out st3 = out st /\
  (forall b, b < length (vars st) -> keeps st st3 b) /\
  (In ad (ref_addrs e [a]) \/ length (vars st) <= ad < length (vars st3)).
Proof.
  intros mt all f i p a e X st ad st3 H HS. unfold bind_one in H.
  destruct (pref p); destruct a as [ex|x]; try discriminate H.
  - destruct (lookup e x) as [ad'|] eqn:El; inv H.
    split; [auto|split; [lia|split; [auto|split; [intros; apply keeps_refl|left; cbn; rewrite El; cbn; auto]]]].
  - bind_as H r Hev H. destruct r as [v st1]. cbn [andb] in H.
    assert (Hown : exists s st2, own_value v st1 = Ok (s, st2) /\ new_var s st2 = (ad, st3)).
    { destruct v as [z|l tmp]; cbn [own_value].
      - exists (VInt z), st1. destruct (new_var (VInt z) st1) eqn:En. inv H. auto.
      - bind_as H r Hcc H. destruct r as [l' st2]. exists (VPtr l'), st2. rewrite Hcc. cbn [bind].
        destruct (new_var (VPtr l') st2) eqn:En. inv H. auto. }
    destruct Hown as (s & st2 & Hown & En).
    destruct (eval_own_var _ _ _ _ _ _ _ _ _ _ Hev Hown En HS) as (S3 & -> & V3 & O3 & F3 & K3 & H3).
    split; [auto|split; [rewrite V3, app_length; lia|split; [auto|split; [auto|]]]].
    right. rewrite V3, app_length. cbn. lia.
Qed.

Lemma bind_params_copy_spec : forall mt all f ps i args e ce X st ce' st',
  bind_params false mt all f i ps args e ce st = Ok (ce', st') -> Sep X st ->
  Sep X st' /\ length (vars st) <= length (vars st') /\ out st' = out st /\
  (forall b, b < length (vars st) -> keeps st st' b) /\
  (forall a, In a (map snd ce') ->
     In a (map snd ce) \/ In a (ref_addrs e args) \/ (length (vars st) <= a < length (vars st'))) /\
  incl (map snd ce) (map snd ce').
Proof.
  intros mt all f ps. induction ps as [|p ps IH]; intros i args e ce X st ce' st' H HS;
    destruct args as [|a args]; try (cbn in H; discriminate H).
  - cbn in H. inv H. split; [auto|split; [lia|split; [auto|split; [intros; apply keeps_refl|split; [auto|apply incl_refl]]]]].
  - rewrite bind_params_cons in H. bind_as H r H1 H. destruct r as [ad st3].
    destruct (bind_one_copy_spec _ _ _ _ _ _ _ _ _ _ _ H1 HS) as (S3 & L3 & O3 & K3 & Had).
    destruct (IH _ _ _ _ _ _ _ _ H S3) as (A1 & A3 & A4 & A5 & A6 & A7).
    split; [auto|split; [lia|split; [congruence|split; [|split]]]].
    + intros b Hb'. eapply keeps_trans; [apply K3; auto|apply A5; lia].
    + intros a0 Ha. rewrite ref_addrs_cons, in_app_iff. apply A6 in Ha. cbn [map snd In] in Ha.
      destruct Ha as [[<-|Ha]|[Ha|Ha]]; auto.
      * destruct Had; [auto|right; right; lia].
      * right; right; lia.
    + intros a0 Ha. apply A7. cbn. auto.
Qed.

Lemma exit_from_copy_spec : forall n a X st st',
  exit_from n a st = Ok st' -> Sep X st -> a + n = length (vars st) ->
  Sep X st' /\ tmps st' = tmps st /\ out st' = out st /\ length (vars st') = length (vars st) /\
  (forall b, b < a -> keeps st st' b).
Proof.
  induction n as [|n IH]; intros a X st st' H HS Hlen; cbn in H.
  - inv H. split; [auto|split; [auto|split; [auto|split; [auto|intros; apply keeps_refl]]]].
  - bind_as H s Hs H. apply get_slot_ok in Hs. bind_as H st1 Hrel H.
    assert (K : Sep X (set_slot a VDead st1) /\ tmps st1 = tmps st /\ out st1 = out st /\ length (vars st1) = length (vars st) /\
                forall b, b < a -> keeps st (set_slot a VDead st1) b).
    { destruct s as [z|l|].
      2:{ rewrite (release_live l st) in Hrel by (eapply (sep_live _ _ HS); eauto).
          pose proof (free_ok _ _ _ Hrel (sep_live _ _ HS _ _ Hs)) as (F1 & F2 & F3 & F4 & F5).
          split; [eapply Sep_release; eauto; congruence|]. split; [auto|split; [auto|split; [congruence|]]].
          intros b Hb'. eapply release_keeps; eauto. lia. }
      (* a slot without a buffer: nothing is freed *)
      all: inv Hrel; (split; [eapply Sep_set_nonptr; eauto; congruence|]); (split; [auto|split; [auto|split; [auto|]]]);
        intros b Hb'; apply set_slot_keeps; lia. }
    destruct K as (K1 & K2 & K3 & K4 & K5).
    assert (Hlen' : S a + n = length (vars (set_slot a VDead st1))).
    { cbn. rewrite upd_length. lia. }
    destruct (IH _ _ _ _ H K1 Hlen') as (A1 & A2 & A3 & A4 & A5).
    cbn in A2, A3, A4. rewrite upd_length in A4.
    split; [auto|split; [congruence|split; [congruence|split; [congruence|]]]].
    intros b Hb'. eapply keeps_trans; [apply K5; auto | apply A5; lia].
Qed.

Definition ret_shape (result : option rv) (Y : list nat) : Prop :=
  match result with Some (RSeq l t) => Y = [l] /\ t = true | _ => Y = [] end.

Lemma ret_value_spec : forall X ce fr st2 result st6,
  ret_value ce fr st2 = Ok (result, st6) -> Sep X st2 -> tmps st2 = [] ->
  exists Y, Sep (Y ++ X) st6 /\ tmps st6 = [] /\ length (vars st2) <= length (vars st6) /\
            (forall b, b < length (vars st2) -> keeps st2 st6 b) /\ ret_shape result Y.
Proof.
  intros X ce fr st2 result st6 Hret C1 C2. unfold ret_value in Hret. destruct fr as [re|].
  - bind_as Hret r Hev Hret. destruct r as [v st3].
    destruct (eval_spec _ _ _ _ _ _ Hev C1) as (S3 & E3 & R3). pose proof E3 as (Ev & Eo & Eh & Et).
    destruct v as [z|l tmp].
    + bind_as Hret st4 Hend Hret. inv Hret. destruct (end_stmt_spec _ _ _ S3 Hend) as (T1 & T2 & T3 & T4 & T5).
      exists []. split; [auto|split; [auto|split; [rewrite T3, Ev; lia|split; [|exact eq_refl]]]].
      intros b Hb'. eapply keeps_trans; [eapply ext_keeps; eauto | apply T5].
    + bind_as Hret r Hcc Hret. destruct r as [l' st4]. bind_as Hret st5 Hend Hret. inv Hret.
      destruct (claim_or_copy_spec _ _ _ _ _ _ S3 R3 Hcc) as (D1 & D2 & D3 & D4 & D5 & D6).
      destruct (end_stmt_spec _ _ _ D1 Hend) as (T1 & T2 & T3 & T4 & T5).
      exists [l']. split; [auto|split; [auto|split; [rewrite T3, D2, Ev; lia|split; [|split; auto]]]].
      intros b Hb'. eapply keeps_trans; [eapply ext_keeps; eauto |].
      eapply keeps_trans; [eapply heap_keeps; eauto | apply T5].
  - inv Hret. exists []. split; [auto|split; [auto|split; [lia|split; [intros; apply keeps_refl|exact eq_refl]]]].
Qed.

Lemma resume_spec : forall X saved result Y st7,
  Sep (Y ++ saved ++ X) st7 -> tmps st7 = [] -> ret_shape result Y ->
  Sep X (resume saved result st7) /\ vars (resume saved result st7) = vars st7 /\
  heap (resume saved result st7) = heap st7 /\ out (resume saved result st7) = out st7 /\
  (forall v, result = Some v -> rv_ok (resume saved result st7) v).
Proof.
  intros X saved result Y st7 F1 R2 R5.
  assert (Et : tmps (resume saved result st7) = Y ++ saved).
  { destruct result as [[z|l t]|]; cbn in R5; [|destruct R5 as [-> _]|]; subst; reflexivity. }
  assert (Ev : vars (resume saved result st7) = vars st7 /\ heap (resume saved result st7) = heap st7 /\
               out (resume saved result st7) = out st7) by (destruct result as [[z|l t]|]; auto).
  split; [|split; [tauto|split; [tauto|split; [tauto|]]]].
  - apply (Sep_perm (Y ++ saved ++ X) X st7); try tauto. rewrite Et, R2, <- app_assoc. apply Permutation_refl.
  - intros v ->. destruct v as [z|l t]; [exact I|]. destruct R5 as [-> ->]. cbn. auto.
Qed.

Lemma do_call_copy_spec : forall mt funs genv ex e dst f args X st st',
  ex_ok genv ex ->
  do_call false mt funs genv ex e dst f args st = Ok st' -> Sep X st -> tmps st = [] -> env_ok genv e st ->
  step_ok X st st'
    (fun b => (match dst with Some x => lookup e x = Some b | None => False end) \/ In b (ref_addrs e args) \/ In b (map snd genv)) /\
  (* the pieces: binding, the callee's body, and the tail of the call, which changes nothing the
     caller can see except the destination *)
  exists fd ce st1 st2,
    nth_error funs f = Some fd /\
    bind_params false mt args f 0 (fparams fd) args e genv st = Ok (ce, st1) /\
    ex ce (fbody fd) (set_fbase (set_tmps st1 []) (length (vars st))) = Ok st2 /\
    forall b, b < length (vars st) -> (match dst with Some x => lookup e x <> Some b | None => True end) -> keeps st2 st' b.
Proof.
  intros mt funs genv ex e dst f args X st st' Hex H HS Ht He.
  unfold do_call in H.
  destruct (nth_error funs f) as [fd|] eqn:Efd; [|discriminate H].
  bind_as H r Hbind H. destruct r as [ce st1].
  destruct (bind_params_copy_spec _ _ _ _ _ _ _ _ _ _ _ _ Hbind HS) as (B1 & B3 & B4 & B5 & B6 & B7).
  bind_as H st2 Hbody H.
  (* the callee's body *)
  set (saved := tmps st1) in *.
  set (st1' := set_fbase (set_tmps st1 []) (length (vars st))) in *.
  assert (S1' : Sep (saved ++ X) st1') by (apply (Sep_perm X (saved ++ X) st1 st1'); auto).
  assert (Hce : env_ok genv ce st1').
  { destruct He as [He1 He2]. split; [|exact B7]. cbn. intros ad Ha. apply B6 in Ha.
    destruct Ha as [Ha|[Ha|Ha]]; [apply He2 in Ha; apply He1 in Ha; lia| |lia].
    apply ref_addrs_in in Ha. apply He1 in Ha. lia. }
  destruct (Hex _ _ _ _ _ Hbody S1' eq_refl Hce) as [C1 C2 _ C3 C4]. cbn in C3.
  (* the return value, leaving the frame, the caller's temporaries *)
  bind_as H r Hret H. destruct r as [result st6].
  destruct (ret_value_spec _ _ _ _ _ _ Hret C1 C2) as (Y & R1 & R2 & R3 & R4 & R5).
  bind_as H st7o Hexit H. unfold exit_frame in Hexit.
  assert (Hbase : length (vars st) + (length (vars st6) - length (vars st)) = length (vars st6)) by lia.
  destruct (exit_from_copy_spec _ _ _ _ _ Hexit R1 Hbase) as (F1o & F2 & F3 & F4 & F5).
  set (st7 := set_fbase st7o (fbase st)) in *.
  assert (F1 : Sep (Y ++ saved ++ X) st7) by (apply (Sep_perm (Y ++ saved ++ X) (Y ++ saved ++ X) st7o st7); auto).
  assert (T7 : tmps st7 = []) by (cbn; congruence).
  pose proof (call_finish_fbase _ _ _ _ _ _ H) as Hfb. rewrite call_finish_resume in H.
  destruct (resume_spec X saved result Y st7 F1 T7 R5) as (S9 & V9 & H9 & O9 & Rv9).
  set (st9 := resume saved result st7) in *.
  assert (L9 : length (vars st6) = length (vars st9)) by (rewrite V9; cbn; congruence).
  assert (K29 : forall b, b < length (vars st) -> keeps st2 st9 b).
  { intros b Hb'. eapply keeps_trans; [apply R4; lia|]. destruct (F5 b Hb') as [Q1 Q2].
    split; [rewrite V9; exact Q1|intros l Hl; rewrite H9; auto]. }
  assert (K9 : forall b, b < length (vars st) -> ~ In b (ref_addrs e args) -> ~ In b (map snd genv) -> keeps st st9 b).
  { intros b Hb' Hn1 Hn2. eapply keeps_trans; [apply B5; auto|].
    eapply keeps_trans with (s2 := st1'); [split; auto|].
    eapply keeps_trans; [apply C4; [cbn; lia|]|apply K29; auto].
    intros Hin. apply B6 in Hin. destruct Hin as [Hin|[Hin|Hin]]; auto. lia. }
  (* the optional store, the end of the statement *)
  assert (Fin : Sep X st' /\ tmps st' = [] /\ length (vars st9) <= length (vars st') /\
                forall b, match dst with Some x => lookup e x <> Some b | None => True end -> keeps st9 st' b).
  { destruct dst as [x|].
    - destruct result as [v|]; [|discriminate H]. destruct (lookup e x) as [ad|] eqn:El; [|discriminate H].
      bind_as H st10 Hst H.
      destruct (store_value_spec _ _ _ _ _ S9 (Rv9 v eq_refl) Hst) as (V1 & V2 & V3 & V4 & V5).
      destruct (end_stmt_spec _ _ _ V1 H) as (T1 & T2 & T3 & T4 & T5).
      split; [auto|split; [auto|split; [rewrite T3, V2; auto|]]].
      intros b Hn. eapply keeps_trans; [apply V5; congruence|apply T5].
    - destruct (end_stmt_spec _ _ _ S9 H) as (T1 & T2 & T3 & T4 & T5).
      split; [auto|split; [auto|split; [rewrite T3; auto|]]]. intros b _. apply T5. }
  destruct Fin as (Z1 & Z2 & Z3 & Z4).
  split.
  - constructor; auto; [lia|].
    intros b Hb' Hn. eapply keeps_trans; [apply K9; tauto|apply Z4]. destruct dst; tauto.
  - exists fd, ce, st1, st2. split; [auto|split; [auto|split; [auto|]]].
    intros b Hb' Hn. eapply keeps_trans; [apply K29; auto|apply Z4; exact Hn].
Qed.

Lemma exec_copy_ok : forall mt funs genv fuel, ex_ok genv (exec false mt funs genv fuel).
Proof.
  intros mt funs genv. induction fuel as [|fuel IH]; intros X e ss st st' H HS Ht He; cbn in H; [discriminate H|].
  destruct ss as [|s rest].
  { inv H. constructor; auto. intros; apply keeps_refl. }
  destruct s as [x ex|x ex|x i v|ex|dst f args|c th el|x ex body].
  - (* SDecl: the rest runs in the extended environment *)
    bind_as H r Hd H. destruct r as [e' st1].
    destruct (do_decl_spec _ _ _ _ _ _ _ Hd HS) as (D1 & -> & D3 & D4 & _).
    pose proof (IH _ _ _ _ _ H (so_sep _ _ _ _ D1) (so_tmps _ _ _ _ D1) (env_ok_decl genv e st st1 x He ltac:(lia))) as R.
    eapply step_ok_trans; [eapply step_ok_weaken; [exact D1|intros; contradiction]|exact R|].
    cbn. intros b Hb Hn [E|Hi]; [lia|auto].
  - bind_as H st1 Hd H. destruct (do_assign_spec _ _ _ _ _ _ Hd HS) as (a & La & D1 & _).
    eapply step_then; eauto. intros b ->. eapply lookup_in; eauto.
  - bind_as H st1 Hd H. destruct (do_assign_idx_spec _ _ _ _ _ _ _ Hd HS) as (a & La & D1 & _).
    eapply step_then; eauto. intros b ->. eapply lookup_in; eauto.
  - bind_as H st1 Hd H. destruct (do_print_spec _ _ _ _ _ Hd HS) as (D1 & _).
    eapply step_then; eauto. intros b [].
  - bind_as H st1 Hd H. destruct (do_call_copy_spec _ _ _ _ _ _ _ _ _ _ _ IH Hd HS Ht He) as (D1 & _).
    eapply step_then; eauto. intros b [Hd'|[Hr|Hg]].
    + destruct dst; [eapply lookup_in; eauto|contradiction].
    + eapply ref_addrs_in; eauto.
    + destruct He as [_ He2]. apply He2. auto.
  - bind_as H r Hd H. destruct r as [b st1]. bind_as H st2 Hbr H.
    destruct (do_cond_spec _ _ _ _ _ _ Hd HS) as (D1 & _).
    assert (R1 : step_ok X st st2 (fun b => In b (map snd e))) by (eapply step_then; eauto; intros b0 []).
    eapply step_then; eauto.
  - bind_as H r Hd H. destruct r as [[lc c] st1]. bind_as H st2 Hl H. bind_as H st3 Hf H.
    destruct (for_step _ _ _ _ _ _ _ _ _ _ _ _ _ IH Hd Hl Hf HS Ht He) as (R & _).
    eapply step_then; eauto.
Qed.
