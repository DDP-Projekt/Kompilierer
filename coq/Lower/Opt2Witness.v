(* C08 / C11 — concrete programs on which a -O2 parameter-copy elision without the call-site predicate `may_elide`,
   or with a wrong table of constant parameters, changes the behaviour (each replayed on the real compiler by
   checks/c08.py), evaluated in the model by vm_compute.
   Names: 0 = the global t, 1 = p (value parameter), 2 = r (Referenz parameter), 3 = q, 4 = u, 5 = n, 6 = lokal. *)
From Coq Require Import List ZArith Bool.
Import ListNotations.
From DDP Require Import Lower.Opt2.
Local Open Scope Z_scope.

(* f(p, Referenz r): r := r ++ "X"; q := p; print q.     main: t = "ab"; f(t, t); print t *)
Definition w_same_var : program :=
  mkProg [(0%nat, ELit [97; 98])]
         [mkFun [mkParam 1%nat false; mkParam 2%nat true]
                [SAssign 2%nat (ECat (EVar 2%nat) (ELit [88])); SDecl 3%nat (EVar 1%nat); SPrint (EVar 3%nat)] None false]
         [SCall None 0%nat [AVal (EVar 0%nat); ARef 0%nat]; SPrint (EVar 0%nat)].

(* the same with an in-place change: r[1] := 'X'; print p  — no freed memory, just the wrong value *)
Definition w_same_var_inplace : program :=
  mkProg [(0%nat, ELit [97; 98])]
         [mkFun [mkParam 1%nat false; mkParam 2%nat true]
                [SAssignIdx 2%nat (EInt 1) (EInt 88); SPrint (EVar 1%nat)] None false]
         [SCall None 0%nat [AVal (EVar 0%nat); ARef 0%nat]; SPrint (EVar 0%nat)].

(* f(p): t := "n"; print p.      main: f(t); print t      (a callee that writes a global it received by value) *)
Definition w_global : program :=
  mkProg [(0%nat, ELit [97; 98])]
         [mkFun [mkParam 1%nat false] [SAssign 0%nat (ELit [110]); SPrint (EVar 1%nat)] None false]
         [SCall None 0%nat [AVal (EVar 0%nat)]; SPrint (EVar 0%nat)].

(* f(p, Referenz r, n): if n then (lokal := "l"; f(lokal, p, 0)); r := "c".
   The self call hands p on by Referenz; an analysis that read f's own unfinished table there ("r is constant")
   would judge p constant although the recursive activation writes it.       main: f(t, u, 1); print t; print u *)
Definition w_recursion : program :=
  mkProg [(0%nat, ELit [97; 98]); (4%nat, ELit [117])]
         [mkFun [mkParam 1%nat false; mkParam 2%nat true; mkParam 5%nat false]
                [SIf (EVar 5%nat) [SDecl 6%nat (ELit [108]); SCall None 0%nat [AVal (EVar 6%nat); ARef 1%nat; AVal (EInt 0)]] [];
                 SAssign 2%nat (ELit [99])] None false]
         [SCall None 0%nat [AVal (EVar 0%nat); ARef 4%nat; AVal (EInt 1)]; SPrint (EVar 0%nat); SPrint (EVar 4%nat)].

(* Before /repo 91b5d4a (mayElideArgCopy; a self call counts as a write) each of these read freed or changed storage
   at -O 2 (checks/c08.py, KNOWN_FINDINGS); with `may_elide` and `seen_const` both modes agree on them. *)
Lemma w_same_var_runs :
  run_copy 50 w_same_var = Ok [OSeq [97; 98]; OSeq [97; 98; 88]] /\
  run_elide 50 w_same_var = Ok [OSeq [97; 98]; OSeq [97; 98; 88]].
Proof. split; vm_compute; reflexivity. Qed.

Lemma w_same_var_inplace_runs :
  run_copy 50 w_same_var_inplace = Ok [OSeq [97; 98]; OSeq [88; 98]] /\
  run_elide 50 w_same_var_inplace = Ok [OSeq [97; 98]; OSeq [88; 98]].
Proof. split; vm_compute; reflexivity. Qed.

Lemma w_global_runs :
  run_copy 50 w_global = Ok [OSeq [97; 98]; OSeq [110]] /\ run_elide 50 w_global = Ok [OSeq [97; 98]; OSeq [110]].
Proof. split; vm_compute; reflexivity. Qed.

Lemma w_recursion_runs :
  analyse (pfuns w_recursion) = [[false; false; true]] /\
  run_copy 50 w_recursion = Ok [OSeq [97; 98]; OSeq [99]] /\ run_elide 50 w_recursion = Ok [OSeq [97; 98]; OSeq [99]].
Proof. split; [|split]; vm_compute; reflexivity. Qed.

Lemma witnesses_agree :
  run_elide 50 w_same_var = run_copy 50 w_same_var /\
  run_elide 50 w_same_var_inplace = run_copy 50 w_same_var_inplace /\
  run_elide 50 w_global = run_copy 50 w_global /\
  run_elide 50 w_recursion = run_copy 50 w_recursion.
Proof.
  destruct w_same_var_runs as [A1 B1], w_same_var_inplace_runs as [A2 B2], w_global_runs as [A3 B3],
    w_recursion_runs as (_ & A4 & B4).
  rewrite A1, B1, A2, B2, A3, B3, A4, B4. auto.
Qed.

(* a generic instantiation whose body writes its parameter (a table that says "constant" for it, as /repo f920b86
   produced without visiting the body, goes wrong: Props/C08.v, C08_generic_instantiation_witness).
   kern(p, x): p[1] := x; return p.    szene(n): a := [1;2;3] (LOCAL); b := kern(a, 9); print a; print b.
   Names: 1 = p, 2 = x, 3 = n, 4 = a, 5 = b. *)
Definition w_generic (nometa : bool) : program :=
  mkProg []
         [mkFun [mkParam 1%nat false; mkParam 2%nat false] [SAssignIdx 1%nat (EInt 1) (EVar 2%nat)] (Some (EVar 1%nat)) nometa;
          mkFun [mkParam 3%nat false]
                [SDecl 4%nat (ELit [1; 2; 3]); SDecl 5%nat (ELit []); SCall (Some 5%nat) 0%nat [AVal (EVar 4%nat); AVal (EInt 9)];
                 SPrint (EVar 4%nat); SPrint (EVar 5%nat)] None false]
         [SCall None 1%nat [AVal (EInt 0)]].

(* the run with a GIVEN table instead of the one `analyse` computes *)
Definition run_with (elide : bool) (mt : meta) (fuel : nat) (p : program) : res (list outv) :=
  do r <- init_globals (pglobals p) [] st0;
  let '(ge, st) := r in
  do st' <- exec elide mt (pfuns p) ge fuel ge (pmain p) (set_fbase st (length (vars st)));
  Ok (out st').

(* a forward declared function that writes its Referenz parameter, called through a function that hands its own value
   parameter on (Props/C08.v, C08_forward_declaration_witness: with a table that keeps "constant" for aendere's
   parameter, as /repo had before 394dd9c analysed the body at the declaration, the caller's list is freed under it).
   aendere(r Referenz): r := [7].   indirekt(t): aendere(t).   test(n): a := [1;2;3] (LOCAL); indirekt(a); print a.
   Names: 1 = r, 2 = t, 3 = n, 4 = a.
   In the model a forward declared function IS a function at the position of its declaration, and a call of a function
   that is analysed later (no table yet) counts as a write (`seen_const`).  The application of an overloaded operator
   (/repo 3530cc0 counts it) is a call (SCall) of the overloading function. *)
Definition w_forward : program :=
  mkProg []
         [mkFun [mkParam 1%nat true] [SAssign 1%nat (ELit [7])] None false;
          mkFun [mkParam 2%nat false] [SCall None 0%nat [ARef 2%nat]] None false;
          mkFun [mkParam 3%nat false]
                [SDecl 4%nat (ELit [1; 2; 3]); SCall None 1%nat [AVal (EVar 4%nat)]; SPrint (EVar 4%nat)] None false]
         [SCall None 2%nat [AVal (EInt 0)]].
