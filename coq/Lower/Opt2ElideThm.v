(* C08 / C11 — elision_sound (Opt2Full.v) restated with the premise `elide_safe` (Opt2Safe.v), which it does not
   need, and a program that passes that check. *)
From Coq Require Import List ZArith Bool.
Import ListNotations.
From DDP Require Import Lower.Opt2 Lower.Opt2Safe Lower.Opt2Full.

Theorem elision_sound_partial : forall fuel p,
  elide_safe p = true -> run_elide fuel p = run_copy fuel p.
Proof. intros fuel p _. apply elision_sound. Qed.

(* a program that passes `elide_safe`: the first parameter of f is judged constant and receives the main
   program's LOCAL variable 5, which is not passed by Referenz in the call, so `may_elide` holds there *)
Definition ok_elided : program :=
  mkProg [(4, ELit [117%Z])]
         [mkFun [mkParam 1 false; mkParam 2 true]
                [SAssign 2 (ECat (EVar 2) (EVar 1)); SPrint (EVar 1)] None false]
         [SDecl 5 (ELit [97%Z; 98%Z]); SCall None 0 [AVal (EVar 5); ARef 4]; SPrint (EVar 5); SPrint (EVar 4)].
