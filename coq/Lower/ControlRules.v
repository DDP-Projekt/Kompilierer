(* One step of RefSem's evaluator per construct, by reflexivity: cbn does not fold the members of RefSem's mutual
   fixpoint (closed over pow / log10 / fmt / ftab) back after unfolding one.  The specifications of Lower/Control.v
   and Lower/ForLoop.v transcribe the right-hand sides of the expression and loop rules over abstract
   sub-evaluators; no lemma states that correspondence. *)
From Coq Require Import ZArith List.
Import ListNotations.
From DDP Require Import Lang.Syntax Lang.F64 Lang.RefSem.
Open Scope Z_scope.

Section Rules.
Variable pow : Z -> Z -> Z.
Variable log10 : Z -> Z.
Variable fmt : Z -> list Z.
Variable ftab : list fdecl.
Notation eval := (eval pow log10 fmt ftab).
Notation evals := (evals pow log10 fmt ftab).
Notation exec := (exec pow log10 fmt ftab).
Notation exec_block := (exec_block pow log10 fmt ftab).
Notation loop_repeat := (loop_repeat pow log10 fmt ftab).
Notation loop_for_i := (loop_for_i pow log10 fmt ftab).

(* a und b: the right operand is evaluated iff the left one is wahr *)
Lemma refsem_and_rule : forall n genv en s a b,
  eval (S n) genv en s (EBin BAnd a b) =
  rbind (eval n genv en s a) (fun v s =>
    match v with
    | VW false => Ok (VW false) s
    | VW true => rbind (eval n genv en s b) (fun w s => match w with VW _ => Ok w s | _ => bad s end)
    | _ => bad s
    end).
Proof. reflexivity. Qed.

Lemma refsem_or_rule : forall n genv en s a b,
  eval (S n) genv en s (EBin BOr a b) =
  rbind (eval n genv en s a) (fun v s =>
    match v with
    | VW true => Ok (VW true) s
    | VW false => rbind (eval n genv en s b) (fun w s => match w with VW _ => Ok w s | _ => bad s end)
    | _ => bad s
    end).
Proof. reflexivity. Qed.

(* a, falls c, ansonsten b: the condition, then only the chosen side *)
Lemma refsem_falls_rule : forall n genv en s a c b,
  eval (S n) genv en s (ETer TFalls a c b) =
  rbind (eval n genv en s c) (fun cv s =>
    match cv with
    | VW true => eval n genv en s a
    | VW false => eval n genv en s b
    | _ => bad s
    end).
Proof. reflexivity. Qed.

Lemma refsem_while_rule : forall n genv en s c body,
  loop_while pow log10 fmt ftab (S n) genv en s c body =
  rbind (eval n genv en s c) (fun cv s =>
    match cv with
    | VW false => Ok FNext s
    | VW true =>
        rbind (exec_block n genv en s body) (fun fl s =>
          match fl with
          | FBreak => Ok FNext s
          | FRet v => Ok (FRet v) s
          | _ => loop_while pow log10 fmt ftab n genv en s c body
          end)
    | _ => bad s
    end).
Proof. reflexivity. Qed.

Lemma refsem_repeat_rule : forall n genv en s k body,
  loop_repeat (S n) genv en s k body =
  if k <=? 0 then Ok FNext s else
  rbind (exec_block n genv en s body) (fun fl s =>
    match fl with
    | FBreak => Ok FNext s
    | FRet v => Ok (FRet v) s
    | _ => loop_repeat n genv en s (k - 1) body
    end).
Proof. reflexivity. Qed.

Lemma refsem_foreach_rule : forall n genv en s a ai v rest body,
  loop_each pow log10 fmt ftab (S n) genv en s a ai (v :: rest) body =
  rbind (write_bind s (BLoc a) v) (fun _ s =>
  rbind (exec_block n genv en s body) (fun fl s =>
    match fl with
    | FBreak => Ok FNext s
    | FRet r => Ok (FRet r) s
    | _ =>
        rbind (match ai with
               | None => Ok tt s
               | Some c =>
                   rbind (read_bind s (BLoc c)) (fun iv s =>
                     match iv with
                     | VZ k => write_bind s (BLoc c) (VZ (wrap64 (k + 1)))
                     | _ => bad s
                     end)
               end) (fun _ s => loop_each pow log10 fmt ftab n genv en s a ai rest body)
    end)).
Proof. reflexivity. Qed.

Lemma refsem_forkomma_rule : forall n genv en s a i stp to body,
  loop_for_k pow log10 fmt ftab (S n) genv en s a i stp to body =
  rbind (eval n genv en s to) (fun tv s =>
    match to_f tv with
    | None => bad s
    | Some lim =>
        if (if f_lt stp f_pos_zero then f_ge i lim else f_le i lim) then
          rbind (exec_block n genv en s body) (fun fl s =>
            match fl with
            | FBreak => Ok FNext s
            | FRet v => Ok (FRet v) s
            | _ =>
                let i' := f_add i stp in
                rbind (write_bind s (BLoc a) (VK i')) (fun _ s =>
                  loop_for_k pow log10 fmt ftab n genv en s a i' stp to body)
            end)
        else Ok FNext s
    end).
Proof. reflexivity. Qed.
(* the Zahl a numeric value denotes where a counting loop needs one (step, end value): Kommazahl saturating *)
Definition to_Z_res (v : value) (s : state) : res Z :=
  match v with
  | VK _ => rbind (lift (cast_to fmt TZahl v) s) (fun z s => match z with VZ k => Ok k s | _ => bad s end)
  | _ => match to_i v with Some k => Ok k s | None => bad s end
  end.

Lemma refsem_fori_rule : forall n genv en s t a i stp to body,
  loop_for_i (S n) genv en s t a i stp to body =
  rbind (eval n genv en s to) (fun tv s =>
  rbind (to_Z_res tv s) (fun lim s =>
  if (if stp <? 0 then i >=? lim else i <=? lim) then
    rbind (exec_block n genv en s body) (fun fl s =>
    match fl with
    | FBreak => Ok FNext s
    | FRet v => Ok (FRet v) s
    | _ =>
        let i' := wrap64 (i + stp) in
        rbind (write_bind s (BLoc a) (match t with TByte => VB (wrap8 i') | _ => VZ i' end)) (fun _ s =>
        loop_for_i n genv en s t a i' stp to body)
    end)
  else Ok FNext s)).
Proof. reflexivity. Qed.

Lemma refsem_foreach_nil_rule : forall n genv en s a ai b, loop_each pow log10 fmt ftab (S n) genv en s a ai [] b = Ok FNext s.
Proof. reflexivity. Qed.

Lemma refsem_block_nil_rule : forall n genv en s, exec_block (S n) genv en s [] = Ok FNext s.
Proof. reflexivity. Qed.
Lemma refsem_block_cons_rule : forall n genv en s st r,
  exec_block (S n) genv en s (st :: r) =
  rbind (exec n genv en s st) (fun r0 s => match r0 with (FNext, en') => exec_block n genv en' s r | (fl, _) => Ok fl s end).
Proof. reflexivity. Qed.
Lemma refsem_decl_rule : forall n genv en s t x e,
  exec (S n) genv en s (SDecl t x e) =
  rbind (eval n genv en s e) (fun v s => rbind (lift (coerce fmt t v) s) (fun v s =>
    let (a, s) := alloc s v in Ok (FNext, (x, BLoc a) :: en) s)).
Proof. reflexivity. Qed.
Lemma refsem_assign_rule : forall n genv en s x e,
  exec (S n) genv en s (SAssign (LVar x) e) =
  rbind (eval n genv en s e) (fun v s =>
    match lookup en x with
    | None => bad s
    | Some b => rbind (read_bind s b) (fun old s => rbind (lift (coerce fmt (type_of old) v) s) (fun v s =>
                  rbind (write_bind s b v) (fun _ s => Ok (FNext, en) s)))
    end).
Proof. reflexivity. Qed.
Lemma refsem_if_rule : forall n genv en s c th el,
  exec (S n) genv en s (SIf c th el) =
  rbind (eval n genv en s c) (fun cv s =>
    match cv with
    | VW b => rbind (exec_block n genv en s (if b then th else el)) (fun fl s => Ok (fl, en) s)
    | _ => bad s
    end).
Proof. reflexivity. Qed.
Lemma refsem_while_stmt_rule : forall n genv en s c b,
  exec (S n) genv en s (SWhile c b) = rbind (loop_while pow log10 fmt ftab n genv en s c b) (fun fl s => Ok (fl, en) s).
Proof. reflexivity. Qed.
Lemma refsem_dowhile_rule : forall n genv en s c b,
  exec (S n) genv en s (SDoWhile b c) =
  rbind (exec_block n genv en s b) (fun fl s =>
    match fl with
    | FBreak => Ok (FNext, en) s
    | FRet v => Ok (FRet v, en) s
    | _ => rbind (loop_while pow log10 fmt ftab n genv en s c b) (fun fl s => Ok (fl, en) s)
    end).
Proof. reflexivity. Qed.
Lemma refsem_repeat_stmt_rule : forall n genv en s c b,
  exec (S n) genv en s (SRepeat c b) =
  rbind (eval n genv en s c) (fun cv s =>
    match to_i cv with
    | Some k => if k <? 0 then Fail (EUndef G_repeat_negative) s
                else rbind (loop_repeat n genv en s k b) (fun fl s => Ok (fl, en) s)
    | None => bad s
    end).
Proof. reflexivity. Qed.
Lemma refsem_block_stmt_rule : forall n genv en s b,
  exec (S n) genv en s (SBlock b) = rbind (exec_block n genv en s b) (fun fl s => Ok (fl, en) s).
Proof. reflexivity. Qed.
(* a call of a function without result is a statement of its own *)
Lemma refsem_expr_stmt_rule : forall n genv en s e,
  (forall f args, e <> ECall f args) ->
  exec (S n) genv en s (SExpr e) = rbind (eval n genv en s e) (fun _ s => Ok (FNext, en) s).
Proof. intros n genv en s e H. destruct e; try reflexivity. now destruct (H f args). Qed.
Lemma refsem_print_rule : forall n genv en s e,
  exec (S n) genv en s (SPrint e) =
  rbind (eval n genv en s e) (fun v s =>
    match print_bytes fmt v with
    | inl (Some bs) => Ok (FNext, en) (emit s bs)
    | inl None => bad s
    | inr g => Fail (EUndef g) s
    end).
Proof. reflexivity. Qed.

Lemma refsem_for_rule : forall n genv en s t x from to step b,
  exec (S n) genv en s (SFor t x from to step b) =
  rbind (eval n genv en s from) (fun v0 s => rbind (lift (coerce fmt t v0) s) (fun v0 s =>
    let (a, s) := alloc s v0 in
    let en' := (x, BLoc a) :: en in
    rbind (match step with Some se => eval n genv en' s se | None => Ok (default_step t) s end) (fun sv s =>
      match t with
      | TKomma =>
          match v0, to_f sv with
          | VK i0, Some stp => rbind (loop_for_k pow log10 fmt ftab n genv en' s a i0 stp to b) (fun fl s => Ok (fl, en) s)
          | _, _ => bad s
          end
      | TZahl | TByte =>
          match to_i v0 with
          | None => bad s
          | Some i0 => rbind (to_Z_res sv s) (fun stp s =>
                         rbind (loop_for_i n genv en' s t a i0 stp to b) (fun fl s => Ok (fl, en) s))
          end
      | _ => bad s
      end))).
Proof. reflexivity. Qed.

Lemma refsem_foreach_stmt_rule : forall n genv en s t x idx e b,
  exec (S n) genv en s (SForEach t x idx e b) =
  rbind (eval n genv en s e) (fun cv s =>
  rbind (match cv with
         | VT cs => if ty_eqb t TChar then Ok (map VC cs) s else bad s
         | VL u vs => if ty_eqb t u then Ok vs s else bad s
         | _ => bad s
         end) (fun elems s =>
    match elems with
    | [] => Ok (FNext, en) s
    | v0 :: _ =>
        let (a, s) := alloc s v0 in
        let en1 := (x, BLoc a) :: en in
        match idx with
        | None => rbind (loop_each pow log10 fmt ftab n genv en1 s a None elems b) (fun fl s => Ok (fl, en) s)
        | Some ix =>
            let (ai, s) := alloc s (VZ 1) in
            rbind (loop_each pow log10 fmt ftab n genv ((ix, BLoc ai) :: en1) s a (Some ai) elems b) (fun fl s => Ok (fl, en) s)
        end
    end)).
Proof. reflexivity. Qed.

Lemma refsem_evals_cons_rule : forall n genv en s e es,
  evals (S n) genv en s (e :: es) =
  rbind (eval n genv en s e) (fun v s => rbind (evals n genv en s es) (fun vs s => Ok (v :: vs) s)).
Proof. reflexivity. Qed.
Lemma refsem_listlit_rule : forall n genv en s es,
  eval (S n) genv en s (EListLit es) =
  rbind (evals n genv en s es) (fun vs s =>
    match vs with
    | [] => bad s
    | v :: _ => if forallb (fun w => ty_eqb (type_of v) (type_of w)) vs then Ok (VL (type_of v) vs) s else bad s
    end).
Proof. reflexivity. Qed.
End Rules.
