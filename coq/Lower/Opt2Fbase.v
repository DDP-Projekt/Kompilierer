(* C08 — the primitives, expressions, parameter binding and frame exit leave the frame base of the running
   activation alone (a call sets it for the callee and restores it afterwards; for whole statements the fact is
   part of Opt2Copy.step_ok, which is why Opt2Copy.v needs this file).  With it: what one binding step yields in
   either mode (bind_one_shape). *)
From Coq Require Import List ZArith Bool.
Import ListNotations.
From DDP Require Import Lower.Opt2 Lower.Opt2Base.

Lemma free_fbase : forall l st st', free l st = Ok st' -> fbase st' = fbase st.
Proof.
  unfold free. intros l st st' H. destruct (nth_error (heap st) l) as [[c|t|]|]; try discriminate H.
  - inv H. reflexivity.
  - destruct (nth_error (heap st) t) as [[c|?|]|]; try discriminate H. inv H. reflexivity.
Qed.

Lemma alloc_fbase : forall c st l st', alloc c st = (l, st') -> fbase st' = fbase st.
Proof. unfold alloc. intros. inv H. reflexivity. Qed.
Lemma new_var_fbase : forall s st a st', new_var s st = (a, st') -> fbase st' = fbase st.
Proof. unfold new_var. intros. inv H. reflexivity. Qed.
Lemma write_fbase : forall l c st st', write l c st = Ok st' -> fbase st' = fbase st.
Proof.
  unfold write. intros l c st st' H. destruct (nth_error (heap st) (target l st)) as [[?|?|]|]; try discriminate H. inv H. reflexivity.
Qed.
Lemma release_fbase : forall l st st', release l st = Ok st' -> fbase st' = fbase st.
Proof.
  unfold release. intros l st st' H. destruct (nth_error (heap st) l) as [[?|?|]|] eqn:E; try (eapply free_fbase; eauto; fail).
  inv H. reflexivity.
Qed.
Lemma free_list_fbase : forall ls st st', free_list ls st = Ok st' -> fbase st' = fbase st.
Proof.
  induction ls as [|l ls IH]; cbn; intros st st' H; [inv H; auto|]. bind_as H s1 H1 H.
  rewrite (IH _ _ H). eapply free_fbase; eauto.
Qed.
Lemma end_stmt_fbase : forall st st', end_stmt st = Ok st' -> fbase st' = fbase st.
Proof. unfold end_stmt. intros st st' H. bind_as H s1 H1 H. inv H. cbn. eapply free_list_fbase; eauto. Qed.

Lemma eval_fbase : forall e x st v st', eval e x st = Ok (v, st') -> fbase st' = fbase st.
Proof. intros e x st v st' H. apply eval_ext in H. apply H. Qed.

Lemma claim_or_copy_fbase : forall l tmp st l' st', claim_or_copy l tmp st = Ok (l', st') -> fbase st' = fbase st.
Proof.
  unfold claim_or_copy, copy_of. intros l tmp st l' st' H. destruct tmp; [inv H; reflexivity|].
  bind_as H c Hc H. destruct (alloc (Live c) st) as [l0 s0] eqn:Ea. inv H. eapply alloc_fbase; eauto.
Qed.

Lemma own_value_fbase : forall v st s st', own_value v st = Ok (s, st') -> fbase st' = fbase st.
Proof.
  intros v st s st' H. destruct v; cbn in H; [inv H; auto|]. bind_as H r Hc H. destruct r. inv H.
  eapply claim_or_copy_fbase; eauto.
Qed.

Lemma store_value_fbase : forall a v st st', store_value a v st = Ok st' -> fbase st' = fbase st.
Proof.
  unfold store_value. intros a v st st' H. bind_as H s Hs H. destruct s; destruct v; try discriminate H.
  - inv H. reflexivity.
  - bind_as H r Hc H. destruct r as [l' s1]. bind_as H s2 Hf H. inv H. cbn.
    rewrite (free_fbase _ _ _ Hf). eapply claim_or_copy_fbase; eauto.
Qed.

Lemma ret_value_fbase : forall ce fr st r st', ret_value ce fr st = Ok (r, st') -> fbase st' = fbase st.
Proof.
  unfold ret_value. intros ce fr st r st' H. destruct fr; [|inv H; auto].
  bind_as H r3 H1 H. destruct r3 as [v s3]. destruct v.
  - bind_as H s4 H4 H. inv H. rewrite (end_stmt_fbase _ _ H4). eapply eval_fbase; eauto.
  - bind_as H r4 H4 H. destruct r4 as [l' s4]. bind_as H s5 H5 H. inv H.
    rewrite (end_stmt_fbase _ _ H5), (claim_or_copy_fbase _ _ _ _ _ H4). eapply eval_fbase; eauto.
Qed.

Lemma call_finish_fbase : forall e dst saved result st st', call_finish e dst saved result st = Ok st' -> fbase st' = fbase st.
Proof.
  intros e dst saved result st st' H. rewrite call_finish_resume in H.
  assert (F : fbase (resume saved result st) = fbase st) by (destruct result as [[?|? ?]|]; reflexivity).
  destruct dst.
  - destruct result; [|discriminate H]. destruct (lookup e n); [|discriminate H]. bind_as H s1 H1 H.
    rewrite (end_stmt_fbase _ _ H), (store_value_fbase _ _ _ _ H1). exact F.
  - rewrite (end_stmt_fbase _ _ H). exact F.
Qed.

Lemma claim_or_copy_vars : forall l tmp st l' st', claim_or_copy l tmp st = Ok (l', st') -> vars st' = vars st.
Proof.
  unfold claim_or_copy, copy_of. intros l tmp st l' st' H. destruct tmp; [inv H; reflexivity|].
  bind_as H c Hc H. destruct (alloc (Live c) st) as [l0 s0] eqn:Ea. inv H. apply alloc_spec in Ea. tauto.
Qed.

(* binding one parameter, in either mode: a Referenz parameter is bound to the address of its argument and the state
   stays; a value parameter is bound to one new variable *)
Lemma bind_one_shape : forall el mt all f i p a e st ad st1,
  bind_one el mt all f i p a e st = Ok (ad, st1) ->
  if pref p then (exists x, a = ARef x /\ lookup e x = Some ad) /\ st1 = st
  else ad = length (vars st) /\ (exists s, vars st1 = vars st ++ [s]) /\ fbase st1 = fbase st.
Proof.
  intros el mt all f i p a e st ad st1 H. unfold bind_one in H.
  destruct (pref p); destruct a as [ex|x]; try discriminate H.
  - destruct (lookup e x) as [ad'|] eqn:El; inv H. eauto.
  - bind_as H r He H. destruct r as [v s1]. destruct (eval_ext _ _ _ _ _ He) as (Ev & _ & _ & _ & Ef).
    assert (Fin : forall s s0, vars s0 = vars s1 -> fbase s0 = fbase s1 -> new_var s s0 = (ad, st1) ->
              ad = length (vars st) /\ (exists s', vars st1 = vars st ++ [s']) /\ fbase st1 = fbase st).
    { intros s s0 V F En. pose proof (new_var_fbase _ _ _ _ En). apply new_var_spec in En. destruct En as (-> & N2 & _).
      split; [congruence|split; [exists s; congruence|congruence]]. }
    destruct v as [z|l tmp].
    + destruct (new_var (VInt z) s1) as [ad' s2] eqn:En. inv H. eapply Fin; eauto.
    + destruct (el && is_const mt f i && negb tmp && may_elide e all ex s1).
      * destruct (alloc (Alias (target l s1)) s1) as [lh s1'] eqn:Ea. destruct (new_var (VPtr lh) s1') as [ad' s2] eqn:En. inv H.
        pose proof (alloc_spec _ _ _ _ Ea) as (_ & _ & Va & _). eapply Fin; [exact Va|eapply alloc_fbase; eauto|eauto].
      * bind_as H r Hc H. destruct r as [l' s2]. destruct (new_var (VPtr l') s2) as [ad' s3] eqn:En. inv H.
        eapply Fin; [eapply claim_or_copy_vars; eauto|eapply claim_or_copy_fbase; eauto|eauto].
Qed.

Lemma bind_params_fbase : forall el mt all f ps i args e ce st ce' st',
  bind_params el mt all f i ps args e ce st = Ok (ce', st') -> fbase st' = fbase st.
Proof.
  intros el mt all f ps. induction ps as [|p ps IH]; intros i args e ce st ce' st' H; destruct args as [|a args];
    try (cbn in H; discriminate H).
  - cbn in H. inv H. auto.
  - rewrite bind_params_cons in H. bind_as H r H1 H. destruct r as [ad st1]. rewrite (IH _ _ _ _ _ _ _ H).
    pose proof (bind_one_shape _ _ _ _ _ _ _ _ _ _ _ H1) as F. destruct (pref p); [destruct F as [_ ->]; auto|apply F].
Qed.

Lemma exit_from_fbase : forall n a st st', exit_from n a st = Ok st' -> fbase st' = fbase st.
Proof.
  induction n as [|n IH]; intros a st st' H; cbn in H; [inv H; auto|].
  bind_as H s Hs H. bind_as H s1 H1 H. rewrite (IH _ _ _ H). cbn.
  destruct s; try (inv H1; reflexivity). eapply release_fbase; eauto.
Qed.
