(* DESIGN stage 4, expressions: a compiler model for the SCALAR expression fragment and its preservation theorem.

   Fragment (decidable: [typeof G e <> None]): literals, variables of scalar type, every unary / binary / ternary
   operator on Zahl, Kommazahl, Byte, Wahrheitswert, Buchstabe (incl. the lazy und / oder / falls), conversions
   between scalar types.  Outside: Text, lists, calls.

   compile_expr emits, per node, the instruction sequence of Lower/Ops.v (lower_un / lower_bin / lower_between /
   lower_cast on the evaluated operands) and for und / oder / falls the condbr + phi skeleton.  lir_eval gives the
   skeleton its meaning directly: for und / oder through the specification Control.sc_spec (a stuck right operand
   goes in as diverging and comes back as stuck), for falls by a match on the condition; the block machines of
   Lower/Control.v are not used here.

   expr_preservation_gen: for every well-typed expression tree, every environment whose variables hold well-formed
   values of the declared types, and every fuel: RefSem.eval either runs out of fuel or agrees with lir_eval on
   the compiled code - same value (through repr), or both a Laufzeitfehler (modulo 0); RefSem never gets stuck
   and does not change the state.  expr_preservation: with fuel >= depth e it does not run out of fuel. *)
From Coq Require Import ZArith Bool List Lia.
Import ListNotations.
From Flocq Require Import Binary Bits.
From DDP Require Import Lang.Syntax Lang.F64 Lang.RefSem Lower.Ops Lower.OpsProofs Lower.ForLoop Lower.Control.
Open Scope Z_scope.

(* static types of the scalar fragment (the types RefSem's values carry) *)
Definition is_num (t : ty) : bool := match t with TZahl | TKomma | TByte => true | _ => false end.
Definition is_int (t : ty) : bool := match t with TZahl | TByte => true | _ => false end.
Definition is_scalar_ty (t : ty) : bool := match t with TText | TList _ => false | _ => true end.

Definition arith_ty (a b : ty) : option ty :=
  match a, b with
  | TByte, TByte => Some TByte
  | _, _ => if is_num a && is_num b then
              (match a, b with TKomma, _ | _, TKomma => Some TKomma | _, _ => Some TZahl end)
            else None
  end.
Definition int_ty (a b : ty) : option ty :=
  match a, b with
  | TByte, TByte => Some TByte
  | _, _ => if is_int a && is_int b then Some TZahl else None
  end.

Definition bin_ty (op : binop) (a b : ty) : option ty :=
  match op with
  | BAnd | BOr | BXor => match a, b with TBool, TBool => Some TBool | _, _ => None end
  | BPlus | BMinus | BMult => arith_ty a b
  | BDiv | BPow | BLog => if is_num a && is_num b then Some TKomma else None
  | BLogicAnd | BLogicOr | BLogicXor | BMod => int_ty a b
  | BShl | BShr => if is_int a && is_int b then Some a else None
  | BEq | BNe => if is_scalar_ty a && ty_eqb a b then Some TBool else None
  | BLt | BGt | BLe | BGe => if is_num a && is_num b then Some TBool else None
  | BConcat | BIndex | BSliceTo | BSliceFrom => None
  end.

Definition un_ty (op : unop) (a : ty) : option ty :=
  match op, a with
  | UAbs, TZahl | UNeg, TZahl | UAbs, TByte | UNeg, TByte => Some TZahl
  | UAbs, TKomma | UNeg, TKomma => Some TKomma
  | UNot, TBool => Some TBool
  | ULogicNot, TZahl => Some TZahl
  | ULogicNot, TByte => Some TByte
  | _, _ => None
  end.

Definition cast_ty (t a : ty) : option ty :=
  match t, a with
  | TZahl, (TZahl | TKomma | TByte | TBool | TChar) => Some TZahl
  | TKomma, (TZahl | TKomma | TByte) => Some TKomma
  | TByte, (TZahl | TKomma | TByte) => Some TByte
  | TBool, (TZahl | TByte | TBool) => Some TBool
  | TChar, (TZahl | TByte | TChar) => Some TChar
  | _, _ => None
  end.

Definition tenv := ident -> option ty.

Fixpoint typeof (G : tenv) (e : expr) : option ty :=
  match e with
  | EInt _ => Some TZahl
  | EFloat _ => Some TKomma
  | EBool _ => Some TBool
  | EChar c => if (- 2^31 <=? c) && (c <? 2^31) then Some TChar else None
  | EVar x => match G x with Some t => if is_scalar_ty t then Some t else None | None => None end
  | EUn op a => match typeof G a with Some ta => un_ty op ta | None => None end
  | EBin op a b => match typeof G a, typeof G b with Some ta, Some tb => bin_ty op ta tb | _, _ => None end
  | ETer TBetween x a b =>
      match typeof G x, typeof G a, typeof G b with
      | Some tx, Some ta, Some tb => if is_num tx && is_num ta && is_num tb then Some TBool else None
      | _, _, _ => None
      end
  | ETer TFalls a c b =>
      match typeof G a, typeof G c, typeof G b with
      | Some ta, Some TBool, Some tb => if ty_eqb ta tb then Some ta else None
      | _, _, _ => None
      end
  | ECast a t => match typeof G a with Some ta => cast_ty t ta | None => None end
  | _ => None
  end.

Definition in_scalar_fragment (G : tenv) (e : expr) : bool :=
  match typeof G e with Some _ => true | None => false end.

(* the target: structured instruction trees *)
Inductive lir : Type :=
| LConst (m : mval)
| LLoad (x : ident)
| LUn (op : unop) (a : lir)
| LBin (op : binop) (a b : lir)           (* both operands, then the instruction(s) of Ops.lower_bin *)
| LBetween (x a b : lir)
| LCast (t : ty) (a : lir)
| LCondPhi (is_and : bool) (a b : lir)    (* condbr on a; b in its own block; phi *)
| LBrPhi (c a b : lir).                   (* falls: condbr on c to the block of a or of b; phi *)

Fixpoint compile_expr (e : expr) : lir :=
  match e with
  | EInt z => LConst (MI64 (z mod 2^64))
  | EFloat b => LConst (MF64 (f_canon b))
  | EBool b => LConst (MI1 b)
  | EChar c => LConst (MI32 (c mod 2^32))
  | EVar x => LLoad x
  | EUn op a => LUn op (compile_expr a)
  | EBin BAnd a b => LCondPhi true (compile_expr a) (compile_expr b)
  | EBin BOr a b => LCondPhi false (compile_expr a) (compile_expr b)
  | EBin op a b => LBin op (compile_expr a) (compile_expr b)
  | ETer TBetween x a b => LBetween (compile_expr x) (compile_expr a) (compile_expr b)
  | ETer TFalls a c b => LBrPhi (compile_expr c) (compile_expr a) (compile_expr b)
  | ECast a t => LCast t (compile_expr a)
  | _ => LConst (MI1 false)      (* outside the fragment *)
  end.

Inductive mres : Type := MOk (m : mval) | MErr | MStuck.

Definition of_lres (r : lres) : mres :=
  match r with LOk m => MOk m | LRtErr => MErr | _ => MStuck end.

Definition mbind (r : mres) (k : mval -> mres) : mres :=
  match r with MOk m => k m | MErr => MErr | MStuck => MStuck end.

(* sub-evaluations as the abstract evaluators of Control.v (the state is trivial: expressions of the fragment
   have no effects) *)
Definition as_ores (r : mres) : ores unit (option bool) :=
  match r with
  | MOk (MI1 b) => OVal (Some b) tt
  | MOk _ => OVal None tt
  | MErr => OErr tt
  | MStuck => OVal None tt
  end.

Section Eval.
Variable pow : Z -> Z -> Z.
Variable log10 : Z -> Z.
Variable ld : ident -> option mval.      (* the current contents of the variables *)

Fixpoint lir_eval (l : lir) : mres :=
  match l with
  | LConst m => MOk m
  | LLoad x => match ld x with Some m => MOk m | None => MStuck end
  | LUn op a => mbind (lir_eval a) (fun x => of_lres (lower_un op x))
  | LBin op a b => mbind (lir_eval a) (fun x => mbind (lir_eval b) (fun y => of_lres (lower_bin pow log10 op x y)))
  | LBetween x a b =>
      mbind (lir_eval x) (fun vx => mbind (lir_eval a) (fun va => mbind (lir_eval b) (fun vb =>
        of_lres (lower_between vx va vb))))
  | LCast t a => mbind (lir_eval a) (fun x => of_lres (lower_cast t x))
  | LCondPhi is_and a b =>
      (* the meaning of the condbr/phi blocks: Control.sc_spec over the two sub-evaluations *)
      match lir_eval a with
      | MOk (MI1 l) =>
          match fst (sc_spec unit (fun _ => OVal l tt)
                       (fun _ => match lir_eval b with MOk (MI1 r) => OVal r tt | MErr => OErr tt | _ => ODiv end)
                       is_and tt) with
          | OVal r _ => MOk (MI1 r)
          | OErr _ => MErr
          | ODiv => MStuck
          end
      | MOk _ => MStuck
      | r => r
      end
  | LBrPhi c a b =>
      match lir_eval c with
      | MOk (MI1 true) => lir_eval a
      | MOk (MI1 false) => lir_eval b
      | MOk _ => MStuck
      | r => r
      end
  end.
End Eval.

(* well-formedness is preserved by every operator of the fragment *)
(* the same function as OpsProofs.scalar_ty (as is_num is RefSem.is_numeric_ty) *)
Lemma is_scalar_ty_scalar : forall t, is_scalar_ty t = scalar_ty t.
Proof. reflexivity. Qed.

Lemma canon_enc : forall x, f_canon (enc x) = enc x.
Proof.
  intros x. unfold f_canon, dec. unfold enc at 2 3.
  destruct (Binary.is_nan 53 1024 x) eqn:N.
  - vm_compute. reflexivity.
  - assert (R : 0 <= bits_of_b64 x < 2^64) by (apply (bits_of_binary_float_range 52 11); reflexivity).
    rewrite Z.mod_small by exact R.
    unfold b64_of_bits, bits_of_b64. rewrite binary_float_of_bits_of_binary_float.
    unfold enc. rewrite N. reflexivity.
Qed.

Lemma canon_idem : forall b, f_canon (f_canon b) = f_canon b.
Proof. intros. unfold f_canon at 2 3. apply canon_enc. Qed.

Lemma wrap32_range : forall z, - 2^31 <= wrap32 z < 2^31.
Proof.
  intros z. unfold wrap32. assert (0 <= (z + 2^31) mod 2^32 < 2^32) by (apply Z.mod_pos_bound; lia). lia.
Qed.

Lemma rem_in64 : forall x y, min64 <= x <= max64 -> y <> 0 -> min64 <= Z.rem x y <= max64.
Proof.
  (* |x rem y| = |x| rem |y| <= |x| *)
  intros x y Hx Hy. unfold min64, max64 in *.
  assert (Z.abs (Z.rem x y) <= Z.abs x) by (rewrite <- Z.rem_abs by assumption; apply Z.rem_le; lia).
  assert (0 <= Z.rem x y * x) by (apply Z.rem_sign_mul; assumption).
  nia.
Qed.

Lemma byte_bitop_range : forall f x y,
  (forall a b, f (a mod 2^8) (b mod 2^8) = (f a b) mod 2^8) ->
  0 <= x < 256 -> 0 <= y < 256 -> 0 <= f x y < 256.
Proof.
  intros f x y HF Hx Hy. rewrite <- (Z.mod_small x (2^8)), <- (Z.mod_small y (2^8)) by (change (2^8) with 256; lia).
  rewrite HF. change 256 with (2^8). apply Z.mod_pos_bound. lia.
Qed.

Lemma sat_range : forall lo hi b, lo <= 0 <= hi -> lo <= f_to_Z_sat lo hi b <= hi.
Proof.
  intros lo hi b H. unfold f_to_Z_sat.
  destruct (f_is_nan b); [lia|].
  destruct (f_trunc b) as [z|].
  - destruct (z <? lo) eqn:A; [lia|]. apply Z.ltb_ge in A.
    destruct (hi <? z) eqn:B; [lia|]. apply Z.ltb_ge in B. lia.
  - destruct (f_sign b); lia.
Qed.

Lemma wrap8_range : forall z, 0 <= wrap8 z < 256.
Proof. intros. unfold wrap8. apply Z.mod_pos_bound. lia. Qed.

Lemma f_of_Z_canon : forall z, f_canon (f_of_Z z) = f_of_Z z.
Proof. intros. unfold f_of_Z. apply canon_enc. Qed.

(* wf of the float results: every float operation of F64 ends in enc *)
Lemma wf_fadd : forall a b, f_canon (f_add a b) = f_add a b. Proof. intros; apply canon_enc. Qed.
Lemma wf_fsub : forall a b, f_canon (f_sub a b) = f_sub a b. Proof. intros; apply canon_enc. Qed.
Lemma wf_fmul : forall a b, f_canon (f_mul a b) = f_mul a b. Proof. intros; apply canon_enc. Qed.
Lemma wf_fdiv : forall a b, f_canon (f_div a b) = f_div a b. Proof. intros; apply canon_enc. Qed.
Lemma wf_fneg : forall a, f_canon (f_neg a) = f_neg a. Proof. intros; apply canon_enc. Qed.

Global Hint Resolve wrap64_in64 wrap32_range wrap8_range canon_idem f_of_Z_canon wf_fadd wf_fsub wf_fmul wf_fdiv wf_fneg canon_enc : wfdb.

Definition okv (t : ty) (v : value) : Prop := wf v /\ type_of v = t.

Ltac wf_side :=
  split; [cbn [wf]; try exact I; auto with wfdb;
          try apply wrap64_in64; try apply wrap8_range; try apply wrap32_range;
          try (unfold in64 in *; unfold min64, max64 in *; lia)
         | try reflexivity].

Section Sound.
Variable pow : Z -> Z -> Z.
Variable log10 : Z -> Z.
Variable fmt_float : Z -> list Z.

Lemma to_f_some : forall v, wf v -> is_num (type_of v) = true -> exists x, to_f v = Some x.
Proof. intros v W H. destruct v; cbn in H; try discriminate H; cbn; eauto. Qed.

Lemma arith_sound : forall fz ff a b t,
  (forall x y, f_canon (ff x y) = ff x y) ->
  wf a -> wf b -> arith_ty (type_of a) (type_of b) = Some t ->
  exists v, arith fz ff a b = ROk v /\ okv t v.
Proof.
  intros fz ff a b t HF Wa Wb HT.
  destruct a, b; cbn in Wa, Wb; try contradiction; cbn in HT; try discriminate HT; inversion HT; subst;
    cbn [arith is_K orb to_f to_i]; eexists; (split; [reflexivity|]); wf_side.
Qed.

Lemma fbin_sound : forall ff a b,
  (forall x y, f_canon (ff x y) = ff x y) ->
  wf a -> wf b -> is_num (type_of a) && is_num (type_of b) = true ->
  exists v, fbin ff a b = ROk v /\ okv TKomma v.
Proof.
  intros ff a b HF Wa Wb HT.
  destruct a, b; cbn in Wa, Wb; try contradiction; cbn in HT; try discriminate HT;
    cbn [fbin to_f]; eexists; (split; [reflexivity|]); wf_side.
Qed.

Lemma bitop_sound : forall f a b t,
  (forall x y, f (x mod 2^8) (y mod 2^8) = (f x y) mod 2^8) ->
  wf a -> wf b -> int_ty (type_of a) (type_of b) = Some t ->
  exists v, bitop f a b = ROk v /\ okv t v.
Proof.
  intros f a b t HF Wa Wb HT.
  destruct a, b; cbn in Wa, Wb; try contradiction; cbn in HT; try discriminate HT; inversion HT; subst;
    cbn [bitop to_i]; eexists; (split; [reflexivity|]); wf_side.
  apply byte_bitop_range; auto.
Qed.

Lemma modulo_sound : forall a b t,
  wf a -> wf b -> int_ty (type_of a) (type_of b) = Some t ->
  (exists v, modulo a b = ROk v /\ okv t v) \/ modulo a b = RErr.
Proof.
  intros a b t Wa Wb HT.
  destruct a, b; cbn in Wa, Wb; try contradiction; cbn in HT; try discriminate HT; inversion HT; subst;
    cbn [modulo to_i]; destruct (z0 =? 0) eqn:E0; auto; left; apply Z.eqb_neq in E0;
    eexists; (split; [reflexivity|]); split; try reflexivity; cbn [wf].
  - apply rem_in64; auto.
  - apply rem_in64; auto.
  - apply rem_in64; auto. unfold min64, max64; lia.
  - pose proof (Z.mod_pos_bound z z0). lia.
Qed.

Lemma byte_shr : forall x c, 0 <= x < 256 -> 0 <= c -> 0 <= x / 2 ^ c < 256.
Proof.
  intros x c Hx Hc. assert (0 < 2 ^ c) by (apply Z.pow_pos_nonneg; lia).
  split; [apply Z.div_pos; lia|]. apply Z.div_lt_upper_bound; nia.
Qed.

Lemma shift_sound : forall left a b,
  wf a -> wf b -> is_int (type_of a) && is_int (type_of b) = true ->
  exists v, shift left a b = ROk v /\ okv (type_of a) v.
Proof.
  intros left a b Wa Wb HT.
  destruct a, b; cbn in Wa, Wb; try contradiction; cbn in HT; try discriminate HT; cbn [shift to_i type_of].
  - destruct ((z0 <? 0) || (64 <=? z0)); eexists; (split; [reflexivity|]); destruct left; wf_side.
  - destruct ((z0 <? 0) || (64 <=? z0)); eexists; (split; [reflexivity|]); destruct left; wf_side.
  - assert (0 <= z0 mod 256 < 256) by (apply Z.mod_pos_bound; lia).
    destruct (8 <=? z0 mod 256); eexists; (split; [reflexivity|]); destruct left; wf_side.
    apply byte_shr; lia.
  - destruct (8 <=? z0); eexists; (split; [reflexivity|]); destruct left; wf_side.
    apply byte_shr; lia.
Qed.

Lemma compare_sound : forall fi ff a b,
  wf a -> wf b -> is_num (type_of a) && is_num (type_of b) = true ->
  exists v, compare fi ff a b = ROk v /\ okv TBool v.
Proof.
  intros fi ff a b Wa Wb HT.
  destruct a, b; cbn in Wa, Wb; try contradiction; cbn in HT; try discriminate HT;
    cbn [compare is_K orb to_f to_i]; eexists; (split; [reflexivity|]); wf_side.
Qed.

Lemma eqb_sound : forall a b,
  wf a -> wf b -> is_scalar_ty (type_of a) && ty_eqb (type_of a) (type_of b) = true ->
  exists r, value_eqb a b = Some r.
Proof.
  intros a b Wa Wb HT.
  destruct a, b; cbn in Wa, Wb; try contradiction; cbn in HT; try discriminate HT; cbn [value_eqb]; eauto.
Qed.

Lemma if_some : forall (A : Type) (c : bool) (x t : A), (if c then Some x else None) = Some t -> c = true /\ x = t.
Proof. intros A [] x t H; inversion H; auto. Qed.

(* every binary operator of the fragment on well-formed operands of admissible types: a well-formed value of the
   result type, or (modulo only) a Laufzeitfehler - never a guard, never stuck *)
Lemma bin_sound : forall op a b t,
  wf a -> wf b -> bin_ty op (type_of a) (type_of b) = Some t ->
  (exists v, bin_op pow log10 op a b = ROk v /\ okv t v) \/ (op = BMod /\ bin_op pow log10 op a b = RErr).
Proof.
  intros op a b t Wa Wb HT.
  assert (BOOL : forall f : bool -> bool -> bool,
            match type_of a, type_of b with TBool, TBool => Some TBool | _, _ => None end = Some t ->
            exists v, match a, b with VW x, VW y => ROk (VW (f x y)) | _, _ => ill end = ROk v /\ okv t v).
  { intros f H. destruct a, b; try discriminate H. inversion H. eexists; split; [reflexivity|]. wf_side. }
  destruct op; cbn [bin_ty] in HT; try discriminate HT; cbn [bin_op];
    try (apply if_some in HT; destruct HT as [N <-]).
  - left. now apply BOOL.
  - left. now apply BOOL.
  - left. now apply BOOL.
  - left. apply arith_sound; auto with wfdb.
  - left. apply arith_sound; auto with wfdb.
  - left. apply arith_sound; auto with wfdb.
  - left. apply fbin_sound; auto with wfdb.
  - left. apply fbin_sound; auto with wfdb.
  - left. apply fbin_sound; auto with wfdb.
  - left. apply bitop_sound; auto. intros. now apply (bitwise_mod Z.land andb Z.land_spec).
  - left. apply bitop_sound; auto. intros. now apply (bitwise_mod Z.lor orb Z.lor_spec).
  - left. apply bitop_sound; auto. intros. now apply (bitwise_mod Z.lxor xorb Z.lxor_spec).
  - destruct (modulo_sound a b t Wa Wb HT) as [H|H]; [left; exact H|right; auto].
  - left. apply shift_sound; auto.
  - left. apply shift_sound; auto.
  - left. destruct (eqb_sound a b Wa Wb N) as [r ->]. apply andb_true_iff in N. destruct N as [_ ->].
    eexists; split; [reflexivity|]. wf_side.
  - left. destruct (eqb_sound a b Wa Wb N) as [r ->]. apply andb_true_iff in N. destruct N as [_ ->].
    eexists; split; [reflexivity|]. wf_side.
  - left. apply compare_sound; auto.
  - left. apply compare_sound; auto.
  - left. apply compare_sound; auto.
  - left. apply compare_sound; auto.
Qed.

Lemma un_sound : forall op a t,
  wf a -> un_ty op (type_of a) = Some t -> exists v, un_op op a = ROk v /\ okv t v.
Proof.
  intros op a t Wa HT.
  destruct op, a; cbn in Wa; try contradiction; cbn in HT; try discriminate HT; inversion HT; subst;
    cbn [un_op]; eexists; (split; [reflexivity|]).
  1: (* Betrag einer Zahl *) destruct (z <? 0); wf_side.
  1: (* Betrag einer Kommazahl *) destruct (f_lt bits f_pos_zero); wf_side.
  all: wf_side.
Qed.

Lemma cast_sound : forall t a t',
  wf a -> cast_ty t (type_of a) = Some t' -> exists v, cast_to fmt_float t a = ROk v /\ okv t' v.
Proof.
  intros t a t' Wa HT.
  destruct t, a; cbn in Wa; try contradiction; cbn in HT; try discriminate HT; inversion HT; subst;
    cbn [cast_to]; eexists; (split; [reflexivity|]); wf_side.
  - pose proof (sat_range min64 max64 bits). unfold min64, max64 in *. lia.
  - unfold min64, max64. destruct b; lia.
  - pose proof (sat_range 0 255 bits). lia.
Qed.

Lemma between_sound : forall x a b,
  wf x -> wf a -> wf b -> is_num (type_of x) && is_num (type_of a) && is_num (type_of b) = true ->
  exists v, between x a b = ROk v /\ okv TBool v.
Proof.
  intros x a b Wx Wa Wb HT. apply andb_true_iff in HT. destruct HT as [HT Nb].
  apply andb_true_iff in HT. destruct HT as [Nx Na].
  destruct x; try discriminate Nx; destruct a; try discriminate Na; destruct b; try discriminate Nb;
    cbn [between is_K orb to_f to_i]; eexists; (split; [reflexivity|]); wf_side.
Qed.

Variable ftab : list fdecl.
Notation eval := (RefSem.eval pow log10 fmt_float ftab).

(* the variables of the typing environment hold well-formed values of their types, and [ld] reads their
   machine representation *)
Definition env_ok (G : tenv) (en : env) (s : state) (ld : ident -> option mval) : Prop :=
  forall x t, G x = Some t -> is_scalar_ty t = true ->
    exists b v, lookup en x = Some b /\ read_bind s b = Ok v s /\ okv t v /\ ld x = Some (repr v).

(* [F]: what is claimed when RefSem runs out of fuel (False: excluded by depth e <= fuel; True: nothing) *)
Definition agree (F : Prop) (t : ty) (s : state) (r : res value) (m : mres) : Prop :=
  match r with
  | Ok v s' => s' = s /\ okv t v /\ m = MOk (repr v)
  | Fail ELaufzeit s' => s' = s /\ m = MErr
  | Fail EFuel _ => F
  | Fail (EUndef _) _ => False
  end.

Fixpoint depth (e : expr) : nat :=
  match e with
  | EUn _ a | ECast a _ => S (depth a)
  | EBin _ a b => S (Nat.max (depth a) (depth b))
  | ETer _ a b c => S (Nat.max (depth a) (Nat.max (depth b) (depth c)))
  | _ => 1%nat
  end.

Lemma agree_bind : forall (F : Prop) ta t s r m (k : value -> state -> res value) (km : mval -> mres),
  agree F ta s r m ->
  (forall v, okv ta v -> agree F t s (k v s) (km (repr v))) ->
  agree F t s (rbind r k) (mbind m km).
Proof.
  intros F ta t s [v s'|[| g|] s'] m k km H K; cbn [agree rbind] in *; auto.
  - destruct H as (-> & OV & ->). now apply K.
  - destruct H as (-> & ->). auto.
Qed.

(* one operator application: RefSem defines it on well-typed operands and the emitted instructions compute it *)
Lemma un_agree : forall (F : Prop) s op a t,
  wf a -> un_ty op (type_of a) = Some t ->
  agree F t s (lift (un_op op a) s) (of_lres (lower_un op (repr a))).
Proof.
  intros F s op a t W HT. destruct (un_sound op a t W HT) as (v & Hv & OV).
  assert (NL : op <> ULen) by (intros ->; destruct a; discriminate HT).
  rewrite Hv, (un_lowering_correct op a v W NL Hv). cbn. auto.
Qed.

Lemma bin_agree : forall (F : Prop) s op a b t,
  wf a -> wf b -> bin_ty op (type_of a) (type_of b) = Some t ->
  agree F t s (lift (bin_op pow log10 op a b) s) (of_lres (lower_bin pow log10 op (repr a) (repr b))).
Proof.
  intros F s op a b t Wa Wb HT. destruct (bin_sound op a b t Wa Wb HT) as [(v & Hv & OV)|[-> Hv]]; rewrite Hv.
  - assert (SB : scalar_binop op = true) by (destruct op; try discriminate HT; reflexivity).
    rewrite (bin_lowering_correct pow log10 op a b v Wa Wb SB Hv). cbn. auto.
  - rewrite (mod_zero_lowering_correct pow log10 a b Wa Wb Hv). cbn. auto.
Qed.

Lemma cast_agree : forall (F : Prop) s t a t',
  wf a -> cast_ty t (type_of a) = Some t' ->
  agree F t' s (lift (cast_to fmt_float t a) s) (of_lres (lower_cast t (repr a))).
Proof.
  intros F s t a t' W HT. destruct (cast_sound t a t' W HT) as (v & Hv & OV).
  assert (ST : scalar_ty t = true) by (destruct t; try reflexivity; destruct (type_of a); discriminate HT).
  rewrite Hv, (cast_lowering_correct fmt_float t a v W ST Hv). cbn. auto.
Qed.

Lemma between_agree : forall (F : Prop) s x a b,
  wf x -> wf a -> wf b -> is_num (type_of x) && is_num (type_of a) && is_num (type_of b) = true ->
  agree F TBool s (lift (between x a b) s) (of_lres (lower_between (repr x) (repr a) (repr b))).
Proof.
  intros F s x a b Wx Wa Wb HT. destruct (between_sound x a b Wx Wa Wb HT) as (v & Hv & OV).
  rewrite Hv, (between_lowering_correct x a b v Wx Wa Wb Hv). cbn. auto.
Qed.

Lemma okv_bool : forall v, okv TBool v -> exists b, v = VW b.
Proof. intros v [_ T]. destruct v; try discriminate T. eauto. Qed.

(* und / oder: the right operand is evaluated, in its own block, exactly when RefSem evaluates it *)
Lemma condphi_agree : forall (F : Prop) s (is_and : bool) r1 m1 r2 m2,
  agree F TBool s r1 m1 -> agree F TBool s (r2 s) m2 ->
  let rhs s := rbind (r2 s) (fun w s => match w with VW _ => Ok w s | _ => bad s end) in
  agree F TBool s
    (rbind r1 (fun v s =>
       match v with
       | VW b => if b then (if is_and then rhs s else Ok (VW true) s) else (if is_and then Ok (VW false) s else rhs s)
       | _ => bad s
       end))
    (match m1 with
     | MOk (MI1 l) =>
         match fst (sc_spec unit (fun _ => OVal l tt)
                      (fun _ => match m2 with MOk (MI1 r) => OVal r tt | MErr => OErr tt | _ => ODiv end)
                      is_and tt) with
         | OVal r _ => MOk (MI1 r)
         | OErr _ => MErr
         | ODiv => MStuck
         end
     | MOk _ => MStuck
     | MErr => MErr
     | MStuck => MStuck
     end).
Proof.
  intros F s is_and r1 m1 r2 m2 H1 H2 rhs.
  assert (RHS : agree F TBool s (rhs s)
            (match (match m2 with MOk (MI1 r) => OVal r tt | MErr => @OErr unit bool tt | _ => ODiv end) with
             | OVal r _ => MOk (MI1 r) | OErr _ => MErr | ODiv => MStuck end)).
  { unfold rhs. destruct (r2 s) as [w s'|[| g|] s']; cbn [agree rbind] in *; auto.
    - destruct H2 as (-> & OV & ->). destruct (okv_bool w OV) as [b ->]. cbn. auto.
    - destruct H2 as (-> & ->). auto. }
  destruct r1 as [v s'|[| g|] s']; cbn [agree rbind] in *; auto.
  - destruct H1 as (-> & OV & ->). destruct (okv_bool v OV) as [b ->]. cbn [repr sc_spec].
    destruct is_and, b; cbn [Bool.eqb fst]; first [exact RHS | cbn; auto].
  - destruct H1 as (-> & ->). auto.
Qed.

Lemma sub_fuel : forall (F : Prop) d d' fuel, F \/ (S d <= S fuel)%nat -> (d' <= d)%nat -> F \/ (d' <= fuel)%nat.
Proof. intros F d d' fuel [H|H] L; [left; exact H|right; lia]. Qed.

Theorem expr_preservation_gen : forall (F : Prop) G genv en s ld e t,
  env_ok G en s ld ->
  typeof G e = Some t ->
  forall fuel, F \/ (depth e <= fuel)%nat -> agree F t s (eval fuel genv en s e) (lir_eval pow log10 ld (compile_expr e)).
Proof.
  intros F G genv en s ld e. induction e; intros rt ENV HT fuel HD; cbn [typeof] in HT; try discriminate HT;
    (destruct fuel as [|fuel]; [destruct HD as [HF|HD]; [exact HF|cbn [depth] in HD; lia]|]);
    cbn [depth] in HD; cbn [RefSem.eval compile_expr lir_eval].
  - (* EInt *) inversion HT; subst. split; [reflexivity|]. split; [wf_side|]. cbn [repr]. now rewrite wrap64_mod.
  - (* EFloat *) inversion HT; subst. split; [reflexivity|]. split; [wf_side|reflexivity].
  - (* EBool *) inversion HT; subst. split; [reflexivity|]. split; [wf_side|reflexivity].
  - (* EChar *)
    apply if_some in HT. destruct HT as [R <-]. apply andb_true_iff in R. destruct R as [R1 R2].
    apply Z.leb_le in R1. apply Z.ltb_lt in R2.
    split; [reflexivity|]. split; [split; [cbn [wf]; lia|reflexivity]|reflexivity].
  - (* EVar *)
    destruct (G x) as [tx|] eqn:GX; [|discriminate HT]. apply if_some in HT. destruct HT as [SC <-].
    destruct (ENV x tx GX SC) as (b & v & -> & -> & OK & ->). cbn. auto.
  - (* EUn *)
    destruct (typeof G e) as [ta|] eqn:TA; [|discriminate HT].
    eapply agree_bind; [apply (IHe ta ENV eq_refl fuel); eapply sub_fuel; eauto|].
    intros v [Wv <-]. now apply un_agree.
  - (* EBin *)
    destruct (typeof G e1) as [ta|] eqn:TA; [|discriminate HT].
    destruct (typeof G e2) as [tb|] eqn:TB; [|discriminate HT].
    assert (IH1 := IHe1 ta ENV eq_refl fuel (sub_fuel F _ _ _ HD (Nat.le_max_l _ _))).
    assert (IH2 := IHe2 tb ENV eq_refl fuel (sub_fuel F _ _ _ HD (Nat.le_max_r _ _))).
    assert (STRICT : agree F rt s
              (rbind (eval fuel genv en s e1) (fun v s0 => rbind (eval fuel genv en s0 e2) (fun w s1 => lift (bin_op pow log10 op v w) s1)))
              (mbind (lir_eval pow log10 ld (compile_expr e1)) (fun x => mbind (lir_eval pow log10 ld (compile_expr e2))
                        (fun y => of_lres (lower_bin pow log10 op x y))))).
    { eapply agree_bind; [exact IH1|]. intros v [Wv <-].
      eapply agree_bind; [exact IH2|]. intros w [Ww <-]. now apply bin_agree. }
    destruct op; try exact STRICT; clear STRICT; destruct ta, tb; try discriminate HT; inversion HT; subst rt.
    + exact (condphi_agree F s true _ _ (fun s => eval fuel genv en s e2) _ IH1 IH2).
    + exact (condphi_agree F s false _ _ (fun s => eval fuel genv en s e2) _ IH1 IH2).
  - (* ETer *)
    destruct op; try discriminate HT; cbn [RefSem.eval compile_expr lir_eval].
    + (* zwischen *)
      destruct (typeof G e1) as [tx|] eqn:TX; [|discriminate HT].
      destruct (typeof G e2) as [ta|] eqn:TA; [|discriminate HT].
      destruct (typeof G e3) as [tb|] eqn:TB; [|discriminate HT].
      apply if_some in HT. destruct HT as [N <-].
      eapply agree_bind; [apply (IHe1 tx ENV eq_refl fuel); eapply sub_fuel; eauto; lia|]. intros v1 [W1 <-].
      eapply agree_bind; [apply (IHe2 ta ENV eq_refl fuel); eapply sub_fuel; eauto; lia|]. intros v2 [W2 <-].
      eapply agree_bind; [apply (IHe3 tb ENV eq_refl fuel); eapply sub_fuel; eauto; lia|]. intros v3 [W3 <-].
      now apply between_agree.
    + (* falls: the condition, then only the chosen side *)
      destruct (typeof G e1) as [ta|] eqn:TA; [|discriminate HT].
      destruct (typeof G e2) as [[]|] eqn:TC; try discriminate HT.
      destruct (typeof G e3) as [tb|] eqn:TB; [|discriminate HT].
      apply if_some in HT. destruct HT as [EQ <-]. apply ty_eqb_eq in EQ. subst tb.
      assert (IH1 := IHe1 ta ENV eq_refl fuel ltac:(eapply sub_fuel; eauto; lia)).
      assert (IH2 := IHe2 TBool ENV eq_refl fuel ltac:(eapply sub_fuel; eauto; lia)).
      assert (IH3 := IHe3 ta ENV eq_refl fuel ltac:(eapply sub_fuel; eauto; lia)).
      destruct (eval fuel genv en s e2) as [v s'|[| g|] s']; cbn [agree rbind] in *; auto.
      * destruct IH2 as (-> & OV & ->). destruct (okv_bool v OV) as [[] ->]; assumption.
      * destruct IH2 as (-> & ->). auto.
  - (* ECast *)
    destruct (typeof G e) as [ta|] eqn:TA; [|discriminate HT].
    eapply agree_bind; [apply (IHe ta ENV eq_refl fuel); eapply sub_fuel; eauto|].
    intros v [Wv <-]. now apply cast_agree.
Qed.

(* expressions never get stuck and never run out of fuel when the fuel covers their depth *)
Theorem expr_preservation : forall G genv en s ld e t,
  env_ok G en s ld ->
  typeof G e = Some t ->
  forall fuel, (depth e <= fuel)%nat ->
  agree False t s (eval fuel genv en s e) (lir_eval pow log10 ld (compile_expr e)).
Proof. intros. eapply expr_preservation_gen; eauto. Qed.

End Sound.
