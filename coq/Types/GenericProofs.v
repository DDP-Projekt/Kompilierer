(* The type-level half of generic instantiation (model: Generic.v): the fuel of the list-peeling loops is
   never exhausted and unification never panics on a cache whose entries have the arity of their generic
   Kombination (unify_total); the instantiation cache is canonical over every history of requests
   (inst_canonical); in the list / type-parameter fragment a successful unification returns the
   substituted parameter type, first binding wins (unify_sound, check_args_sound, unify_conflict). *)
From Coq Require Import List NArith Bool Lia.
Import ListNotations.
From DDP Require Import Types.Ty Types.TyProofs Types.Generic.
Open Scope N_scope.

Lemma size_underlying_le t : (size (underlying t) <= size t)%nat.
Proof. induction t; cbn [underlying size]; lia. Qed.

Lemma underlying_list_size t e : underlying t = List e -> (size e < size t)%nat.
Proof.
  induction t as [p| | |e0 IH|i u IH|i u IH|i|n|i u IH]; cbn [underlying size]; intros H; try discriminate H.
  - inversion H; subst. pose proof (size_underlying_le e0). lia.
  - apply IH in H. lia.
  - apply IH in H. lia.
Qed.

Lemma cast_list_size t e : cast_list t = Some e -> (size e < size t)%nat.
Proof. unfold cast_list. destruct (underlying t) eqn:U; intros H; try discriminate H. inversion H; subst. eapply underlying_list_size; eassumption. Qed.

Lemma peel_total_gen fuel : forall inst gen d, (size gen <= fuel)%nat -> peel fuel inst gen d <> None.
Proof.
  induction fuel as [|f IH]; intros inst gen d Hs.
  - destruct gen; cbn in Hs; lia.
  - cbn [peel]. destruct (cast_list inst) as [ae|] eqn:CI; [|discriminate].
    destruct (cast_list gen) as [pe|] eqn:CG; [|discriminate].
    destruct (is_generic pe); [discriminate|]. apply IH. apply cast_list_size in CG. lia.
Qed.

Theorem peel_total inst gen d : peel (size gen) inst gen d <> None.
Proof. apply peel_total_gen. lia. Qed.

Lemma ipeel_total_gen fuel : forall t d, (size t <= fuel)%nat -> ipeel fuel t d <> None.
Proof.
  induction fuel as [|f IH]; intros t d Hs.
  - destruct t; cbn in Hs; lia.
  - cbn [ipeel]. destruct (cast_list t) as [e|] eqn:C; [|discriminate].
    destruct (is_generic e); [discriminate|]. apply IH. apply cast_list_size in C. lia.
Qed.

Theorem ipeel_total t d : ipeel (size t) t d <> None.
Proof. apply ipeel_total_gen. lia. Qed.

(* ---- unification never panics (since /repo 36809d8) --------------------------------------------------- *)
(* every recorded instantiation has as many type arguments as its generic Kombination has parameters *)
Definition inv_len (arity : N -> nat) (st : gstate) : Prop :=
  forall e, In e (insts st) -> length (snd (fst e)) = arity (fst (fst e)).

Lemma inv_len_gstate0 arity k : inv_len arity (gstate0 k).
Proof. intros e H; cbn in H; contradiction. Qed.

Lemma get_inst_inv_len arity st g args o st' :
  inv_len arity st -> get_inst arity st g args = (o, st') -> inv_len arity st'.
Proof.
  intros Hl. unfold get_inst. destruct (find_inst (insts st) g args); [intros H; inversion H; subst; exact Hl|].
  destruct (Nat.eqb (length args) (arity g)) eqn:E; cbn [negb]; intros H; inversion H; subst; clear H; [|exact Hl].
  intros e He. cbn [insts] in He. apply in_app_or in He. destruct He as [He|[He|[]]]; [apply Hl; exact He|].
  subst e. cbn. apply PeanoNat.Nat.eqb_eq. exact E.
Qed.

Lemma sinfo_in st s g a : sinfo st s = Some (g, a) -> exists e, In e (insts st) /\ fst (fst e) = g /\ snd (fst e) = a.
Proof.
  unfold sinfo. destruct (find (fun e : inst_entry => snd e =? s) (insts st)) as [e|] eqn:F; intros H; [|discriminate H].
  apply find_some in F. destruct F as [Hi _]. inversion H as [H1]. exists e. rewrite H1. cbn. auto.
Qed.

Lemma unify_targs_no_panic pargs : forall aargs σ, (length pargs <= length aargs)%nat -> fst (unify_targs pargs aargs σ) <> TPanic.
Proof.
  induction pargs as [|pp ps IH]; intros aargs σ Hl; cbn [unify_targs]; [cbn; discriminate|].
  destruct aargs as [|aa as']; [cbn in Hl; lia|].
  destruct (match cast_generic pp with Some n => unify_type σ n aa | None => (pp, σ) end) as [pp' σ1].
  destruct (negb (equal pp' aa)); [cbn; discriminate|].
  specialize (IH as' σ1). destruct (unify_targs ps as' σ1) as [[| |l] σ2]; cbn in *; try discriminate.
  apply IH. lia.
Qed.

Theorem unify_total arity st arg param σ :
  inv_len arity st ->
  fst (fst (unify arity st arg param σ)) <> UPanic /\ fst (fst (unify arity st arg param σ)) <> UFuel /\
  inv_len arity (snd (unify arity st arg param σ)).
Proof.
  intros Hl. unfold unify. pose proof (peel_total arg param 0%nat) as HP.
  (* every exit but the last two returns st itself and a result that is neither UPanic nor UFuel *)
  assert (Done : forall (r : ures) (σ' : subst_env), r <> UPanic -> r <> UFuel ->
            fst (fst (r, σ', st)) <> UPanic /\ fst (fst (r, σ', st)) <> UFuel /\ inv_len arity (snd (r, σ', st)))
    by (intros; repeat split; assumption).
  destruct (peel (size param) arg param 0) as [[[[[inst gen] depth] ia] ip]|]; [clear HP|congruence].
  destruct (ip && negb ia); [apply Done; discriminate|].
  destruct (match cast_generic gen with Some n => unify_type σ n inst | None => (gen, σ) end) as [gen1 σ1].
  destruct (match cast_struct gen1 with Some ps => sinfo st ps | None => None end) as [[g pargs]|] eqn:PI; [|apply Done; discriminate].
  destruct (match cast_struct inst with Some s => sinfo st s | None => None end) as [[g' aargs]|] eqn:AI; [|apply Done; discriminate].
  destruct (g' =? g) eqn:G; cbn [negb]; [|apply Done; discriminate].
  apply N.eqb_eq in G. subst g'.
  (* both are instantiations of the same generic Kombination, hence have its arity *)
  assert (Hlen : length pargs = length aargs).
  { destruct (cast_struct gen1) as [ps|]; [|discriminate PI]. destruct (cast_struct inst) as [s|]; [|discriminate AI].
    apply sinfo_in in PI. apply sinfo_in in AI. destruct PI as [e1 [I1 [G1 A1]]], AI as [e2 [I2 [G2 A2]]].
    rewrite <- A1, <- A2, (Hl e1 I1), (Hl e2 I2), G1, G2. reflexivity. }
  pose proof (unify_targs_no_panic pargs aargs σ1) as NP.
  destruct (unify_targs pargs aargs σ1) as [[| |targs] σ2]; [apply Done; discriminate|exfalso; apply NP; [lia|reflexivity]|].
  destruct (get_inst arity st g targs) as [[s|] st'] eqn:GI; cbn [fst snd];
    (repeat split; [discriminate|discriminate|eapply get_inst_inv_len; eassumption]).
Qed.

(* ---- the instantiation cache is canonical ------------------------------------------------------------ *)
Lemma args_equal_refl a : args_equal a a = true.
Proof. induction a as [|x a IH]; cbn; [reflexivity|]. rewrite equal_refl, IH. reflexivity. Qed.
Lemma args_equal_sym a b : args_equal a b = args_equal b a.
Proof. revert b; induction a as [|x a IH]; intros [|y b]; cbn; try reflexivity. rewrite equal_sym, IH. reflexivity. Qed.
Lemma args_equal_trans a b c : args_equal a b = true -> args_equal b c = true -> args_equal a c = true.
Proof.
  revert b c; induction a as [|x a IH]; intros [|y b] [|z c]; cbn; intros H1 H2; try discriminate H1; try discriminate H2; try reflexivity.
  apply andb_true_iff in H1. apply andb_true_iff in H2. destruct H1 as [H1 H1'], H2 as [H2 H2'].
  rewrite (equal_trans _ _ _ H1 H2), (IH _ _ H1' H2'). reflexivity.
Qed.
Lemma args_equal_length a b : args_equal a b = true -> length a = length b.
Proof. revert b; induction a as [|x a IH]; intros [|y b]; cbn; intros H; try discriminate H; try reflexivity. apply andb_true_iff in H. f_equal. apply IH. apply H. Qed.

Definition e_g (e : inst_entry) := fst (fst e).
Definition e_args (e : inst_entry) := snd (fst e).
Definition e_id (e : inst_entry) := snd e.

(* ids lie below next_id; ids are unique; (generic Kombination, type arguments) is unique up to args_equal *)
Record inv (st : gstate) : Prop := {
  inv_fresh : forall e, In e (insts st) -> e_id e < next_id st;
  inv_ids : forall e1 e2, In e1 (insts st) -> In e2 (insts st) -> e_id e1 = e_id e2 -> e1 = e2;
  inv_args : forall e1 e2, In e1 (insts st) -> In e2 (insts st) -> e_g e1 = e_g e2 -> args_equal (e_args e1) (e_args e2) = true -> e1 = e2
}.

Definition extends (st st' : gstate) : Prop := exists l, insts st' = insts st ++ l.
Lemma extends_refl st : extends st st.
Proof. exists []. rewrite app_nil_r. reflexivity. Qed.
Lemma extends_trans a b c : extends a b -> extends b c -> extends a c.
Proof. intros [l1 H1] [l2 H2]. exists (l1 ++ l2). rewrite H2, H1, app_assoc. reflexivity. Qed.
Lemma extends_in a b e : extends a b -> In e (insts a) -> In e (insts b).
Proof. intros [l H] Hi. rewrite H. apply in_or_app. left. exact Hi. Qed.

Lemma find_inst_some l g args s :
  find_inst l g args = Some s -> exists e, In e l /\ e_id e = s /\ e_g e = g /\ args_equal (e_args e) args = true.
Proof.
  unfold find_inst. destruct (find (entry_matches g args) l) as [e|] eqn:F; intros H; [|discriminate H].
  inversion H; subst. apply find_some in F. destruct F as [Hi Hm]. unfold entry_matches in Hm.
  apply andb_true_iff in Hm. destruct Hm as [Hg Ha]. apply N.eqb_eq in Hg. exists e. repeat split; assumption.
Qed.

Lemma find_inst_none l g args e :
  find_inst l g args = None -> In e l -> e_g e = g -> args_equal (e_args e) args = false.
Proof.
  unfold find_inst. destruct (find (entry_matches g args) l) as [e'|] eqn:F; intros H Hi Hg; [discriminate H|].
  pose proof (find_none _ _ F e Hi) as Hn. unfold entry_matches in Hn. unfold e_g in Hg. rewrite Hg, N.eqb_refl in Hn. exact Hn.
Qed.

Lemma get_inst_inv arity st g args o st' :
  inv st -> get_inst arity st g args = (o, st') -> inv st' /\ extends st st'.
Proof.
  intros Hinv. unfold get_inst. destruct (find_inst (insts st) g args) as [s|] eqn:F.
  - intros H; inversion H; subst. split; [exact Hinv| apply extends_refl].
  - destruct (negb (Nat.eqb (length args) (arity g))).
    + intros H; inversion H; subst. split; [exact Hinv| apply extends_refl].
    + intros H; inversion H; subst; clear H. split; [|exists [(g, args, next_id st)]; reflexivity].
      destruct Hinv as [Hf Hi Ha]. split; cbn [insts next_id].
      * intros e He. apply in_app_or in He. destruct He as [He|[He|[]]].
        -- apply Hf in He. lia.
        -- subst e. unfold e_id; cbn. lia.
      * apply (pairwise_snoc (fun e1 e2 => e_id e1 = e_id e2 -> e1 = e2)); [exact Hi| |reflexivity].
        intros e He. apply Hf in He. unfold e_id in *. cbn. split; lia.
      * apply (pairwise_snoc (fun e1 e2 => e_g e1 = e_g e2 -> args_equal (e_args e1) (e_args e2) = true -> e1 = e2));
          [exact Ha| |reflexivity].
        intros e He. change (e_g (g, args, next_id st)) with g. change (e_args (g, args, next_id st)) with args.
        split; intros Hg Heq; [|rewrite args_equal_sym in Heq; symmetry in Hg];
          rewrite (find_inst_none _ _ _ e F He Hg) in Heq; discriminate Heq.
Qed.

(* the object a request returns is recorded with equivalent type arguments *)
Lemma get_inst_entry arity st g args s st' :
  get_inst arity st g args = (Some s, st') ->
  exists e, In e (insts st') /\ e_id e = s /\ e_g e = g /\ args_equal (e_args e) args = true.
Proof.
  unfold get_inst. destruct (find_inst (insts st) g args) as [s0|] eqn:F.
  - intros H; inversion H; subst. apply find_inst_some in F. exact F.
  - destruct (negb (Nat.eqb (length args) (arity g))); intros H; inversion H; subst; clear H.
    exists (g, args, next_id st). cbn [insts]. repeat split; [apply in_or_app; right; left; reflexivity| apply args_equal_refl].
Qed.

(* an existing equivalent instantiation is returned, no new object is made *)
Lemma get_inst_hit arity st g args e :
  inv st -> In e (insts st) -> e_g e = g -> args_equal (e_args e) args = true ->
  get_inst arity st g args = (Some (e_id e), st).
Proof.
  intros Hinv Hi Hg Ha. unfold get_inst. destruct (find_inst (insts st) g args) as [s|] eqn:F.
  - apply find_inst_some in F. destruct F as [e' [Hi' [Hs [Hg' Ha']]]].
    assert (e' = e).
    { apply (inv_args st Hinv); try assumption; [congruence|].
      eapply args_equal_trans; [exact Ha'| rewrite args_equal_sym; exact Ha]. }
    subst e'. rewrite Hs. reflexivity.
  - rewrite (find_inst_none _ _ _ e F Hi Hg) in Ha. discriminate Ha.
Qed.

(* wrong number of type arguments: no object (and none is created) *)
Lemma get_inst_arity arity st g args :
  inv st -> (forall e, In e (insts st) -> length (e_args e) = arity (e_g e)) ->
  length args <> arity g -> get_inst arity st g args = (None, st).
Proof.
  intros Hinv Hlen Hne. unfold get_inst. destruct (find_inst (insts st) g args) as [s|] eqn:F.
  - apply find_inst_some in F. destruct F as [e [Hi [_ [Hg Ha]]]]. apply args_equal_length in Ha.
    specialize (Hlen e Hi). rewrite Hg in Hlen. congruence.
  - destruct (Nat.eqb (length args) (arity g)) eqn:E; [apply PeanoNat.Nat.eqb_eq in E; contradiction| reflexivity].
Qed.

Fixpoint state_after (arity : N -> nat) (st : gstate) (reqs : list (N * list ty)) : gstate :=
  match reqs with
  | [] => st
  | (g, args) :: r => state_after arity (snd (get_inst arity st g args)) r
  end.

Lemma state_after_inv arity reqs : forall st, inv st -> inv (state_after arity st reqs) /\ extends st (state_after arity st reqs).
Proof.
  induction reqs as [|[g args] r IH]; intros st Hinv; cbn [state_after].
  - split; [exact Hinv| apply extends_refl].
  - destruct (get_inst arity st g args) as [o st1] eqn:G. cbn [snd].
    destruct (get_inst_inv _ _ _ _ _ _ Hinv G) as [Hi1 He1]. destruct (IH st1 Hi1) as [Hi2 He2].
    split; [exact Hi2| eapply extends_trans; eassumption].
Qed.

(* Two requests anywhere in a history return the same Kombination object iff they name the same generic
   Kombination with pointwise equivalent type arguments. *)
Theorem inst_canonical arity st reqs1 g1 a1 s1 st1 reqs2 g2 a2 s2 st2 :
  inv st ->
  get_inst arity (state_after arity st reqs1) g1 a1 = (Some s1, st1) ->
  get_inst arity (state_after arity st1 reqs2) g2 a2 = (Some s2, st2) ->
  (s1 = s2 <-> g1 = g2 /\ args_equal a1 a2 = true).
Proof.
  intros Hinv G1 G2.
  destruct (state_after_inv arity reqs1 st Hinv) as [HiA _].
  destruct (get_inst_inv _ _ _ _ _ _ HiA G1) as [Hi1 _].
  destruct (state_after_inv arity reqs2 st1 Hi1) as [HiB HeB].
  destruct (get_inst_inv _ _ _ _ _ _ HiB G2) as [Hi2 He2].
  destruct (get_inst_entry _ _ _ _ _ _ G1) as [e1 [In1 [Id1 [Gg1 Ar1]]]].
  destruct (get_inst_entry _ _ _ _ _ _ G2) as [e2 [In2 [Id2 [Gg2 Ar2]]]].
  assert (In1B : In e1 (insts (state_after arity st1 reqs2))) by (eapply extends_in; eassumption).
  assert (In1' : In e1 (insts st2)) by (eapply extends_in; eassumption).
  split.
  - intros Hs. assert (e1 = e2) by (apply (inv_ids st2 Hi2); try assumption; congruence). subst e2.
    split; [congruence|].
    eapply args_equal_trans; [rewrite args_equal_sym; exact Ar1| exact Ar2].
  - intros [Hg Ha]. rewrite <- Hg in G2.
    assert (Hhit := get_inst_hit arity _ g1 a2 e1 HiB In1B Gg1 (args_equal_trans _ _ _ Ar1 Ha)).
    rewrite Hhit in G2. inversion G2; subst. reflexivity.
Qed.

(* ---- unification: list / type-parameter fragment ---------------------------------------------------- *)
Lemma lookup_app_some σ l n t : lookup σ n = Some t -> lookup (σ ++ l) n = Some t.
Proof. induction σ as [|[m x] r IH]; cbn; intros H; [discriminate H|]. destruct (m =? n); [exact H| apply IH; exact H]. Qed.
Lemma lookup_app_none σ n t : lookup σ n = None -> lookup (σ ++ [(n, t)]) n = Some t.
Proof. induction σ as [|[m x] r IH]; cbn; intros H; [rewrite N.eqb_refl; reflexivity|]. destruct (m =? n); [discriminate H| apply IH; exact H]. Qed.

Definition env_extends (σ σ' : subst_env) : Prop := forall n t, lookup σ n = Some t -> lookup σ' n = Some t.
Lemma env_extends_refl σ : env_extends σ σ.
Proof. intros n t H; exact H. Qed.
Lemma env_extends_trans a b c : env_extends a b -> env_extends b c -> env_extends a c.
Proof. intros H1 H2 n t H. apply H2, H1, H. Qed.

Lemma unify_type_spec σ n inst t σ' :
  unify_type σ n inst = (t, σ') -> lookup σ' n = Some t /\ env_extends σ σ'.
Proof.
  unfold unify_type. destruct (lookup σ n) as [x|] eqn:L; intros H; inversion H; subst; clear H.
  - split; [exact L| apply env_extends_refl].
  - split; [apply lookup_app_none; exact L| intros m x Hm; apply lookup_app_some; exact Hm].
Qed.

Lemma wrap_succ k t : wrap (S k) t = wrap k (List t).
Proof. induction k as [|k IH]; cbn [wrap]; [reflexivity|]. f_equal. exact IH. Qed.

Lemma subst_wrap σ k t : subst σ (wrap k t) = wrap k (subst σ t).
Proof. induction k as [|k IH]; cbn [wrap subst]; [reflexivity|]. f_equal. exact IH. Qed.

Lemma simple_underlying t : simple_param t = true -> underlying t = t.
Proof. induction t; cbn [simple_param underlying]; intros H; try reflexivity; try discriminate H. f_equal. apply IHt. exact H. Qed.

(* a "leaf" of a simple parameter type: a type parameter or a closed non-list type *)
Definition leaf (t : ty) : bool := simple_param t && negb (match t with List _ => true | _ => false end).

Lemma simple_nonlist_leaf t : simple_param t = true -> cast_list t = None -> leaf t = true.
Proof.
  intros Hs C. unfold leaf. rewrite Hs. unfold cast_list in C. rewrite (simple_underlying _ Hs) in C.
  destruct t; try reflexivity; discriminate C.
Qed.

Lemma peel_simple fuel : forall arg param d inst gen depth ia ip,
  simple_param param = true ->
  peel fuel arg param d = Some (inst, gen, depth, ia, ip) ->
  ip && negb ia = false ->
  exists k, depth = (d + k)%nat /\ param = wrap k gen /\ leaf gen = true.
Proof.
  induction fuel as [|f IH]; intros arg param d inst gen depth ia ip Hs HP Hn; cbn [peel] in HP;
    destruct (cast_list arg) as [ae|] eqn:CA, (cast_list param) as [pe|] eqn:CP; cbv iota in HP; try discriminate HP;
    try (inversion HP; subst; clear HP; cbn in Hn;
         first [discriminate Hn|exists 0%nat; split; [lia|]; split; [reflexivity|]; apply simple_nonlist_leaf; assumption]).
  (* both are lists: one layer peeled *)
  unfold cast_list in CP. rewrite (simple_underlying _ Hs) in CP. destruct param as [p| | |e|i u|i u|i|n|i u]; try discriminate CP.
  inversion CP; subst pe; clear CP. cbn [simple_param] in Hs.
  destruct (is_generic e) eqn:G.
  - inversion HP; subst; clear HP. exists 1%nat. split; [lia|]. split; [reflexivity|].
    unfold leaf. rewrite Hs. unfold is_generic in G. rewrite (simple_underlying _ Hs) in G. destruct gen; try discriminate G; reflexivity.
  - destruct (IH _ _ _ _ _ _ _ _ Hs HP Hn) as [k [Hd [Hp Hl]]]. exists (S k). split; [lia|]. split; [|exact Hl].
    cbn [wrap]. rewrite Hp. reflexivity.
Qed.

Lemma sinfo_nil st s : insts st = [] -> sinfo st s = None.
Proof. intros H. unfold sinfo. rewrite H. reflexivity. Qed.

(* the type parameter of a simple parameter type, if any *)
Fixpoint tparam_of (t : ty) : option N :=
  match t with TParam n => Some n | List e => tparam_of e | _ => None end.

Lemma tparam_of_wrap k t : tparam_of (wrap k t) = tparam_of t.
Proof. induction k as [|k IH]; cbn [wrap tparam_of]; [reflexivity| exact IH]. Qed.

Lemma subst_stable σ σ' t :
  env_extends σ σ' -> (forall n, tparam_of t = Some n -> lookup σ n <> None) -> subst σ' t = subst σ t.
Proof.
  intros HE. induction t; cbn [subst tparam_of]; intros HB; try reflexivity.
  - f_equal. apply IHt. exact HB.
  - specialize (HB name eq_refl). destruct (lookup σ name) as [x|] eqn:L; [|congruence]. rewrite (HE _ _ L). reflexivity.
Qed.

(* A successful unification returns exactly the parameter type with its type parameters replaced by
   their bindings, never changes an existing binding, touches no cache (no generic Kombination
   exists in this fragment), and leaves the type parameter of the parameter type bound. *)
Lemma unify_ok arity st arg param σ r σ' st' :
  insts st = [] -> simple_param param = true ->
  unify arity st arg param σ = (UOk r, σ', st') ->
  r = subst σ' param /\ env_extends σ σ' /\ st' = st /\ (forall n, tparam_of param = Some n -> lookup σ' n <> None).
Proof.
  intros Hst Hs. unfold unify.
  destruct (peel (size param) arg param 0) as [[[[[inst gen] depth] ia] ip]|] eqn:HP; [|intros H; discriminate H].
  destruct (ip && negb ia) eqn:Hn; [intros H; discriminate H|].
  destruct (peel_simple _ _ _ _ _ _ _ _ _ Hs HP Hn) as [k [Hd [-> Hl]]]. cbn in Hd. subst depth.
  unfold leaf in Hl. apply andb_true_iff in Hl. destruct Hl as [Hl1 Hl2]. rewrite subst_wrap, tparam_of_wrap.
  destruct gen as [p| | |e|i u|i u|i|n|i u]; cbn in Hl1, Hl2; try discriminate Hl1; try discriminate Hl2;
    cbn [cast_generic cast_struct underlying subst tparam_of];
    try (rewrite ?sinfo_nil by exact Hst; intros H; inversion H; subst; clear H;
         repeat split; [apply env_extends_refl|discriminate]).
  (* the type parameter *)
  destruct (unify_type σ n inst) as [t σ1] eqn:U. destruct (unify_type_spec _ _ _ _ _ U) as [HL HE].
  replace (match cast_struct t with Some ps => sinfo st ps | None => None end) with (@None (N * list ty))
    by (destruct (cast_struct t); [rewrite sinfo_nil by exact Hst|]; reflexivity).
  intros H; inversion H; subst; clear H. rewrite HL.
  repeat split; [exact HE|]. intros m [= <-]. congruence.
Qed.

Theorem unify_sound arity st arg param σ r σ' st' :
  insts st = [] -> simple_param param = true ->
  unify arity st arg param σ = (UOk r, σ', st') ->
  r = subst σ' param /\ env_extends σ σ' /\ st' = st.
Proof. intros Hst Hs U. destruct (unify_ok _ _ _ _ _ _ _ _ Hst Hs U) as (H1 & H2 & H3 & _). auto. Qed.

(* An accepted call: every argument is equivalent to its parameter type after substituting the final
   bindings ("behaves like the specialisation obtained by replacing the type parameters"). *)
Theorem check_args_sound arity : forall args params st σ σ' st',
  insts st = [] -> forallb simple_param params = true ->
  check_args arity st args params σ = (true, σ', st') ->
  env_extends σ σ' /\ Forall2 (fun p a => equal (subst σ' p) a = true) params args.
Proof.
  induction args as [|a args IH]; intros [|p params] st σ σ' st' Hst Hs HC; cbn [check_args] in HC; try discriminate HC.
  - inversion HC; subst. split; [apply env_extends_refl| constructor].
  - cbn [forallb] in Hs. apply andb_true_iff in Hs. destruct Hs as [Hs1 Hs2].
    destruct (unify arity st a p σ) as [[[| | |r] σ1] st1] eqn:U; try discriminate HC.
    destruct (unify_ok _ _ _ _ _ _ _ _ Hst Hs1 U) as (Hr & HE1 & -> & HB).
    destruct (equal r a) eqn:E; [|discriminate HC].
    destruct (IH _ _ _ _ _ Hst Hs2 HC) as [HE2 HF].
    split; [eapply env_extends_trans; eassumption|].
    constructor; [|exact HF].
    rewrite (subst_stable σ1 σ' p HE2 HB). rewrite <- Hr. exact E.
Qed.

(* One type parameter bound to two different argument types makes the call ill-typed: in an accepted
   call, any two parameters of the same type received equivalent arguments. *)
Theorem unify_conflict arity args params st σ σ' st' :
  insts st = [] -> forallb simple_param params = true ->
  check_args arity st args params σ = (true, σ', st') ->
  forall i j p a b, nth_error params i = Some p -> nth_error params j = Some p ->
                    nth_error args i = Some a -> nth_error args j = Some b -> equal a b = true.
Proof.
  intros Hst Hs HC i j p a b Pi Pj Ai Aj.
  destruct (check_args_sound _ _ _ _ _ _ _ Hst Hs HC) as [_ HF].
  assert (forall k q x, nth_error params k = Some q -> nth_error args k = Some x -> equal (subst σ' q) x = true) as HN.
  { clear -HF. induction HF as [|q x ps xs Hqx _ IH]; intros [|k] q' x' Hq Hx; cbn in Hq, Hx; try discriminate Hq.
    - inversion Hq; inversion Hx; subst. exact Hqx.
    - eapply IH; eassumption. }
  pose proof (HN _ _ _ Pi Ai) as E1. pose proof (HN _ _ _ Pj Aj) as E2.
  eapply equal_trans; [rewrite equal_sym; exact E1| exact E2].
Qed.

(* the typical shape: f(<T>, <T>) with a Zahl and a Text *)
Example unify_conflict_example :
  fst (fst (check_args (fun _ => 0%nat) (gstate0 100) [Prim PZahl; Prim PText] [TParam 1; TParam 1] [])) = false /\
  fst (fst (check_args (fun _ => 0%nat) (gstate0 100) [List (Prim PZahl); Alias 7 (Prim PZahl)] [List (TParam 1); TParam 1] [])) = true.
Proof. vm_compute. split; reflexivity. Qed.

(* the former index-out-of-range panic of UnifyGenericType (repaired by /repo 36809d8): the parameter is an
   instantiation of a generic Kombination with two type parameters, the argument one of a generic
   Kombination with one — now simply "does not unify" *)
Example unify_other_generic_is_nil :
  let ar := fun g : N => if g =? 1 then 2%nat else 1%nat in
  let st1 := snd (get_inst ar (gstate0 100) 1 [TParam 7; TParam 8]) in      (* T-R-Zwei   = Struct 100 *)
  let st2 := snd (get_inst ar st1 2 [Prim PZahl]) in                        (* Zahl-Eins  = Struct 101 *)
  fst (fst (unify ar st2 (Struct 101) (Struct 100) [])) = UNil.
Proof. vm_compute. reflexivity. Qed.

Print Assumptions inst_canonical.
Print Assumptions unify_sound.
Print Assumptions check_args_sound.
Print Assumptions unify_conflict.
Print Assumptions unify_total.
