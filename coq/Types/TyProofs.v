(* Laws of the ddptypes relations (model: Ty.v). *)
From Coq Require Import List NArith Bool Lia.
Import ListNotations.
From DDP Require Import Types.Ty.
Open Scope N_scope.

(* ---- Go's == (ty_eqb) is an equivalence relation -------------------------------------------- *)
Lemma prim_eqb_eq p q : prim_eqb p q = true <-> p = q.
Proof. destruct p, q; cbn; split; congruence. Qed.
Lemma prim_eqb_refl p : prim_eqb p p = true.
Proof. destruct p; reflexivity. Qed.
Lemma prim_eqb_sym p q : prim_eqb p q = prim_eqb q p.
Proof. destruct p, q; reflexivity. Qed.

Lemma ty_eqb_refl a : ty_eqb a a = true.
Proof. induction a; cbn; auto using prim_eqb_refl, N.eqb_refl. Qed.

Lemma ty_eqb_sym a b : ty_eqb a b = ty_eqb b a.
Proof. revert b; induction a; intros []; cbn; auto using prim_eqb_sym, N.eqb_sym. Qed.

Lemma ty_eqb_trans a b c : ty_eqb a b = true -> ty_eqb b c = true -> ty_eqb a c = true.
Proof.
  revert b c; induction a; intros b c H1 H2;
    destruct b; cbn in H1; try discriminate H1; destruct c; cbn in H2; try discriminate H2; cbn;
    try (apply N.eqb_eq in H1, H2; subst; apply N.eqb_refl); eauto.
  apply prim_eqb_eq in H1, H2. subst. apply prim_eqb_refl.
Qed.

(* every relation "same image under f, compared with Go's ==" is an equivalence: Equal (f = GetUnderlying)
   and DeepEqual (f = getTrueListUnderlying) are instances *)
Lemma kernel_equiv (f : ty -> ty) :
  (forall t, ty_eqb (f t) (f t) = true) /\ (forall a b, ty_eqb (f a) (f b) = ty_eqb (f b) (f a)) /\
  (forall a b c, ty_eqb (f a) (f b) = true -> ty_eqb (f b) (f c) = true -> ty_eqb (f a) (f c) = true).
Proof. split; [|split]; intros; [apply ty_eqb_refl|apply ty_eqb_sym|eapply ty_eqb_trans; eassumption]. Qed.

Lemma ty_beq_refl a : ty_beq a a = true.
Proof. induction a; cbn; rewrite ?N.eqb_refl, ?prim_eqb_refl; auto. Qed.

Lemma ty_beq_eq a b : ty_beq a b = true <-> a = b.
Proof.
  split; [|intros <-; apply ty_beq_refl].
  revert b; induction a; intros b H; destruct b; cbn in H; try discriminate H;
    try (apply andb_true_iff in H; destruct H as [H H']; apply IHa in H');
    try apply N.eqb_eq in H; try apply prim_eqb_eq in H; try apply IHa in H; subst; reflexivity.
Qed.

(* ---- Equal is an equivalence relation (kernel of GetUnderlying) ------------------------------ *)
Lemma equal_refl t : equal t t = true.
Proof. apply ty_eqb_refl. Qed.
Lemma equal_sym a b : equal a b = equal b a.
Proof. apply ty_eqb_sym. Qed.
Lemma equal_trans a b c : equal a b = true -> equal b c = true -> equal a c = true.
Proof. apply ty_eqb_trans. Qed.

Lemma underlying_idem t : underlying (underlying t) = underlying t.
Proof. induction t; cbn; congruence. Qed.

Lemma equal_underlying_l a b : equal (underlying a) b = equal a b.
Proof. unfold equal. rewrite underlying_idem. reflexivity. Qed.

Lemma equal_alias i t : equal (Alias i t) t = true.
Proof. unfold equal; cbn. apply ty_eqb_refl. Qed.

Lemma equal_list a b : equal (List a) (List b) = equal a b.
Proof. reflexivity. Qed.

Lemma equal_alias_l i a b : equal (Alias i a) b = equal a b.
Proof. reflexivity. Qed.
Lemma equal_alias_r i a b : equal a (Alias i b) = equal a b.
Proof. reflexivity. Qed.

(* Equal is a congruence for the contexts "inside list types and behind aliases" *)
Lemma equal_plug c a b : equal (plug c a) (plug c b) = equal a b.
Proof. induction c as [|c IH|i c IH]; cbn [plug]; [reflexivity| rewrite equal_list; exact IH | rewrite equal_alias_l, equal_alias_r; exact IH]. Qed.

(* behind any number of further aliases *)
Fixpoint aliases (ids : list N) (t : ty) : ty :=
  match ids with [] => t | i :: r => Alias i (aliases r t) end.

(* declarative reading: the least congruence (for list-of) that identifies an alias (and a resolved
   type parameter) with its target *)
Inductive teq : ty -> ty -> Prop :=
| teq_refl t : teq t t
| teq_sym a b : teq a b -> teq b a
| teq_trans a b c : teq a b -> teq b c -> teq a c
| teq_alias i t : teq (Alias i t) t
| teq_inst i t : teq (Inst i t) t
| teq_list a b : teq a b -> teq (List a) (List b).

Lemma teq_sound a b : teq a b -> equal a b = true.
Proof.
  induction 1 as [t|a b _ IH|a b c _ IH1 _ IH2|i t|i t|a b _ IH].
  - apply equal_refl.
  - rewrite equal_sym; exact IH.
  - eapply equal_trans; eassumption.
  - apply equal_alias.
  - unfold equal; cbn; apply ty_eqb_refl.
  - rewrite equal_list; exact IH.
Qed.

Lemma teq_underlying t : teq t (underlying t).
Proof.
  induction t as [p| | |e IH|i u IH|i u IH|i|n|i u IH]; cbn [underlying]; try apply teq_refl.
  - apply teq_list; exact IH.
  - eapply teq_trans; [apply teq_alias| exact IH].
  - eapply teq_trans; [apply teq_inst| exact IH].
Qed.

Definition consistent (ns : list ty) : Prop := forall x y, In x ns -> In y ns -> same_obj x y = true.

Lemma wf_types_spec ts : wf_types ts = true <-> consistent (flat_map nodes ts).
Proof.
  unfold wf_types, consistent. rewrite forallb_forall. split.
  - intros H x y Hx Hy. specialize (H x Hx). rewrite forallb_forall in H. apply H; exact Hy.
  - intros H x Hx. rewrite forallb_forall. intros y Hy. apply H; assumption.
Qed.

Lemma consistent_incl ns ms : incl ms ns -> consistent ns -> consistent ms.
Proof. intros Hi Hc x y Hx Hy. apply Hc; apply Hi; assumption. Qed.

Lemma nodes_underlying t : incl (nodes (underlying t)) (nodes t).
Proof.
  induction t as [p| | |e IH|i u IH|i u IH|i|n|i u IH]; cbn [underlying nodes]; try apply incl_refl; try exact IH;
    apply incl_tl; exact IH.
Qed.

Definition is_node (t : ty) : Prop := match t with Alias _ _ | Def _ _ | Inst _ _ => True | _ => False end.
Lemma same_obj_eq x y : is_node x -> same_obj x y = true -> ty_eqb x y = true -> x = y.
Proof.
  destruct x, y; cbn; intros [] S E; try discriminate E;
    apply N.eqb_eq in E; subst; rewrite N.eqb_refl in S; apply ty_beq_eq in S; congruence.
Qed.

(* under consistency, Go's pointer-based == is structural identity of the modelled objects *)
Lemma ty_eqb_eq_consistent a b :
  (forall x y, In x (nodes a) -> In y (nodes b) -> same_obj x y = true) ->
  ty_eqb a b = true -> a = b.
Proof.
  revert b; induction a as [p| | |e IH|i u _|i u _|i|n|i u _]; intros b Hc H; destruct b; cbn in H; try discriminate H; try reflexivity;
    try (apply N.eqb_eq in H; congruence);
    try (apply same_obj_eq; [exact I|apply Hc; left; reflexivity|exact H]).
  - apply prim_eqb_eq in H; congruence.
  - f_equal. apply IH; [|exact H]. intros x y Hx Hy. apply Hc; cbn [nodes]; assumption.
Qed.

Lemma equal_same_underlying a b :
  wf_types [a; b] = true -> equal a b = true -> underlying a = underlying b.
Proof.
  intros Hwf H. apply wf_types_spec in Hwf. cbn [flat_map] in Hwf. rewrite app_nil_r in Hwf.
  apply ty_eqb_eq_consistent; [|exact H].
  intros x y Hx Hy. apply Hwf; apply in_or_app; [left|right]; apply nodes_underlying; assumption.
Qed.

Lemma underlying_def_in t j v : underlying t = Def j v -> In (Def j v) (nodes t).
Proof.
  induction t as [p| | |e IH|i u IH|i u IH|i|n|i u IH]; cbn [underlying nodes]; intros H; try discriminate H.
  - right; apply IH; exact H.
  - left; exact H.
  - right; apply IH; exact H.
Qed.

Lemma nodes_size x t : In x (nodes t) -> (size x <= size t)%nat.
Proof.
  induction t as [p| | |e IH|i u IH|i u IH|i|n|i u IH]; cbn [nodes size]; intros H; try contradiction.
  - apply IH in H; lia.
  - destruct H as [H|H]; [subst; cbn; lia| apply IH in H; lia].
  - destruct H as [H|H]; [subst; cbn; lia| apply IH in H; lia].
  - destruct H as [H|H]; [subst; cbn; lia| apply IH in H; lia].
Qed.

Theorem def_opaque i u : wf_types [Def i u] = true -> equal (Def i u) u = false.
Proof.
  intros Hwf. destruct (equal (Def i u) u) eqn:E; [exfalso|reflexivity].
  unfold equal in E. cbn [underlying] in E.
  destruct (underlying u) as [p| | |e|j v|j v|j|n|j v] eqn:U; cbn in E; try discriminate E.
  apply N.eqb_eq in E; subst j.
  apply underlying_def_in in U.
  apply wf_types_spec in Hwf. cbn [flat_map nodes] in Hwf. rewrite app_nil_r in Hwf.
  assert (Hs : Def i u = Def i v).
  { apply same_obj_eq; [exact I|apply Hwf; [left; reflexivity|right; exact U]|cbn; apply N.eqb_refl]. }
  injection Hs as <-. apply nodes_size in U. cbn [size] in U. lia.
Qed.

(* two definitions are equivalent iff they are the same object, whatever their bases *)
Theorem def_equal_iff_same_id i u j v : equal (Def i u) (Def j v) = (i =? j).
Proof. reflexivity. Qed.

(* a definition is not declaratively equivalent to its base either *)
Corollary def_not_teq i u : wf_types [Def i u] = true -> ~ teq (Def i u) u.
Proof. intros Hwf H. apply teq_sound in H. rewrite (def_opaque i u Hwf) in H. discriminate H. Qed.

(* a definition is never numeric / a list / Variable, whatever its base: no implicit conversion *)
Lemma def_not_numeric i u : is_numeric (Def i u) = false.
Proof. reflexivity. Qed.
Lemma def_not_any i u : is_any (Def i u) = false.
Proof. reflexivity. Qed.
Lemma def_not_list i u : is_list (Def i u) = false.
Proof. reflexivity. Qed.

(* ---- the structurally recursive helpers satisfy the equations of the Go functions --------------- *)
Definition go_true_underlying_body (t : ty) : ty :=
  let t1 := match t with Def _ u => u | _ => t end in
  match underlying t1 with Def _ u' => true_underlying u' | t2 => t2 end.

Lemma true_underlying_step t :
  true_underlying t = match underlying t with Def _ u' => true_underlying u' | t2 => t2 end.
Proof. induction t as [p| | |e IH|i u IH|i u IH|i|n|i u IH]; cbn [true_underlying underlying]; try reflexivity; exact IH. Qed.

Theorem true_underlying_go_eq t : true_underlying t = go_true_underlying_body t.
Proof.
  unfold go_true_underlying_body. destruct t; try apply true_underlying_step.
  cbn [true_underlying]. apply true_underlying_step.
Qed.

Lemma true_underlying_fixed t : underlying (true_underlying t) = true_underlying t.
Proof. induction t; cbn [true_underlying underlying]; try reflexivity; try assumption. rewrite underlying_idem; reflexivity. Qed.

Lemma tlu_underlying t : true_list_underlying (underlying t) = true_list_underlying t.
Proof. induction t; cbn [true_list_underlying underlying]; congruence. Qed.
Lemma ltu_underlying t : list_true_underlying (underlying t) = list_true_underlying t.
Proof. induction t; cbn [list_true_underlying underlying]; congruence. Qed.

Theorem true_list_underlying_go_eq t :
  true_list_underlying t = match true_underlying t with List e => List (true_list_underlying e) | x => x end.
Proof.
  induction t as [p| | |e IH|i u IH|i u IH|i|n|i u IH]; cbn [true_list_underlying true_underlying]; try reflexivity; try exact IH.
  rewrite tlu_underlying. reflexivity.
Qed.

Theorem list_true_underlying_go_eq t :
  list_true_underlying t = match true_underlying t with List e => list_true_underlying e | x => x end.
Proof.
  induction t as [p| | |e IH|i u IH|i u IH|i|n|i u IH]; cbn [list_true_underlying true_underlying]; try reflexivity; try exact IH.
  rewrite ltu_underlying. reflexivity.
Qed.

(* GetUnderlying never ends at an alias or an instantiated type parameter *)
Lemma underlying_head t : match underlying t with Alias _ _ | Inst _ _ => False | _ => True end.
Proof. induction t; cbn [underlying]; auto. Qed.

Lemma nested_under_underlying t : nested_under (underlying t) = nested_under t.
Proof. induction t; cbn [nested_under underlying]; congruence. Qed.
Lemma nested_under_not_list t : is_list (nested_under t) = false.
Proof. induction t; cbn [nested_under]; try reflexivity; assumption. Qed.

(* the loop `for IsList(typ) { typ = GetNestedListElementType(GetUnderlying(typ).ElementType) }` *)
Theorem nested_list_elem_go_eq t :
  nested_list_elem t =
    match underlying t with
    | List e => nested_list_elem (nested_list_elem e)   (* one iteration, then the loop test again *)
    | _ => t
    end.
Proof.
  unfold nested_list_elem at 1. unfold is_list. destruct (underlying t) as [p| | |e|j v|j v|j|n|j v] eqn:U; try reflexivity.
  assert (He : nested_under t = nested_under e).
  { rewrite <- (nested_under_underlying t), U. reflexivity. }
  rewrite He.
  assert (Hn : forall x, is_list x = false -> nested_list_elem x = x) by (intros x Hx; unfold nested_list_elem; rewrite Hx; reflexivity).
  unfold nested_list_elem at 2. destruct (is_list e) eqn:L.
  - rewrite Hn; [reflexivity| apply nested_under_not_list].
  - rewrite (Hn e L).
    (* e is the element of an underlying list type, hence its own underlying type, and not a list: nested_under e = e *)
    assert (Hu : underlying e = e).
    { assert (H := underlying_idem t). rewrite U in H. cbn [underlying] in H. congruence. }
    pose proof (underlying_head e) as Hh. rewrite Hu in Hh.
    destruct e; cbn [nested_under]; try reflexivity; try contradiction. discriminate L.
Qed.

(* ---- a list fact for the two instantiation caches (Types/GenericProofs.v, Types/GenericFunProofs.v):
   a relation that holds pairwise on l still does after appending an element that fits ------------------ *)
Lemma pairwise_snoc {A} (P : A -> A -> Prop) l x :
  (forall a b, In a l -> In b l -> P a b) -> (forall a, In a l -> P a x /\ P x a) -> P x x ->
  forall a b, In a (l ++ [x]) -> In b (l ++ [x]) -> P a b.
Proof.
  intros Hl Hx Hxx a b Ha Hb. apply in_app_or in Ha, Hb.
  destruct Ha as [Ha|[<-|[]]], Hb as [Hb|[<-|[]]]; auto; apply Hx; assumption.
Qed.

(* ---- non-vacuity: a population in which ids identify objects ------------------------------------ *)
Example wf_population :
  wf_types [Def 1 (Prim PZahl); Def 2 (Prim PZahl); Alias 3 (Def 1 (Prim PZahl)); List (Alias 4 (List (Def 2 (Prim PZahl))));
            Def 5 (Alias 3 (Def 1 (Prim PZahl))); Struct 6; Alias 7 Any] = true.
Proof. vm_compute. reflexivity. Qed.

Example ill_formed_population : wf_types [Def 1 (Prim PZahl); Def 1 (Prim PText)] = false.
Proof. vm_compute. reflexivity. Qed.
