(* Canonicity of the per-module cache of generic function instantiations (model: GenericFun.v). *)
From Coq Require Import List NArith Bool Lia.
Import ListNotations.
From DDP Require Import Types.Ty Types.TyProofs Types.GenericFun.
Open Scope N_scope.

Lemma pty_equal_refl a : pty_equal a a = true.
Proof. unfold pty_equal. rewrite Bool.eqb_reflx, equal_refl. reflexivity. Qed.
Lemma pty_equal_sym a b : pty_equal a b = pty_equal b a.
Proof. unfold pty_equal. rewrite (equal_sym (fst a)). destruct (snd a), (snd b); reflexivity. Qed.
Lemma pty_equal_trans a b c : pty_equal a b = true -> pty_equal b c = true -> pty_equal a c = true.
Proof.
  unfold pty_equal. intros H1 H2. apply andb_true_iff in H1. apply andb_true_iff in H2. destruct H1 as [R1 E1], H2 as [R2 E2].
  apply Bool.eqb_prop in R1. apply Bool.eqb_prop in R2. rewrite R1, R2, Bool.eqb_reflx, (equal_trans _ _ _ E1 E2). reflexivity.
Qed.

Lemma params_equal_refl a : params_equal a a = true.
Proof. induction a as [|x a IH]; cbn; [reflexivity|]. rewrite pty_equal_refl, IH. reflexivity. Qed.
Lemma params_equal_sym a b : params_equal a b = params_equal b a.
Proof. revert b; induction a as [|x a IH]; intros [|y b]; cbn; try reflexivity. rewrite pty_equal_sym, IH. reflexivity. Qed.
Lemma params_equal_trans a b c : params_equal a b = true -> params_equal b c = true -> params_equal a c = true.
Proof.
  revert b c; induction a as [|x a IH]; intros [|y b] [|z c]; cbn; intros H1 H2; try discriminate H1; try discriminate H2; try reflexivity.
  apply andb_true_iff in H1. apply andb_true_iff in H2. destruct H1 as [H1 H1'], H2 as [H2 H2'].
  rewrite (pty_equal_trans _ _ _ H1 H2), (IH _ _ H1' H2'). reflexivity.
Qed.

Section Env.
  Variable is_extern : N -> bool.
  Variable decl_mod : N -> N.
  Notation fstep := (fstep is_extern decl_mod).
  Notation frun := (frun is_extern decl_mod).
  Notation key_mod := (key_mod is_extern decl_mod).

  (* entries created by an event *)
  Definition created (st : fstate) (ev : fevent) : list fentry :=
    match ev with
    | EReq f gmod pmod params =>
      let m := key_mod f gmod pmod in
      match find (fmatches f m params) (fins st) with
      | Some _ => []
      | None => [{| fe_fun := f; fe_mod := m; fe_params := params; fe_id := fnext st |}]
      end
    | EFail _ => []
    end.

  (* every entry created along a run *)
  Fixpoint glog (st : fstate) (evs : list fevent) : list fentry :=
    match evs with
    | [] => []
    | ev :: r => created st ev ++ glog (snd (fstep st ev)) r
    end.

  (* st: the cache; L: every entry ever created *)
  Record finv (st : fstate) (L : list fentry) : Prop := {
    finv_sub : forall e, In e (fins st) -> In e L;
    finv_fresh : forall e, In e L -> fe_id e < fnext st;
    finv_ids : forall e1 e2, In e1 L -> In e2 L -> fe_id e1 = fe_id e2 -> e1 = e2;
    finv_key : forall e1 e2, In e1 (fins st) -> In e2 (fins st) -> fe_fun e1 = fe_fun e2 -> fe_mod e1 = fe_mod e2 ->
                            params_equal (fe_params e1) (fe_params e2) = true -> e1 = e2
  }.

  Lemma finv0 : finv fstate0 [].
  Proof. split; cbn; intros; contradiction. Qed.

  Lemma fmatches_true f m ps e :
    fmatches f m ps e = true <-> fe_fun e = f /\ fe_mod e = m /\ params_equal (fe_params e) ps = true.
  Proof. unfold fmatches. rewrite !andb_true_iff, !N.eqb_eq. tauto. Qed.

  Lemma find_none_nomatch l f m ps e :
    find (fmatches f m ps) l = None -> In e l -> fe_fun e = f -> fe_mod e = m -> params_equal (fe_params e) ps = false.
  Proof.
    intros F Hi Hf Hm. pose proof (find_none _ _ F e Hi) as Hn. unfold fmatches in Hn. rewrite Hf, Hm, !N.eqb_refl in Hn. exact Hn.
  Qed.

  Lemma step_inv st L ev : finv st L -> finv (snd (fstep st ev)) (L ++ created st ev).
  Proof.
    intros [Hs Hf Hi Hk]. destruct ev as [f gmod pmod ps|id]; cbn [fstep created].
    - set (m := key_mod f gmod pmod). destruct (find (fmatches f m ps) (fins st)) as [e|] eqn:F; cbn [snd].
      + rewrite app_nil_r. split; assumption.
      + set (ne := {| fe_fun := f; fe_mod := m; fe_params := ps; fe_id := fnext st |}).
        set (kept := if is_extern f && negb (pmod =? m) then filter (fun x => negb (in_slot f m x)) (fins st) else fins st).
        assert (Hkept : forall e, In e kept -> In e (fins st)).
        { intros e He. unfold kept in He. destruct (is_extern f && negb (pmod =? m)); [apply filter_In in He; apply He| exact He]. }
        split; cbn [fins fnext].
        * intros e He. apply in_app_or in He. apply in_or_app. destruct He as [He|[He|[]]]; [left; apply Hs, Hkept, He| right; left; exact He].
        * intros e He. apply in_app_or in He. destruct He as [He|[He|[]]]; [apply Hf in He; lia| subst e; cbn; lia].
        * apply (pairwise_snoc (fun e1 e2 => fe_id e1 = fe_id e2 -> e1 = e2)); [exact Hi| |reflexivity].
          intros e He. apply Hf in He. cbn. split; lia.
        * apply (pairwise_snoc (fun e1 e2 => fe_fun e1 = fe_fun e2 -> fe_mod e1 = fe_mod e2 ->
                                             params_equal (fe_params e1) (fe_params e2) = true -> e1 = e2));
            [exact (fun a b Ha Hb => Hk a b (Hkept _ Ha) (Hkept _ Hb))| |reflexivity].
          intros e He. cbn. split; intros Hfn Hmd Hp; [|rewrite params_equal_sym in Hp; symmetry in Hfn, Hmd];
            rewrite (find_none_nomatch _ _ _ _ e F (Hkept _ He) Hfn Hmd) in Hp; discriminate Hp.
    - rewrite app_nil_r. split; cbn [fins fnext snd].
      + intros e He. apply filter_In in He. apply Hs, He.
      + exact Hf.
      + exact Hi.
      + intros e1 e2 H1 H2. apply filter_In in H1. apply filter_In in H2. apply Hk; [apply H1| apply H2].
  Qed.

  Lemma run_inv evs : forall st L, finv st L -> finv (frun st evs) (L ++ glog st evs).
  Proof.
    induction evs as [|ev r IH]; intros st L H; cbn [frun glog].
    - rewrite app_nil_r. exact H.
    - rewrite app_assoc. apply IH. apply step_inv. exact H.
  Qed.

  (* the instantiation a request returns is recorded under the request's function and key module with
     pointwise-equal parameter types *)
  Lemma req_entry st f gmod pmod ps r st' i :
    fstep st (EReq f gmod pmod ps) = (r, st') -> result_id r = Some i ->
    exists e, In e (fins st') /\ fe_id e = i /\ fe_fun e = f /\ fe_mod e = key_mod f gmod pmod /\ params_equal (fe_params e) ps = true.
  Proof.
    cbn [fstep]. set (m := key_mod f gmod pmod). destruct (find (fmatches f m ps) (fins st)) as [e|] eqn:F; intros H Hr; inversion H; subst; clear H; cbn in Hr; inversion Hr; subst.
    - apply find_some in F. destruct F as [Hi Hm]. apply fmatches_true in Hm. exists e. tauto.
    - eexists. split; [cbn [fins]; apply in_or_app; right; left; reflexivity|]. cbn. repeat split; try reflexivity. apply params_equal_refl.
  Qed.

  (* a request from a state that satisfies the invariant: the invariant afterwards and the entry returned *)
  Lemma req_after st L f gmod pmod ps r st' i :
    finv st L -> fstep st (EReq f gmod pmod ps) = (r, st') -> result_id r = Some i ->
    finv st' (L ++ created st (EReq f gmod pmod ps)) /\
    exists e, In e (fins st') /\ fe_id e = i /\ fe_fun e = f /\ fe_mod e = key_mod f gmod pmod /\ params_equal (fe_params e) ps = true.
  Proof.
    intros I S R. split; [|exact (req_entry _ _ _ _ _ _ _ _ S R)].
    pose proof (step_inv _ _ (EReq f gmod pmod ps) I) as I'. rewrite S in I'. exact I'.
  Qed.

  (* SOUNDNESS, every function (extern or not), every history from the empty cache: the same instantiation is
     only ever returned for the same function, the same key module and pointwise-equal parameter types *)
  Theorem fun_inst_sound evs1 f1 g1 p1 ps1 r1 s1 evs2 f2 g2 p2 ps2 r2 s2 i :
    fstep (frun fstate0 evs1) (EReq f1 g1 p1 ps1) = (r1, s1) -> result_id r1 = Some i ->
    fstep (frun s1 evs2) (EReq f2 g2 p2 ps2) = (r2, s2) -> result_id r2 = Some i ->
    f1 = f2 /\ key_mod f1 g1 p1 = key_mod f2 g2 p2 /\ params_equal ps1 ps2 = true.
  Proof.
    intros S1 R1 S2 R2.
    destruct (req_after _ _ _ _ _ _ _ _ _ (run_inv evs1 _ _ finv0) S1 R1) as (I1 & e1 & In1 & Id1 & F1 & M1 & P1).
    destruct (req_after _ _ _ _ _ _ _ _ _ (run_inv evs2 _ _ I1) S2 R2) as (I2 & e2 & In2 & Id2 & F2 & M2 & P2).
    assert (e1 = e2).
    { apply (finv_ids _ _ I2); [| apply (finv_sub _ _ I2); exact In2| congruence].
      apply in_or_app; left. apply in_or_app; left. apply (finv_sub _ _ I1). exact In1. }
    subst e2. repeat split; try congruence.
    eapply params_equal_trans; [rewrite params_equal_sym; exact P1| exact P2].
  Qed.

  Fixpoint no_fail (id : N) (evs : list fevent) : bool :=
    match evs with
    | [] => true
    | EFail j :: r => negb (j =? id) && no_fail id r
    | _ :: r => no_fail id r
    end.

  (* an instantiation of a non-extern function stays in the cache until its own body fails *)
  Lemma persists e evs : forall st, is_extern (fe_fun e) = false -> no_fail (fe_id e) evs = true -> In e (fins st) -> In e (fins (frun st evs)).
  Proof.
    induction evs as [|ev r IH]; intros st Hx Hn Hi; cbn [frun]; [exact Hi|].
    apply IH; [exact Hx| destruct ev; cbn in Hn; [exact Hn| apply andb_true_iff in Hn; apply Hn]|].
    destruct ev as [f gmod pmod ps|j]; cbn [fstep].
    - destruct (find (fmatches f (key_mod f gmod pmod) ps) (fins st)); cbn [snd fins]; [exact Hi|].
      apply in_or_app; left. destruct (is_extern f) eqn:Xf; cbn [andb]; [|exact Hi].
      destruct (negb (pmod =? key_mod f gmod pmod)); [|exact Hi].
      apply filter_In. split; [exact Hi|]. unfold in_slot.
      destruct (fe_fun e =? f) eqn:E; [apply N.eqb_eq in E; congruence| reflexivity].
    - cbn [snd fins]. apply filter_In. split; [exact Hi|]. cbn in Hn. apply andb_true_iff in Hn. destruct Hn as [Hn _].
      rewrite N.eqb_sym. exact Hn.
  Qed.

  (* COMPLETENESS, non-extern functions: as long as the body of an instantiation has not failed, every later
     request for the same function from the same key module with pointwise-equal parameter types returns it *)
  Theorem fun_inst_complete evs1 f g1 p1 ps1 r1 s1 i evs2 g2 p2 ps2 :
    is_extern f = false ->
    fstep (frun fstate0 evs1) (EReq f g1 p1 ps1) = (r1, s1) -> result_id r1 = Some i ->
    no_fail i evs2 = true ->
    key_mod f g1 p1 = key_mod f g2 p2 -> params_equal ps1 ps2 = true ->
    fstep (frun s1 evs2) (EReq f g2 p2 ps2) = (Hit i, frun s1 evs2).
  Proof.
    intros Hx S1 R1 Hn Hk Hp.
    destruct (req_after _ _ _ _ _ _ _ _ _ (run_inv evs1 _ _ finv0) S1 R1) as (I1 & e1 & In1 & Id1 & F1 & M1 & P1).
    pose proof (run_inv evs2 _ _ I1) as IB.
    assert (InB : In e1 (fins (frun s1 evs2))) by (apply persists; [rewrite F1; exact Hx| rewrite Id1; exact Hn| exact In1]).
    cbn [fstep]. rewrite <- Hk.
    destruct (find (fmatches f (key_mod f g1 p1) ps2) (fins (frun s1 evs2))) as [e|] eqn:F.
    - apply find_some in F. destruct F as [Hi Hm]. apply fmatches_true in Hm. destruct Hm as (Hf & Hm & Hp2).
      assert (e = e1).
      { apply (finv_key _ _ IB); try assumption; try congruence.
        eapply params_equal_trans; [exact Hp2|]. rewrite params_equal_sym. eapply params_equal_trans; [exact P1| exact Hp]. }
      subst e. rewrite Id1. reflexivity.
    - pose proof (find_none_nomatch _ _ _ _ e1 F InB F1 M1) as Hno.
      assert (params_equal (fe_params e1) ps2 = true) by (eapply params_equal_trans; [exact P1| exact Hp]). congruence.
  Qed.

End Env.

(* extern generic functions: requests from a module other than the declaring one RESET the slice of the
   declaring module, so an earlier instantiation is forgotten and made again *)
Theorem fun_inst_extern_refuted :
  exists is_extern decl_mod f pmod a b,
    is_extern f = true /\ pmod <> decl_mod f /\
    let ev x := EReq f None pmod [(x, false)] in
    let s1 := snd (fstep is_extern decl_mod fstate0 (ev a)) in
    let s2 := snd (fstep is_extern decl_mod s1 (ev b)) in
    fst (fstep is_extern decl_mod fstate0 (ev a)) = New 0 /\ fst (fstep is_extern decl_mod s2 (ev a)) = New 2.
Proof.
  exists (fun _ => true), (fun _ => 1), 7, 2, (Prim PZahl), (Prim PText). split; [reflexivity|]. split; [discriminate|]. vm_compute. split; reflexivity.
Qed.

(* ... but not when the requests come from the declaring module itself *)
Example fun_inst_extern_same_module :
  let ev x := EReq 7 None 1 [(x, false)] in
  let st s e := snd (fstep (fun _ => true) (fun _ => 1) s e) in
  fst (fstep (fun _ => true) (fun _ => 1) (st (st fstate0 (ev (Prim PZahl))) (ev (Prim PText))) (ev (Prim PZahl))) = Hit 0.
Proof. vm_compute. reflexivity. Qed.

Print Assumptions fun_inst_sound.
