(* Initialisation / assignment / conversion rules (model: Assign.v). *)
From Coq Require Import List NArith Bool Lia.
Import ListNotations.
From DDP Require Import Types.Ty Types.TyProofs Types.Assign.
Open Scope N_scope.

Lemma is_any_equal t : is_any t = equal t Any.
Proof. unfold is_any, equal. cbn [underlying]. destruct (underlying t); reflexivity. Qed.
Lemma is_void_equal t : is_void t = equal t Void.
Proof. unfold is_void, equal. cbn [underlying]. destruct (underlying t); reflexivity. Qed.

Theorem init_assign_agree t v : is_generic t = false -> init_ok t v = assign_ok t v.
Proof. intros H. unfold init_ok, assign_ok. rewrite H, (equal_sym v t). reflexivity. Qed.

(* the only difference: a declaration whose type is an unresolved type parameter accepts anything *)
Theorem init_generic_accepts_all n v : init_ok (TParam n) v = true.
Proof. reflexivity. Qed.

(* ---- exactly: equivalent, numeric for numeric, anything but nothing for Variable ----------------- *)
Theorem assign_char t v :
  assign_ok t v = true <->
  equal t v = true \/ (is_numeric t = true /\ is_numeric v = true) \/ (equal t Any = true /\ equal v Void = false).
Proof.
  unfold assign_ok.
  destruct (equal t v), (equal t Any), (equal v Void), (is_numeric t), (is_numeric v); cbn; split; intros H;
    try reflexivity; try discriminate H; intuition congruence.
Qed.

(* numeric-ness respects equivalence, so "any numeric type" includes aliases of numeric types and
   excludes definitions over them *)
Lemma is_numeric_equal a b : equal a b = true -> is_numeric a = is_numeric b.
Proof.
  unfold equal, is_numeric. intros H.
  assert (forall c, ty_eqb (underlying a) c = ty_eqb (underlying b) c) as E.
  { intros c. destruct (ty_eqb (underlying a) c) eqn:A, (ty_eqb (underlying b) c) eqn:B; try reflexivity.
    - rewrite <- B. symmetry. apply (ty_eqb_trans _ (underlying a)); [rewrite ty_eqb_sym; exact H| exact A].
    - rewrite <- A. apply (ty_eqb_trans _ (underlying b)); [exact H| exact B]. }
  rewrite !E. reflexivity.
Qed.

(* ---- conversions of definitions ------------------------------------------------------------------
   The rule both casts obey when a definition is involved: one side is a definition whose base is
   equivalent to the other side. *)
Definition def_ruleb (lhs target : ty) : bool :=
  match cast_type_def lhs with Some b => equal b target | None => false end ||
  match cast_type_def target with Some b => equal b lhs | None => false end.

Lemma def_ruleb_spec lhs target :
  def_ruleb lhs target = true <->
  (exists b, cast_type_def lhs = Some b /\ equal b target = true) \/
  (exists b, cast_type_def target = Some b /\ equal b lhs = true).
Proof.
  unfold def_ruleb. rewrite orb_true_iff.
  split; (intros [H|H]; [left|right]); try (destruct H as (b & -> & H); exact H).
  - destruct (cast_type_def lhs) as [b|]; [exists b; auto|discriminate H].
  - destruct (cast_type_def target) as [b|]; [exists b; auto|discriminate H].
Qed.

Lemma is_type_def_cast t : is_type_def t = match cast_type_def t with Some _ => true | None => false end.
Proof. unfold is_type_def, cast_type_def. destruct (underlying t); reflexivity. Qed.

(* the value cast `e als T` *)
Lemma cast_ok_def lhs target :
  is_any lhs = false -> is_any target = false -> is_type_def lhs || is_type_def target = true ->
  cast_ok lhs target = def_ruleb lhs target.
Proof.
  intros Hl Ht Hd. unfold cast_ok, def_ruleb. rewrite Hl, Ht. cbn [orb andb]. rewrite !is_type_def_cast in Hd.
  destruct (cast_type_def target) as [tu|], (cast_type_def lhs) as [lu|]; cbn in Hd; try discriminate Hd;
    rewrite ?orb_false_r; cbn [orb]; auto using equal_sym.
Qed.

(* ---- the reference-context conversion (`x als T` as assignment target / Referenz argument) ------- *)
Lemma wf_types_sub ts ts' : incl (flat_map nodes ts') (flat_map nodes ts) -> wf_types ts = true -> wf_types ts' = true.
Proof. intros Hi H. apply wf_types_spec. apply wf_types_spec in H. exact (consistent_incl _ _ Hi H). Qed.
Lemma wf_types_l a b : wf_types [a; b] = true -> wf_types [a] = true.
Proof. apply wf_types_sub. cbn [flat_map]. apply incl_app; [apply incl_appl, incl_refl|apply incl_nil_l]. Qed.
Lemma wf_types_r a b : wf_types [a; b] = true -> wf_types [b] = true.
Proof. apply wf_types_sub. cbn [flat_map]. apply incl_app; [apply incl_appr, incl_appl, incl_refl|apply incl_nil_l]. Qed.
Lemma wf_types_sym a b : wf_types [a; b] = true -> wf_types [b; a] = true.
Proof.
  apply wf_types_sub. cbn [flat_map]. rewrite !app_nil_r. apply incl_app; [apply incl_appr|apply incl_appl]; apply incl_refl.
Qed.

Lemma nodes_true_underlying t : incl (nodes (true_underlying t)) (nodes t).
Proof.
  induction t as [p| | |e IH|i u IH|i u IH|i|n|i u IH]; cbn [true_underlying nodes]; try apply incl_refl;
    try (apply incl_tl; exact IH). apply nodes_underlying.
Qed.

Lemma tlu_true_underlying t : true_list_underlying (true_underlying t) = true_list_underlying t.
Proof. induction t; cbn [true_list_underlying true_underlying]; try reflexivity; try assumption. rewrite tlu_underlying; reflexivity. Qed.

Lemma cast_assignable_valid a b :
  cast_assignable_ok a b = true -> equal (true_underlying a) (true_underlying b) = true.
Proof. unfold cast_assignable_ok. destruct (equal (true_underlying a) (true_underlying b)); [reflexivity|]. cbn. intros H; exact H. Qed.

Lemma nodes_sub x t : In x (nodes t) -> incl (nodes x) (nodes t).
Proof.
  induction t as [p| | |e IH|i u IH|i u IH|i|n|i u IH]; cbn [nodes]; intros H; try contradiction;
    try (destruct H as [H|H]; [subst; apply incl_refl| apply incl_tl, IH; exact H]).
  apply IH; exact H.
Qed.

Lemma equal_true_underlying a b : wf_types [a; b] = true -> equal a b = true -> true_underlying a = true_underlying b.
Proof.
  intros Hwf H. apply (equal_same_underlying a b Hwf) in H.
  rewrite (true_underlying_step a), (true_underlying_step b), H. reflexivity.
Qed.

Lemma cast_type_def_base t b : cast_type_def t = Some b -> true_underlying t = true_underlying b /\ incl (nodes b) (nodes t).
Proof.
  unfold cast_type_def. destruct (underlying t) as [p| | |e|j v|j v|j|n|j v] eqn:U; intros H; try discriminate H.
  inversion H; subst v; clear H. split.
  - rewrite (true_underlying_step t), U. reflexivity.
  - apply underlying_def_in in U. apply nodes_sub in U. intros x Hx. apply U. right. exact Hx.
Qed.

(* whatever the rule (or plain equivalence) relates has the same representation up to definitions *)
Lemma def_rule_valid lhs target :
  wf_types [lhs; target] = true -> equal lhs target || def_ruleb lhs target = true ->
  equal (true_underlying lhs) (true_underlying target) = true.
Proof.
  assert (Half : forall x y b, wf_types [x; y] = true -> cast_type_def x = Some b -> equal b y = true ->
                               true_underlying x = true_underlying y).
  { intros x y b Hwf Hb H. destruct (cast_type_def_base _ _ Hb) as [Ht Hn]. rewrite Ht.
    apply equal_true_underlying; [|exact H]. revert Hwf. apply wf_types_sub. cbn [flat_map].
    apply incl_app; [apply incl_appl, Hn|apply incl_appr, incl_refl]. }
  intros Hwf H. apply orb_true_iff in H. rewrite def_ruleb_spec in H.
  destruct H as [H|[(b & Hb & H)|(b & Hb & H)]].
  - rewrite (equal_true_underlying _ _ Hwf H). apply equal_refl.
  - rewrite (Half _ _ _ Hwf Hb H). apply equal_refl.
  - rewrite (Half _ _ _ (wf_types_sym _ _ Hwf) Hb H). apply equal_refl.
Qed.

(* The reference cast obeys the same definition rule as the value cast: when a definition is involved
   it is accepted exactly for equivalent types (no conversion) and between a definition and its own base. *)
Lemma cast_assignable_def lhs target :
  wf_types [lhs; target] = true -> is_type_def lhs || is_type_def target = true ->
  cast_assignable_ok lhs target = equal lhs target || def_ruleb lhs target.
Proof.
  intros Hwf Hd. pose proof (def_rule_valid lhs target Hwf) as Hv. rewrite !is_type_def_cast in Hd.
  unfold cast_assignable_ok. cbv zeta.
  replace ((match cast_type_def target with Some tu => equal lhs tu | None => false end) ||
           (match cast_type_def lhs with Some lu => equal target lu | None => false end)) with (def_ruleb lhs target)
    by (unfold def_ruleb; rewrite orb_comm;
        destruct (cast_type_def lhs), (cast_type_def target); rewrite ?(equal_sym lhs), ?(equal_sym target); reflexivity).
  rewrite (orb_comm (match cast_type_def target with Some _ => true | None => false end)), Hd, andb_true_r.
  destruct (equal lhs target), (def_ruleb lhs target); cbn [orb negb] in *;
    rewrite ?Hv by reflexivity; rewrite ?andb_false_r; cbn [andb]; try reflexivity.
  destruct (equal (true_underlying lhs) (true_underlying target)); reflexivity.
Qed.

(* never between two definitions of the same base (for the reference cast: the defect repaired by /repo 727bc7d) *)
Lemma def_ruleb_distinct i j u : wf_types [Def i u; Def j u] = true -> def_ruleb (Def i u) (Def j u) = false.
Proof.
  intros Hwf. unfold def_ruleb. change (cast_type_def (Def i u)) with (Some u). change (cast_type_def (Def j u)) with (Some u). cbv beta iota.
  rewrite (equal_sym u (Def j u)), (equal_sym u (Def i u)), (def_opaque j u), (def_opaque i u);
    [reflexivity|exact (wf_types_l _ _ Hwf)|exact (wf_types_r _ _ Hwf)].
Qed.

(* ---- further positions: arguments and returned values ------------------------------------------------
   neither kind of parameter converts numeric types or accepts arbitrary values for Variable; a return
   does not convert numeric types either *)
Example arg_no_numeric_conversion :
  arg_ok false true false (Prim PZahl) (Prim PKommazahl) = false /\ arg_ok false true false Any (Prim PZahl) = false /\
  assign_ok (Prim PZahl) (Prim PKommazahl) = true /\ assign_ok Any (Prim PZahl) = true.
Proof. vm_compute. repeat split; reflexivity. Qed.

Example return_no_numeric_conversion :
  return_ok true (Prim PZahl) (Prim PKommazahl) = false /\ assign_ok (Prim PZahl) (Prim PKommazahl) = true /\ return_ok true Any (Prim PZahl) = true.
Proof. vm_compute. repeat split; reflexivity. Qed.

(* ---- non-vacuity of the hypotheses used above --------------------------------------------------- *)
Definition ex_zahl := Prim PZahl.
Definition ex_haus := Def 1 ex_zahl.                       (* Wir definieren eine Hausnummer als eine Zahl. *)
Definition ex_zeiger := Def 2 ex_zahl.                     (* Wir definieren einen Zeiger als eine Zahl. *)
Definition ex_nummer := Alias 3 ex_zahl.                   (* Wir nennen eine Zahl auch eine Nummer. *)
Definition ex_db := Def 4 (Alias 5 ex_zeiger).             (* definition over an alias of a definition *)

Example ex_wf : wf_types [ex_haus; ex_zeiger; ex_nummer; ex_db; List (Alias 6 (List ex_haus))] = true.
Proof. vm_compute. reflexivity. Qed.
Example ex_def_opaque_hyp : wf_types [ex_db] = true /\ equal ex_db (Alias 5 ex_zeiger) = false.
Proof. vm_compute. split; reflexivity. Qed.
Example ex_same_object_hyp : wf_types [ex_haus; ex_zeiger] = true /\ equal ex_haus ex_zeiger = false.
Proof. vm_compute. split; reflexivity. Qed.
Example ex_agree_hyp : is_generic ex_nummer = false /\ init_ok ex_nummer (Prim PByte) = true /\ init_ok ex_nummer (Prim PText) = false.
Proof. vm_compute. repeat split; reflexivity. Qed.
Example ex_no_implicit_hyp : wf_types [ex_haus] = true /\ is_any ex_zahl = false.
Proof. vm_compute. split; reflexivity. Qed.
Example ex_cast_rule_hyp :
  is_any ex_db = false /\ is_any ex_zeiger = false /\ is_type_def ex_db || is_type_def ex_zeiger = true /\
  cast_ok ex_db ex_zeiger = true /\ cast_ok ex_db ex_zahl = false /\ cast_ok ex_haus ex_zeiger = false.
Proof. vm_compute. repeat split; reflexivity. Qed.
Example ex_cast_plain_hyp : is_type_def (List ex_nummer) = false /\ is_any (List ex_nummer) = false.
Proof. vm_compute. split; reflexivity. Qed.
Example ex_cast_distinct_hyp : wf_types [Def 1 ex_zahl; Def 2 ex_zahl] = true /\ 1 <> 2.
Proof. split; [vm_compute; reflexivity| discriminate]. Qed.
Example ex_cast_assignable_hyp :
  wf_types [ex_db; ex_zeiger] = true /\ is_type_def ex_db || is_type_def ex_zeiger = true /\
  cast_assignable_ok ex_db ex_zeiger = true /\ cast_assignable_ok ex_db ex_haus = false /\ cast_assignable_ok ex_haus ex_zeiger = false.
Proof. vm_compute. repeat split; reflexivity. Qed.
