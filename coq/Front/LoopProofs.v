(* C03 — the driving loops of Front/Loop.v stay inside the token stream and, under the progress contract of one
   declaration, end at its end. *)
From Coq Require Import List Arith Lia.
Import ListNotations.
From DDP Require Import Front.Loop.

Section Proofs.
Variable tok : Type.
Variable is_dot : tok -> bool.
Variable starts_stmt : tok -> tok -> bool.
Variable toks : list tok.
Variable decl : nat -> nat * bool.
Notation len := (len tok toks).
Notation synchronize := (synchronize tok is_dot starts_stmt toks).
Notation checked_declaration := (checked_declaration tok is_dot starts_stmt toks decl).
Notation parse_loop := (parse_loop tok is_dot starts_stmt toks decl).

(* the contract of one declaration: strict progress, cursor stays inside the stream *)
Hypothesis decl_progress : forall cur, cur < len -> cur < fst (decl cur) <= len.

Lemma synchronize_bounds fuel cur : cur <= len -> cur <= synchronize fuel cur <= len.
Proof.
  revert cur. induction fuel as [|f IH]; intros cur H; cbn [Loop.synchronize]; [lia|].
  unfold at_end. destruct (len <=? cur) eqn:E; [lia|]. apply Nat.leb_gt in E.
  destruct (match cur with 0 => false | S p => match nth_error toks p with Some t => is_dot t | None => false end end); [lia|].
  destruct (nth_error toks cur) as [t|]; [|lia].
  destruct (nth_error toks (S cur)) as [t'|].
  - destruct (starts_stmt t t'); [lia|]. specialize (IH (S cur) ltac:(lia)). lia.
  - destruct (starts_stmt t t); [lia|]. specialize (IH (S cur) ltac:(lia)). lia.
Qed.

Lemma checked_declaration_progress cur : cur < len -> cur < checked_declaration cur <= len.
Proof.
  intros H. unfold Loop.checked_declaration. pose proof (decl_progress cur H) as P.
  destruct (decl cur) as [c panic]; cbn [fst] in P. destruct panic; [|lia].
  pose proof (synchronize_bounds (S len) c ltac:(lia)). lia.
Qed.

(* the main loop terminates within len+1 iterations and ends exactly at the end of the stream *)
Lemma parse_loop_terminates_gen fuel cur :
  cur <= len -> len - cur < fuel -> parse_loop fuel cur = Some len.
Proof.
  revert cur. induction fuel as [|f IH]; intros cur Hc Hf; [lia|].
  cbn [Loop.parse_loop]. unfold at_end. destruct (len <=? cur) eqn:E.
  - apply Nat.leb_le in E. f_equal. lia.
  - apply Nat.leb_gt in E. pose proof (checked_declaration_progress cur E) as P.
    apply IH; lia.
Qed.

Theorem parse_loop_terminates : parse_loop (S len) 0 = Some len.
Proof. apply parse_loop_terminates_gen; lia. Qed.

End Proofs.

(* a declaration that stays put at a token where synchronize returns at once makes the loop spin *)
Example stuck_declaration_spins :
  Loop.parse_loop nat (fun _ => false) (fun _ _ => true) [7; 8] (fun cur => (cur, true)) 1000 0 = None.
Proof. vm_compute. reflexivity. Qed.

Example progress_example :
  Loop.parse_loop nat (fun t => Nat.eqb t 0) (fun _ _ => false) [5; 0; 6; 6; 0] (fun cur => (S cur, Nat.even cur)) 6 0 = Some 5.
Proof. vm_compute. reflexivity. Qed.
