(* C10 — concrete module graphs, evaluated on the model: the behaviour /repo has since 2989702 for import statements
   nested in a loop, a branch or a function body, one quirk of the loader, and non-vacuity examples for the hypotheses
   of the theorems. *)
From Coq Require Import List NArith Bool Relations.
Import ListNotations.
From DDP Require Import Mod.Loader Mod.LoaderProofs Mod.InitOrder Mod.VisibleProofs Mod.Mangle.
Local Open Scope N_scope.

Definition var (line n : N) (pub : bool) : stmt := SDecl line (mkDecl n KVar pub) [].
Definition imp_named (line tgt : N) (ns : list N) : stmt := SImport (mkImport line tgt (INamed ns)).
Definition imp_whole (line tgt : N) : stmt := SImport (mkImport line tgt IWhole).

(* import statements nested in a loop, a branch, a function body: their modules are initialised once, before
   the enclosing top-level statement (/repo 2989702) *)
Definition fs_loop : fsys :=
  mkFs [(1, [SMark 1; SBlock (CRepeat 3) [imp_named 3 2 [5]; SUse 4 5 KVar]; SMark 2]);
        (2, [var 2 5 true])] [].

Example nested_loop_once :
  outcome fs_loop 1 = Some [EMark 1 1; EInit 2; EInitVar 2 5; EVal 2 5 true; EVal 2 5 true; EVal 2 5 true; EMark 1 2].
Proof. vm_compute. reflexivity. Qed.

Definition fs_never : fsys :=
  mkFs [(1, [SBlock (CIf false) [imp_named 2 2 [5]]; imp_named 3 2 [5]; SMark 1; SUse 5 5 KVar]);
        (2, [var 2 5 true])] [].

Example nested_untaken_branch_still_initialised :
  outcome fs_never 1 = Some [EInit 2; EInitVar 2 5; EMark 1 1; EVal 2 5 true].
Proof. vm_compute. reflexivity. Qed.

Definition fs_fnbody : fsys :=
  mkFs [(1, [imp_whole 2 3; SUse 3 6 KFunc; SUse 4 6 KFunc]);
        (2, [var 2 5 true]);
        (3, [SDecl 2 (mkDecl 6 KFunc true) [imp_named 3 2 [5]; SUse 4 5 KVar]])] [].

Example nested_function_body_once :
  outcome fs_fnbody 1 = Some [EInit 2; EInitVar 2 5; EInit 3; EFn 3 6; EVal 2 5 true; EFn 3 6; EVal 2 5 true].
Proof. vm_compute. reflexivity. Qed.

(* quirk: a missing file leaves the nil placeholder behind; a second import of it is reported with the
   "modules import each other" diagnostic although nothing is cyclic *)
Definition fs_missing : fsys := mkFs [(1, [imp_whole 2 9; imp_whole 3 9])] [].
Lemma missing_twice_reported_circular :
  map dg_class (l_diags (fst (load fs_missing 1))) = [DLoadFail; DCircular].
Proof. vm_compute. reflexivity. Qed.

(* non-vacuity: a diamond with a dependency between the siblings *)
Definition fs_diamond : fsys :=
  mkFs [(1, [SMark 1; imp_whole 2 2; SMark 2; imp_whole 3 3; SMark 3; SUse 9 5 KVar]);
        (2, [imp_named 2 4 [8]; imp_named 3 3 [6]; var 4 5 true; SMark 500]);
        (3, [imp_named 2 4 [8]; var 3 6 true; var 4 7 false]);
        (4, [var 2 8 true])] [].

Example diamond_outcome :
  outcome fs_diamond 1 =
  Some [EMark 1 1; EInit 4; EInitVar 4 8; EInit 3; EInitVar 3 6; EInitVar 3 7; EInit 2; EInitVar 2 5;
        EMark 1 2; EMark 1 3; EVal 2 5 true].
Proof. vm_compute. reflexivity. Qed.

Example diamond_graph_edge : In 3 (graph fs_diamond 1 2) /\ In 4 (graph fs_diamond 1 3).
Proof. vm_compute. tauto. Qed.

(* static graph facts for concrete file systems: a property of all edges is checked file by file *)
Lemma sedge_check (fs : fsys) (P : path -> path -> bool) :
  forallb (fun f => forallb (P (fst f)) (flat_map (targets fs) (imports_of (snd f)))) (fs_files fs) = true ->
  forall p q, sedge fs p q -> P p q = true.
Proof.
  intros H p q [src [i [Hl [Hi Hq]]]]. rewrite forallb_forall in H. specialize (H _ (lookup_In _ _ _ Hl)).
  rewrite forallb_forall in H. apply H. apply in_flat_map. exists i. auto.
Qed.

Lemma rank_no_cycle (fs : fsys) (rk : path -> nat) (root : path) :
  (forall p q, sedge fs p q -> (rk q < rk p)%nat) -> ~ scycle fs root.
Proof. intros Hrk [p [_ Hc]]. exact (rank_acyclic _ rk Hrk p Hc). Qed.

Definition rk_diamond (p : path) : nat := match p with 1 => 4%nat | 2 => 3%nat | 3 => 2%nat | 4 => 1%nat | _ => 0%nat end.

Example diamond_acyclic : ~ scycle fs_diamond 1.
Proof.
  apply (rank_no_cycle fs_diamond rk_diamond). intros p q H. apply PeanoNat.Nat.ltb_lt.
  exact (sedge_check fs_diamond (fun p q => Nat.ltb (rk_diamond q) (rk_diamond p)) eq_refl p q H).
Qed.

Example diamond_closed : closed fs_diamond 1.
Proof.
  intros p q _ H.
  pose proof (sedge_check fs_diamond (fun _ q => match lookup q (fs_files fs_diamond) with Some _ => true | None => false end) eq_refl p q H) as E. cbn beta in E.
  destruct (lookup q (fs_files fs_diamond)); [discriminate|discriminate E].
Qed.

Example diamond_root_exists : lookup 1 (fs_files fs_diamond) <> None.
Proof. cbn. discriminate. Qed.

(* non-vacuity: cycles of length 1, 3 and one through the root *)
Definition fs_self : fsys := mkFs [(1, [imp_whole 2 2]); (2, [imp_whole 2 2])] [].
Definition fs_cycle3 : fsys :=
  mkFs [(1, [imp_whole 2 2]); (2, [imp_whole 2 3]); (3, [imp_whole 2 4]); (4, [imp_whole 2 2])] [].
Definition fs_root_cycle : fsys := mkFs [(1, [imp_whole 2 2]); (2, [imp_whole 2 1])] [].

Ltac sedge_intro := eexists; eexists; split; [cbn; reflexivity|split; [cbn; left; reflexivity|cbn; left; reflexivity]].

Example self_cycle : scycle fs_self 1.
Proof.
  exists 2. split; [apply rt_step; sedge_intro|apply t_step; sedge_intro].
Qed.

Example cycle3 : scycle fs_cycle3 1.
Proof.
  exists 2. split; [apply rt_step; sedge_intro|].
  eapply t_trans; [apply t_step; sedge_intro|eapply t_trans; [apply t_step; sedge_intro|apply t_step; sedge_intro]].
Qed.

Example root_cycle : scycle fs_root_cycle 1.
Proof.
  exists 1. split; [apply rt_refl|]. eapply t_trans; [apply t_step; sedge_intro|apply t_step; sedge_intro].
Qed.

Example root_cycle_parsed_twice : l_log (fst (load fs_root_cycle 1)) = [1; 2; 1].
Proof. vm_compute. reflexivity. Qed.

(* non-vacuity: visibility *)
Definition fs_vis : fsys :=
  mkFs [(1, [imp_named 2 2 [5; 6]; SUse 3 5 KVar; SUse 4 6 KVar; SUse 5 7 KVar]);
        (2, [var 2 5 true; var 3 6 false; var 4 7 true])] [].

Example vis_outcome_rejected : outcome fs_vis 1 = None.
Proof. vm_compute. reflexivity. Qed.

Example vis_diags : map (fun d => (dg_line d, dg_class d)) (all_diags fs_vis 1) = [(2, DUndefined); (4, DUndefined); (5, DUndefined)].
Proof. vm_compute. reflexivity. Qed.

Example vis_named_hyp :
  i_form (mkImport 2 2 (INamed [5; 6])) = INamed [5; 6] /\ In 6 [5; 6] /\ find_decl 6 (public_of fs_vis 2) = None /\
  find_decl 5 (public_of fs_vis 2) = Some (mkDecl 5 KVar true).
Proof. vm_compute. tauto. Qed.

Example vis_names_unique : NoDup (map d_name (top_decls (srcs fs_vis 2))).
Proof. vm_compute. repeat constructor; cbn; intuition discriminate. Qed.

(* non-vacuity: an injective hash exists *)
Example hash_inj_exists : exists hash : str -> str, forall a b, hash a = hash b -> a = b.
Proof. exists (fun x => x). auto. Qed.
