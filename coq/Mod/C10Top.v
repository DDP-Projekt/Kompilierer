(* C10 — what the outcome of a whole program says about its loader state and its trace. *)
From Coq Require Import List NArith Bool.
Import ListNotations.
From DDP Require Import Mod.Loader Mod.LoaderProofs Mod.InitOrder.

Lemma outcome_trace fs root tr : outcome fs root = Some tr -> tr = trace fs root.
Proof.
  unfold outcome. destruct (snd (loaded fs root)); [|discriminate].
  destruct (all_diags fs root); [|discriminate]. intros E; injection E as <-. reflexivity.
Qed.

Lemma outcome_none_of_diag fs root : l_diags (L fs root) <> [] -> outcome fs root = None.
Proof.
  intros H. unfold outcome, all_diags. destruct (snd (loaded fs root)); [|reflexivity].
  destruct (l_diags (L fs root)); [congruence|reflexivity].
Qed.

Theorem cycle_rejected fs root :
  lookup root (fs_files fs) <> None -> scycle fs root ->
  (exists d, In d (l_diags (fst (load fs root))) /\ include_class (dg_class d) = true) /\ outcome fs root = None.
Proof.
  intros Hr Hc. destruct (cycle_diagnosed fs root Hr Hc) as [d [Hd Hi]]. split; [eauto|].
  apply outcome_none_of_diag. unfold L, loaded. intros E. rewrite E in Hd. destruct Hd.
Qed.

Theorem missing_root_rejected fs root : lookup root (fs_files fs) = None -> outcome fs root = None.
Proof. intros H. unfold outcome, loaded. rewrite (load_missing_root fs root H). reflexivity. Qed.
