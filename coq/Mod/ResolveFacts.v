(* C10 — the shape of the resolver's output: induction over statement trees, statement lists piece by piece,
   what an import statement is annotated with. *)
From Coq Require Import List NArith Bool.
Import ListNotations.
From DDP Require Import Mod.Loader Mod.LoaderProofs.

Section StmtInd.
  Variable P : stmt -> Prop.
  Hypothesis Himp : forall i, P (SImport i).
  Hypothesis Hdecl : forall line d body, Forall P body -> P (SDecl line d body).
  Hypothesis Huse : forall line n k, P (SUse line n k).
  Hypothesis Hmark : forall t, P (SMark t).
  Hypothesis Hblock : forall c body, Forall P body -> P (SBlock c body).
  Fixpoint stmt_ind' (x : stmt) : P x :=
    match x with
    | SImport i => Himp i
    | SDecl line d body => Hdecl line d body (Forall_all P stmt_ind' body)
    | SUse line n k => Huse line n k
    | SMark t => Hmark t
    | SBlock c body => Hblock c body (Forall_all P stmt_ind' body)
    end.
End StmtInd.


Section ResolveShape.
  Variable fs : fsys.
  Variable inst : N.
  Variable p : path.
  Variable res : resolved.
  Variable ld : list diag.

  Lemma resolve_stmts_eq l s :
    (fix go (l : list stmt) (s : pstate) : pstate * list rstmt :=
       match l with
       | [] => (s, [])
       | y :: t => let '(s', r) := resolve_stmt fs inst p res ld y s in let '(s'', rs) := go t s' in (s'', r :: rs)
       end) l s = resolve_stmts fs inst p res ld l s.
  Proof.
    revert s. induction l as [|y t IH]; intros s; [reflexivity|].
    simpl. destruct (resolve_stmt fs inst p res ld y s) as [s1 r1]. rewrite IH. reflexivity.
  Qed.
End ResolveShape.

Lemma resolve_stmts_app fs inst p res ld a : forall b s,
  resolve_stmts fs inst p res ld (a ++ b) s =
  let '(s1, r1) := resolve_stmts fs inst p res ld a s in
  let '(s2, r2) := resolve_stmts fs inst p res ld b s1 in (s2, r1 ++ r2).
Proof.
  induction a as [|y t IH]; intros b s; cbn [app resolve_stmts].
  - destruct (resolve_stmts fs inst p res ld b s); reflexivity.
  - destruct (resolve_stmt fs inst p res ld y s) as [s1 r1]. rewrite IH.
    destruct (resolve_stmts fs inst p res ld t s1) as [s2 r2].
    destruct (resolve_stmts fs inst p res ld b s2) as [s3 r3]. reflexivity.
Qed.

Lemma resolve_import_snd fs inst p res ld i s :
  snd (resolve_import fs inst p res ld i s) =
  RImport (i_line i) (match lookup (i_line i) res with Some ms => ms | None => [] end).
Proof.
  unfold resolve_import.
  repeat match goal with |- context [let '(_, _) := ?e in _] => destruct e end. reflexivity.
Qed.

Lemma resolve_stmts_one_import fs inst p res ld i s :
  snd (resolve_stmts fs inst p res ld [SImport i] s) =
  [RImport (i_line i) (match lookup (i_line i) res with Some ms => ms | None => [] end)].
Proof.
  cbn [resolve_stmts resolve_stmt]. pose proof (resolve_import_snd fs inst p res ld i s) as H.
  destruct (resolve_import fs inst p res ld i s) as [s1 r1]. cbn [snd] in *. rewrite H. reflexivity.
Qed.
