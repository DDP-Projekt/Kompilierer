(* C10 — the symbol names (Mod/Mangle.v): the escaping of module paths is injective. *)
From Coq Require Import List NArith Bool.
Import ListNotations.
From DDP Require Import Mod.Mangle.

(* every '_' of the output starts a two-character escape, so the first character of the input can be read back *)
Lemma esc_char_head a b r1 r2 : esc_char a ++ r1 = esc_char b ++ r2 -> a = b /\ r1 = r2.
Proof.
  unfold esc_char.
  destruct (N.eqb_spec a c_under) as [->|Ha1]; [|destruct (N.eqb_spec a c_slash) as [->|Ha2]; [|destruct (N.eqb_spec a c_colon) as [->|Ha3]]];
  (destruct (N.eqb_spec b c_under) as [->|Hb1]; [|destruct (N.eqb_spec b c_slash) as [->|Hb2]; [|destruct (N.eqb_spec b c_colon) as [->|Hb3]]]);
  cbn [app]; intros E; injection E; intros; subst; try discriminate; try congruence; auto.
Qed.

Lemma esc_injective p1 : forall p2, flat_map esc_char p1 = flat_map esc_char p2 -> p1 = p2.
Proof.
  induction p1 as [|a p1 IH]; intros [|b p2] E; cbn [flat_map] in E.
  - reflexivity.
  - exfalso. unfold esc_char in E. destruct (N.eqb b c_under), (N.eqb b c_slash), (N.eqb b c_colon); discriminate.
  - exfalso. unfold esc_char in E. destruct (N.eqb a c_under), (N.eqb a c_slash), (N.eqb a c_colon); discriminate.
  - apply esc_char_head in E. destruct E as [-> E]. f_equal. apply IH. exact E.
Qed.

Theorem hashable_injective p1 p2 : hashable p1 = hashable p2 -> p1 = p2.
Proof. unfold hashable. intros E. apply app_inv_head in E. apply esc_injective. exact E. Qed.

Section WithHash.
  Variable hash : str -> str.
  Hypothesis hash_inj : forall a b, hash a = hash b -> a = b.

  (* same-named declarations of two different modules get different symbols *)
  Theorem mangled_distinct n p1 p2 : p1 <> p2 -> mangled hash n p1 <> mangled hash n p2.
  Proof. unfold mangled. intros H E. injection E as E. apply H, hashable_injective, hash_inj, E. Qed.
End WithHash.

Lemma map_injective {A B : Type} (f : A -> B) : (forall a b, f a = f b -> a = b) -> forall l1 l2, map f l1 = map f l2 -> l1 = l2.
Proof.
  intros Hf. induction l1 as [|a l1 IH]; intros [|b l2] E; cbn [map] in E; try discriminate; [reflexivity|].
  injection E as E1 E2. f_equal; auto.
Qed.

(* the symbol of a generic instantiation determines the function, the parameter types (name AND declaring module) and the
   instantiating module *)
Theorem inst_symbol_injective (hash : str -> str) :
  (forall a b, hash a = hash b -> a = b) ->
  forall fn1 fn2 t1 t2 p1 p2, inst_symbol hash fn1 t1 p1 = inst_symbol hash fn2 t2 p2 -> fn1 = fn2 /\ t1 = t2 /\ p1 = p2.
Proof.
  intros Hh fn1 fn2 t1 t2 p1 p2 E. unfold inst_symbol in E. injection E as E1 E2 E3.
  split; [exact E1|split; [|apply hashable_injective, Hh, E3]].
  apply (map_injective (fun t : tyarg => (fst t, hash (hashable (snd t))))); [|exact E2].
  intros [n1 m1] [n2 m2] H. cbn in H. injection H as -> H. f_equal. apply hashable_injective, Hh, H.
Qed.

(* two different types called "Punkt" declared in the modules /d/ma and /d/mb: one symbol before /repo 4cb1bdc *)
Definition punkt : str := [80; 117; 110; 107; 116]%N.
Definition mod_ma : str := [47; 100; 47; 109; 97]%N.
Definition mod_mb : str := [47; 100; 47; 109; 98]%N.

Example former_inst_collision_resolved : forall hash : str -> str, (forall a b, hash a = hash b -> a = b) ->
  forall fn p, inst_symbol hash fn [(punkt, mod_ma)] p <> inst_symbol hash fn [(punkt, mod_mb)] p.
Proof. intros hash Hh fn p E. apply (inst_symbol_injective hash Hh) in E. destruct E as [_ [E _]]. discriminate. Qed.

(* "/d/x/y" and "/d/x_y", which collided before /repo 675c22d *)
Definition coll_a : str := [47; 100; 47; 120; 47; 121]%N.
Definition coll_b : str := [47; 100; 47; 120; 95; 121]%N.
Example former_collision_resolved : coll_a <> coll_b /\ hashable coll_a <> hashable coll_b /\ init_name coll_a <> init_name coll_b.
Proof. repeat split; vm_compute; discriminate. Qed.
