(* C10 — the loader model (Mod/Loader.v): its properties as invariants of the recursive Parse, each by induction on the fuel. *)
From Coq Require Import List NArith Bool Lia Relations PeanoNat.
Import ListNotations.
From DDP Require Import Mod.Loader.

Lemma memN_In (k : N) (l : list N) : memN k l = true <-> In k l.
Proof.
  induction l as [|x l IH]; cbn [memN In]; [split; [discriminate|tauto]|].
  destruct (N.eqb_spec k x) as [->|Hne]; [tauto|].
  rewrite IH. split; [tauto|]. intros [H|H]; [congruence|exact H].
Qed.

Lemma lookup_In {A : Type} (k : N) (l : list (N * A)) (v : A) : lookup k l = Some v -> In (k, v) l.
Proof.
  induction l as [|[k' v'] l IH]; cbn [lookup]; [discriminate|].
  destruct (N.eqb_spec k k') as [->|Hne]; intros H; [injection H as ->; left; reflexivity|right; auto].
Qed.

Lemma lookup_none_keys {A : Type} (k : N) (l : list (N * A)) : lookup k l = None <-> ~ In k (map fst l).
Proof.
  induction l as [|[k' v'] l IH]; cbn [lookup map fst In]; [tauto|].
  destruct (N.eqb_spec k k') as [->|Hne]; [split; [discriminate|intros H; exfalso; apply H; left; reflexivity]|].
  rewrite IH. split; [intros H [E|E]; [congruence|tauto]|tauto].
Qed.

Lemma NoDup_snoc {A : Type} (l : list A) (x : A) : NoDup l -> ~ In x l -> NoDup (l ++ [x]).
Proof. intros Hl Hx. apply (NoDup_Add (Add_app x l [])). rewrite app_nil_r. auto. Qed.

(* the list part of an induction principle for a tree type whose nodes hold lists of subtrees *)
Section ForallAll.
  Context {A : Type} (P : A -> Prop) (f : forall x, P x).
  Fixpoint Forall_all (l : list A) : Forall P l :=
    match l with [] => Forall_nil P | y :: t => Forall_cons y (f y) (Forall_all t) end.
End ForallAll.

(* an invariant of a loop, indexed by the part of the list the loop has been through *)
Lemma fold_left_ind {A X : Type} (f : A -> X -> A) (I : list X -> A -> Prop) (l : list X) (a : A) :
  I [] a -> (forall pre x a, In x l -> I pre a -> I (pre ++ [x]) (f a x)) -> I l (fold_left f l a).
Proof.
  intros H0 Hstep. enough (H : forall pre a0, I pre a0 -> I (pre ++ l) (fold_left f l a0)) by exact (H [] a H0).
  clear H0. induction l as [|x l IH]; intros pre a0 Ha; cbn [fold_left]; [rewrite app_nil_r; exact Ha|].
  replace (pre ++ x :: l) with ((pre ++ [x]) ++ l) by (rewrite <- app_assoc; reflexivity).
  apply IH; [intros pre' y a' Hy; apply Hstep; right; exact Hy|]. apply Hstep; [left; reflexivity|exact Ha].
Qed.

Lemma fold_left_pair {S B X : Type} {f : S * B -> X -> S * B} (I : list X -> S -> B -> Prop) {l s b s' b'} :
  fold_left f l (s, b) = (s', b') -> I [] s b ->
  (forall pre x s1 b1 s2 b2, In x l -> f (s1, b1) x = (s2, b2) -> I pre s1 b1 -> I (pre ++ [x]) s2 b2) -> I l s' b'.
Proof.
  intros E H0 Hstep. change (I l (fst (s', b')) (snd (s', b'))). rewrite <- E.
  apply (fold_left_ind f (fun pre a => I pre (fst a) (snd a))); [exact H0|].
  intros pre x [s1 b1] Hx H. destruct (f (s1, b1) x) as [s2 b2] eqn:E2. exact (Hstep _ _ _ _ _ _ Hx E2 H).
Qed.

(* a relation that strictly decreases a rank has no cycle *)
Lemma rank_acyclic {A : Type} (R : A -> A -> Prop) (rk : A -> nat) :
  (forall a b, R a b -> rk b < rk a) -> forall a, ~ clos_trans A R a a.
Proof.
  intros Hrk a Hc.
  assert (H : forall a b, clos_trans A R a b -> rk b < rk a).
  { induction 1 as [x y He|x y z _ IH1 _ IH2]; [apply Hrk; exact He|lia]. }
  specialize (H _ _ Hc). lia.
Qed.

(* what every step of the loader preserves; the diagnostics it adds are include diagnostics *)
Record mono (g g' : lstate) : Prop := mkMono {
  mo_keep : forall q, lookup q (l_map g) <> None -> lookup q (l_map g') = lookup q (l_map g);
  mo_oof : l_oof g = true -> l_oof g' = true;
  mo_diags : exists d, l_diags g' = l_diags g ++ d /\ Forall (fun x => include_class (dg_class x) = true) d;
  mo_log : exists t, l_log g' = l_log g ++ t
}.

Lemma mono_refl g : mono g g.
Proof. split; auto; exists []; rewrite app_nil_r; auto. Qed.

Lemma mono_trans g1 g2 g3 : mono g1 g2 -> mono g2 g3 -> mono g1 g3.
Proof.
  intros [k1 o1 [d1 [D1 F1]] [t1 T1]] [k2 o2 [d2 [D2 F2]] [t2 T2]]. split.
  - intros q Hq. rewrite k2, k1; auto. rewrite k1; auto.
  - auto.
  - exists (d1 ++ d2). rewrite D2, D1, app_assoc. split; [reflexivity|apply Forall_app; auto].
  - exists (t1 ++ t2). rewrite T2, T1, app_assoc. reflexivity.
Qed.

Lemma mono_set_map_fresh q v g : lookup q (l_map g) = None -> mono g (set_map q v g).
Proof.
  intros Hq. split; cbn; auto; try (exists []; rewrite app_nil_r; auto).
  intros q' Hq'. destruct (N.eqb_spec q' q) as [->|]; [congruence|reflexivity].
Qed.

Lemma mono_add_diag i p line c g : include_class c = true -> mono g (add_diag i p line c g).
Proof.
  intros Hc. unfold add_diag. destruct (has_diag_at i line (l_diags g)); [apply mono_refl|].
  split; cbn; auto; [eexists; split; [reflexivity|constructor; [exact Hc|constructor]]|exists []; rewrite app_nil_r; reflexivity].
Qed.

Lemma mono_add_log p g : mono g (add_log p g).
Proof. split; cbn; auto; [exists []; rewrite app_nil_r; auto|eexists; reflexivity]. Qed.

Lemma mono_set_oof g : mono g (set_oof g).
Proof. split; cbn; auto; exists []; rewrite app_nil_r; auto. Qed.

Lemma add_diag_keeps {i p line c g} :
  l_map (add_diag i p line c g) = l_map g /\ l_log (add_diag i p line c g) = l_log g /\ l_oof (add_diag i p line c g) = l_oof g.
Proof. unfold add_diag. destruct (has_diag_at _ _ _); auto. Qed.

Lemma add_diag_nonempty i p line c g : l_diags (add_diag i p line c g) <> [].
Proof.
  unfold add_diag. destruct (has_diag_at i line (l_diags g)) eqn:E; cbn.
  - destruct (l_diags g); [cbn in E; discriminate|discriminate].
  - destruct (l_diags g); discriminate.
Qed.

Lemma diags_nil_mono g g' : mono g g' -> l_diags g' = [] -> l_diags g = [].
Proof. intros [_ _ [d [Hd _]] _] H. rewrite Hd in H. apply app_eq_nil in H. tauto. Qed.

Lemma oof_false_mono g g' : mono g g' -> l_oof g' = false -> l_oof g = false.
Proof. intros [_ o _ _] H. destruct (l_oof g); [rewrite o in H; auto|reflexivity]. Qed.

Ltac dfoldg g r E :=
  match goal with
  | |- context [fold_left ?f ?l ?a] => destruct (fold_left f l a) as [g r] eqn:E
  end.

Section Proofs.
  Variable fs : fsys.

  Notation RS := (path -> lstate -> lstate * option resolved).

  (* the four ways a target of an import statement is dealt with *)
  Lemma resolve_single_cases {rs : RS} {inst p line g ms q g' ms'} :
    resolve_single rs inst p line (g, ms) q = (g', ms') ->
    (exists r, lookup q (l_map g) = Some (Some r) /\ g' = g /\ ms' = ms ++ [q]) \/
    (lookup q (l_map g) = Some None /\ g' = add_diag inst p line DCircular g /\ ms' = ms) \/
    (lookup q (l_map g) = None /\ exists g1 r, rs q (set_map q None g) = (g1, r) /\
       match r with
       | Some res => g' = set_map q (Some res) g1 /\ ms' = ms ++ [q]
       | None => g' = add_diag inst p line DLoadFail g1 /\ ms' = ms
       end).
  Proof.
    unfold resolve_single. destruct (lookup q (l_map g)) as [[r|]|].
    - intros E; injection E as <- <-. left. eauto.
    - intros E; injection E as <- <-. right; left. auto.
    - destruct (rs q (set_map q None g)) as [g1 [res|]] eqn:E1; intros E; injection E as <- <-;
        right; right; (split; [reflexivity|]); eexists; eexists; (split; [reflexivity|split; reflexivity]).
  Qed.

  Lemma load_import_inv {rs : RS} {inst p g res i g1 res1} :
    load_import fs rs inst p (g, res) i = (g1, res1) ->
    exists ms, fold_left (resolve_single rs inst p (i_line i)) (targets fs i) (g, []) = (g1, ms) /\
               res1 = res ++ [(i_line i, ms)].
  Proof.
    unfold load_import. dfoldg g2 ms E1. intros E; injection E as <- <-. eauto.
  Qed.

  Lemma parse_S f p g :
    parse fs (S f) p g =
    match lookup p (fs_files fs) with
    | None => (g, None)
    | Some src =>
        let '(g', res) := fold_left (load_import fs (parse fs f) (N.of_nat (length (l_log g))) p) (imports_of src) (add_log p g, []) in
        (g', Some res)
    end.
  Proof. reflexivity. Qed.

  (* a property of the loader state that handling one target preserves is preserved by import statements *)
  Lemma imports_inv {rs : RS} (J : lstate -> Prop) {inst p is g res g' res'} :
    (forall i q line g ms g' ms', In i is -> In q (targets fs i) -> J g ->
                                   resolve_single rs inst p line (g, ms) q = (g', ms') -> J g') ->
    J g -> fold_left (load_import fs rs inst p) is (g, res) = (g', res') -> J g'.
  Proof.
    intros Hstep Hg E. apply (fold_left_pair (fun _ g1 _ => J g1) E); [exact Hg|].
    intros _ i g1 res1 g2 res2 Hi E2 H1. destruct (load_import_inv E2) as [ms [E3 _]].
    apply (fold_left_pair (fun _ g3 _ => J g3) E3); [exact H1|].
    intros _ q g3 ms3 g4 ms4 Hq E4 H3. exact (Hstep _ _ _ _ _ _ _ Hi Hq H3 E4).
  Qed.

  (* resolve_single and load_import take the recursive Parse as a parameter rs. Each property of the loader is
     therefore proved in three steps: a predicate rs_X on that parameter; resolve_single_X (and what the loops need)
     for every rs with rs_X; parse_X : rs_X (parse fs f) by induction on the fuel, whose step feeds the induction
     hypothesis back into resolve_single_X. *)
  Definition rs_mono (rs : RS) : Prop := forall q g g' r, rs q g = (g', r) -> mono g g'.

  Lemma resolve_single_mono {rs inst p line g ms q g' ms'} :
    rs_mono rs -> resolve_single rs inst p line (g, ms) q = (g', ms') -> mono g g'.
  Proof.
    intros Hrs E.
    destruct (resolve_single_cases E) as [[r [Hq [-> _]]]|[[Hq [-> _]]|[Hq [g1 [[res|] [E1 [-> _]]]]]]].
    - apply mono_refl.
    - apply mono_add_diag. reflexivity.
    - pose proof (mono_trans _ _ _ (mono_set_map_fresh q None g Hq) (Hrs _ _ _ _ E1)) as [k o d t].
      split; cbn; auto.
      intros q' Hq'. destruct (N.eqb_spec q' q) as [->|Hne]; [congruence|]. apply k; exact Hq'.
    - eapply mono_trans; [apply (mono_set_map_fresh q None g Hq)|].
      eapply mono_trans; [exact (Hrs _ _ _ _ E1)|apply mono_add_diag; reflexivity].
  Qed.

  Lemma fold_load_import_mono {rs inst p is g res g' res'} :
    rs_mono rs -> fold_left (load_import fs rs inst p) is (g, res) = (g', res') -> mono g g'.
  Proof.
    intros Hrs. apply (imports_inv (mono g)); [|apply mono_refl].
    intros _ q line g1 ms1 g2 ms2 _ _ H E2. exact (mono_trans _ _ _ H (resolve_single_mono Hrs E2)).
  Qed.

  Lemma load_import_mono {rs inst p g res i g' res'} :
    rs_mono rs -> load_import fs rs inst p (g, res) i = (g', res') -> mono g g'.
  Proof. intros Hrs E. exact (fold_load_import_mono (is := [i]) Hrs E). Qed.

  Lemma parse_mono fuel : rs_mono (parse fs fuel).
  Proof.
    induction fuel as [|f IH]; intros q g g' r; [cbn [parse]|rewrite parse_S].
    - intros E; injection E as <- <-. apply mono_set_oof.
    - destruct (lookup q (fs_files fs)) as [src|].
      + dfoldg g1 res E1. intros E; injection E as <- <-.
        exact (mono_trans _ _ _ (mono_add_log q g) (fold_load_import_mono IH E1)).
      + intros E; injection E as <- <-. apply mono_refl.
  Qed.

  (* the number of files bounds the nesting depth *)
  Definition files : list path := map fst (fs_files fs).
  Definition keys (g : lstate) : list path := map fst (l_map g).

  (* l lists (at least) the existing files that have no entry in the map yet *)
  Definition covers (l : list path) (g : lstate) : Prop :=
    forall x, In x files -> ~ In x (keys g) -> In x l.

  Lemma in_keys_lookup g x : In x (keys g) <-> lookup x (l_map g) <> None.
  Proof.
    pose proof (lookup_none_keys x (l_map g)) as H. fold (keys g) in H.
    destruct (in_dec N.eq_dec x (keys g)); destruct (lookup x (l_map g)); intuition congruence.
  Qed.

  Lemma keys_mono g g' x : mono g g' -> In x (keys g) -> In x (keys g').
  Proof.
    intros [k _ _ _] Hin. apply in_keys_lookup. apply in_keys_lookup in Hin. rewrite k; auto.
  Qed.

  Lemma covers_mono l g g' : mono g g' -> covers l g -> covers l g'.
  Proof.
    intros Hm Hc x Hx Hn. apply Hc; [exact Hx|]. intros Hin. apply Hn. eapply keys_mono; eauto.
  Qed.

  Lemma lookup_files_in q : lookup q (fs_files fs) <> None -> In q files.
  Proof.
    intros H. destruct (lookup q (fs_files fs)) eqn:E; [|congruence]. exact (in_map fst _ _ (lookup_In _ _ _ E)).
  Qed.

  (* rs returns at once on a missing file, and does not run out of fuel on an existing one as long as fewer
     than n existing files are still without an entry *)
  Definition rs_fuel_ok (rs : RS) (n : nat) : Prop :=
    (forall q g, lookup q (fs_files fs) = None -> rs q g = (g, None)) /\
    (forall q g l, lookup q (fs_files fs) <> None -> l_oof g = false -> covers l g -> length l < n ->
                   In q (keys g) -> l_oof (fst (rs q g)) = false).

  Definition fuel_inv (l : list path) (g : lstate) : Prop := l_oof g = false /\ covers l g.

  Lemma resolve_single_fuel {rs n inst p line g ms q l g' ms'} :
    rs_mono rs -> rs_fuel_ok rs n -> length l <= n -> fuel_inv l g ->
    resolve_single rs inst p line (g, ms) q = (g', ms') -> fuel_inv l g'.
  Proof.
    intros Hm [Hmiss Hrs] Hlen [Ho Hc] E.
    split; [|exact (covers_mono _ _ _ (resolve_single_mono Hm E) Hc)].
    destruct (resolve_single_cases E) as [[r [Hq [-> _]]]|[[Hq [-> _]]|[Hq [g1 [r [E1 Hr]]]]]].
    - exact Ho.
    - rewrite (proj2 (proj2 (add_diag_keeps))). exact Ho.
    - assert (Hstep : l_oof g1 = false).
      { destruct (lookup q (fs_files fs)) eqn:Hf; [|rewrite (Hmiss _ _ Hf) in E1; injection E1 as <- _; exact Ho].
        (* q is an existing file without entry: it leaves the list *)
        assert (Hin : In q l) by (apply Hc; [apply lookup_files_in; congruence|apply lookup_none_keys; exact Hq]).
        change g1 with (fst (g1, r)). rewrite <- E1. apply (Hrs q (set_map q None g) (remove N.eq_dec q l)); auto.
        - congruence.
        - intros x Hx Hn. apply in_in_remove.
          + intros ->. apply Hn. left; reflexivity.
          + apply Hc; [exact Hx|]. intros Hk. apply Hn. right. exact Hk.
        - eapply Nat.lt_le_trans; [apply (remove_length_lt N.eq_dec l q Hin)|exact Hlen].
        - left; reflexivity. }
      destruct r as [res|]; destruct Hr as [-> _]; [exact Hstep|].
      rewrite (proj2 (proj2 (add_diag_keeps))). exact Hstep.
  Qed.

  Lemma parse_S_fuel f n p g l src g' res :
    rs_fuel_ok (parse fs f) n -> length l <= n -> fuel_inv l g ->
    fold_left (load_import fs (parse fs f) (N.of_nat (length (l_log g))) p) (imports_of src) (add_log p g, []) = (g', res) ->
    l_oof g' = false.
  Proof.
    intros Hrs Hlen [Ho Hc] E.
    refine (proj1 (imports_inv (fuel_inv l) _ _ E)).
    - intros _ q line g1 ms1 g2 ms2 _ _ H E2. exact (resolve_single_fuel (parse_mono f) Hrs Hlen H E2).
    - split; [exact Ho|exact (covers_mono _ _ _ (mono_add_log p g) Hc)].
  Qed.

  Lemma parse_fuel_ok f : rs_fuel_ok (parse fs (S f)) f.
  Proof.
    induction f as [|f IH]; (split; [intros q g Hf; rewrite parse_S, Hf; reflexivity|]).
    - intros q g l _ _ _ Hlen. lia.
    - intros q g l Hf Ho Hc Hlen Hq. rewrite parse_S.
      destruct (lookup q (fs_files fs)) as [src|]; [|congruence]. dfoldg g' res E1.
      apply (parse_S_fuel _ f q g l src g' res IH); [lia|split; assumption|exact E1].
  Qed.

  Theorem load_fuel_ok (root : path) : l_oof (fst (load fs root)) = false.
  Proof.
    unfold load, load_fuel. rewrite parse_S.
    destruct (lookup root (fs_files fs)) as [src|]; [|reflexivity]. dfoldg g' res E1.
    apply (parse_S_fuel _ (length (fs_files fs)) root init_l files src g' res (parse_fuel_ok _)); [|split|exact E1].
    - unfold files. rewrite map_length. apply Nat.le_refl.
    - reflexivity.
    - intros x Hx _. exact Hx.
  Qed.

  (* every path is parsed at most once through imports: the log without its head has no duplicates *)
  Definition logok (g : lstate) : Prop :=
    NoDup (tl (l_log g)) /\ (forall x, In x (tl (l_log g)) -> In x (keys g)) /\ l_log g <> [].

  Definition rs_log (rs : RS) : Prop :=
    forall q g g' r, rs q g = (g', r) -> logok g -> In q (keys g) -> ~ In q (tl (l_log g)) -> logok g'.

  Lemma logok_same_log g g' : l_log g' = l_log g -> (forall x, In x (keys g) -> In x (keys g')) -> logok g -> logok g'.
  Proof. intros El Hk [H1 [H2 H3]]. unfold logok. rewrite El. auto. Qed.

  Lemma logok_add_diag i p line c g : logok g -> logok (add_diag i p line c g).
  Proof.
    destruct (@add_diag_keeps i p line c g) as [Em [El _]].
    apply logok_same_log; [exact El|]. unfold keys. rewrite Em. auto.
  Qed.

  Lemma logok_set_map q v g : logok g -> logok (set_map q v g).
  Proof. apply logok_same_log; [reflexivity|]. intros x Hx. right; exact Hx. Qed.

  Lemma resolve_single_log {rs inst p line g ms q g' ms'} :
    rs_log rs -> logok g -> resolve_single rs inst p line (g, ms) q = (g', ms') -> logok g'.
  Proof.
    intros Hrs Hl E.
    destruct (resolve_single_cases E) as [[r [Hq [-> _]]]|[[Hq [-> _]]|[Hq [g1 [r [E1 Hr]]]]]].
    - exact Hl.
    - apply logok_add_diag. exact Hl.
    - assert (Hl1 : logok g1).
      { apply (Hrs _ _ _ _ E1 (logok_set_map q None g Hl)); [left; reflexivity|].
        cbn. intros Hin. apply (proj1 (proj2 Hl)) in Hin. apply lookup_none_keys in Hq. auto. }
      destruct r as [res|]; destruct Hr as [-> _]; [apply logok_set_map|apply logok_add_diag]; exact Hl1.
  Qed.

  Lemma parse_log f : rs_log (parse fs f).
  Proof.
    induction f as [|f IH]; intros q g g' r; [cbn [parse]|rewrite parse_S].
    - intros E; injection E as <- <-. intros Hl _ _. exact Hl.
    - destruct (lookup q (fs_files fs)) as [src|]; [|intros E; injection E as <- <-; auto].
      dfoldg g1 res E1. intros E; injection E as <- <-. intros [H1 [H2 H3]] Hq Hn.
      refine (imports_inv logok _ _ E1);
        [intros _ t line g2 ms2 g3 ms3 _ _ H E2; exact (resolve_single_log IH H E2)|].
      unfold logok. cbn [add_log l_log].
      destruct (l_log g) as [|h t] eqn:El; [congruence|]. cbn [tl app] in *.
      split; [apply NoDup_snoc; auto|split; [|discriminate]].
      intros x Hx. apply in_app_or in Hx. destruct Hx as [Hx|[<-|[]]]; auto.
  Qed.

  (* C10: the root is parsed first; no other call of Parse repeats a path *)
  Theorem load_once (root : path) (src : list stmt) :
    lookup root (fs_files fs) = Some src ->
    exists t, l_log (fst (load fs root)) = root :: t /\ NoDup t.
  Proof.
    intros Hf. unfold load, load_fuel. rewrite parse_S, Hf.
    dfoldg g' res E1. cbn [fst].
    assert (Hl : logok g').
    { refine (imports_inv logok _ _ E1);
        [intros _ t line g2 ms2 g3 ms3 _ _ H E2; exact (resolve_single_log (parse_log _) H E2)|].
      unfold logok. cbn. split; [constructor|split; [tauto|discriminate]]. }
    destruct Hl as [H1 _]. destruct (fold_load_import_mono (parse_mono _) E1) as [_ _ _ [t Ht]].
    cbn [add_log l_log init_l app] in Ht. rewrite Ht in *. cbn [tl] in H1. eauto.
  Qed.

  Theorem load_missing_root (root : path) :
    lookup root (fs_files fs) = None -> load fs root = (init_l, None).
  Proof. intros Hf. unfold load, load_fuel. rewrite parse_S, Hf. reflexivity. Qed.

  (* the module objects form a DAG: an entry Some res is only written over the module's own placeholder,
     and everything it refers to was finished before *)
  Definition finished (m : list (path * option resolved)) (x : path) : Prop :=
    exists r, lookup x m = Some (Some r).

  Fixpoint wfmap (m : list (path * option resolved)) : Prop :=
    match m with
    | [] => True
    | (q, None) :: t => lookup q t = None /\ wfmap t
    | (q, Some res) :: t =>
        lookup q t = Some None /\ (forall x, In x (flat_map snd res) -> finished t x) /\ wfmap t
    end.

  Definition edge (m : list (path * option resolved)) (q x : path) : Prop :=
    exists res, lookup q m = Some (Some res) /\ In x (flat_map snd res).

  Fixpoint rank (m : list (path * option resolved)) (q : path) : nat :=
    match m with
    | [] => 0
    | (k, _) :: t => if N.eqb q k then S (length t) else rank t q
    end.

  Lemma rank_le m q : rank m q <= length m.
  Proof.
    induction m as [|[k v] t IH]; cbn [rank length]; [lia|]. destruct (N.eqb q k); lia.
  Qed.

  Lemma wfmap_tail k v t : wfmap ((k, v) :: t) -> wfmap t /\ forall r, lookup k t <> Some (Some r).
  Proof. destruct v as [res|]; cbn [wfmap]; intros H; (split; [tauto|]); intros r0; destruct H as [H _]; congruence. Qed.

  Lemma edge_child_finished m q x : wfmap m -> edge m q x -> finished m x.
  Proof.
    induction m as [|[k v] t IH]; intros Hwf [res [Hl Hin]]; cbn [lookup] in Hl; [discriminate|].
    destruct (wfmap_tail _ _ _ Hwf) as [Hw Hk].
    assert (Hx : finished t x).
    { destruct (N.eqb_spec q k) as [->|Hne]; [|apply IH; [exact Hw|exists res; auto]].
      injection Hl as ->. exact (proj1 (proj2 Hwf) _ Hin). }
    destruct Hx as [r Hr]. exists r. cbn [lookup].
    destruct (N.eqb_spec x k) as [->|]; [exfalso; eapply Hk; eauto|exact Hr].
  Qed.

  Lemma rank_edge m q x : wfmap m -> edge m q x -> rank m x < rank m q.
  Proof.
    induction m as [|[k v] t IH]; intros Hwf He; [destruct He as [res [Hl _]]; discriminate|].
    pose proof (edge_child_finished _ _ _ Hwf He) as [rx Hfx].
    destruct (wfmap_tail _ _ _ Hwf) as [Hw Hk].
    destruct He as [res [Hl Hin]]. cbn [lookup rank] in *.
    destruct (N.eqb_spec q k) as [->|Hne].
    - destruct (N.eqb_spec x k) as [->|Hxk]; [|pose proof (rank_le t x); lia].
      injection Hl as ->. destruct (proj1 (proj2 Hwf) _ Hin) as [r Hr]. exfalso. exact (Hk r Hr).
    - assert (He : edge t q x) by (exists res; auto).
      destruct (N.eqb_spec x k) as [->|Hxk]; [|apply IH; assumption].
      (* an older module cannot refer to k: k's entry in t is the placeholder or absent *)
      destruct (edge_child_finished _ _ _ Hw He) as [r Hr]. exfalso. exact (Hk r Hr).
  Qed.

  Theorem wfmap_acyclic m : wfmap m -> forall q, ~ clos_trans _ (edge m) q q.
  Proof. intros Hwf. apply (rank_acyclic _ (rank m)). intros a b. apply rank_edge. exact Hwf. Qed.

  Definition all_finished (g : lstate) (l : list path) : Prop := forall x, In x l -> finished (l_map g) x.

  Lemma finished_mono g g' x : mono g g' -> finished (l_map g) x -> finished (l_map g') x.
  Proof. intros [k _ _ _] [r Hr]. exists r. rewrite k; congruence. Qed.

  Lemma all_finished_mono g g' l : mono g g' -> all_finished g l -> all_finished g' l.
  Proof. intros Hm H x Hx. exact (finished_mono _ _ x Hm (H x Hx)). Qed.

  Definition rs_wf (rs : RS) : Prop :=
    forall q g g' r, rs q g = (g', r) -> wfmap (l_map g) ->
                     wfmap (l_map g') /\ (forall res, r = Some res -> all_finished g' (flat_map snd res)).

  Lemma resolve_single_wf {rs inst p line g ms q g' ms'} :
    rs_mono rs -> rs_wf rs -> wfmap (l_map g) /\ all_finished g ms ->
    resolve_single rs inst p line (g, ms) q = (g', ms') -> wfmap (l_map g') /\ all_finished g' ms'.
  Proof.
    intros Hm Hrs [Hwf Hms] E. pose proof (resolve_single_mono Hm E) as Hmono.
    destruct (resolve_single_cases E) as [[r [Hq [-> ->]]]|[[Hq [-> ->]]|[Hq [g1 [r [E1 Hr]]]]]].
    - split; [exact Hwf|]. intros x Hx. apply in_app_or in Hx. destruct Hx as [Hx|[<-|[]]]; [auto|exists r; exact Hq].
    - rewrite (proj1 (add_diag_keeps)). split; [exact Hwf|exact (all_finished_mono _ _ _ Hmono Hms)].
    - destruct (Hrs _ _ _ _ E1 (conj Hq Hwf : wfmap (l_map (set_map q None g)))) as [Hwf1 Hres].
      destruct r as [res|]; destruct Hr as [-> ->].
      + assert (Hq1 : lookup q (l_map g1) = Some None).
        { rewrite (mo_keep _ _ (Hm _ _ _ _ E1)); cbn; rewrite N.eqb_refl; [reflexivity|discriminate]. }
        split; [exact (conj Hq1 (conj (Hres _ eq_refl) Hwf1))|].
        intros x Hx. apply in_app_or in Hx. destruct Hx as [Hx|[<-|[]]]; [exact (all_finished_mono _ _ _ Hmono Hms x Hx)|].
        exists res. cbn. rewrite N.eqb_refl. reflexivity.
      + rewrite (proj1 (add_diag_keeps)). split; [exact Hwf1|exact (all_finished_mono _ _ _ Hmono Hms)].
  Qed.

  Lemma load_import_wf {rs inst p g res i g' res'} :
    rs_mono rs -> rs_wf rs -> wfmap (l_map g) /\ all_finished g (flat_map snd res) ->
    load_import fs rs inst p (g, res) i = (g', res') -> wfmap (l_map g') /\ all_finished g' (flat_map snd res').
  Proof.
    intros Hm Hrs [Hwf Hres] E. pose proof (load_import_mono Hm E) as Hmono.
    destruct (load_import_inv E) as [ms [E1 ->]].
    assert (H : wfmap (l_map g') /\ all_finished g' ms).
    { apply (fold_left_pair (fun _ g1 ms1 => wfmap (l_map g1) /\ all_finished g1 ms1) E1); [split; [exact Hwf|intros x []]|].
      intros _ q g1 ms1 g2 ms2 _ E2 H. exact (resolve_single_wf Hm Hrs H E2). }
    split; [exact (proj1 H)|]. intros x Hx. rewrite flat_map_app in Hx. apply in_app_or in Hx.
    destruct Hx as [Hx|Hx]; [exact (all_finished_mono _ _ _ Hmono Hres x Hx)|].
    cbn [flat_map snd] in Hx. rewrite app_nil_r in Hx. exact (proj2 H x Hx).
  Qed.

  Lemma parse_wf f : rs_wf (parse fs f).
  Proof.
    induction f as [|f IH]; intros q g g' r; [cbn [parse]|rewrite parse_S].
    - intros E; injection E as <- <-. intros Hwf. split; [exact Hwf|discriminate].
    - destruct (lookup q (fs_files fs)) as [src|]; [|intros E; injection E as <- <-; intros Hwf; split; [exact Hwf|discriminate]].
      dfoldg g1 res E1. intros E; injection E as <- <-. intros Hwf.
      assert (H : wfmap (l_map g1) /\ all_finished g1 (flat_map snd res)).
      { apply (fold_left_pair (fun _ g2 res2 => wfmap (l_map g2) /\ all_finished g2 (flat_map snd res2)) E1);
          [split; [exact Hwf|intros x []]|].
        intros _ i g2 res2 g3 res3 _ E2 H. exact (load_import_wf (parse_mono _) IH H E2). }
      split; [exact (proj1 H)|]. intros res0 E0; injection E0 as <-. exact (proj2 H).
  Qed.

  Theorem load_wf (root : path) :
    wfmap (l_map (fst (load fs root))) /\
    (forall res, snd (load fs root) = Some res -> all_finished (fst (load fs root)) (flat_map snd res)).
  Proof.
    unfold load. destruct (parse fs (load_fuel fs) root init_l) as [g r] eqn:E.
    exact (parse_wf _ _ _ _ _ E I).
  Qed.

  Definition sedge (p q : path) : Prop :=
    exists src i, lookup p (fs_files fs) = Some src /\ In i (imports_of src) /\ In q (targets fs i).
  Definition sreach : path -> path -> Prop := clos_refl_trans _ sedge.
  Definition scycle (root : path) : Prop := exists p, sreach root p /\ clos_trans _ sedge p p.

  Lemma step_rt_trans a b c : sedge a b -> sreach b c -> clos_trans _ sedge a c.
  Proof.
    intros Hab Hbc. apply clos_rt_rtn1 in Hbc. induction Hbc as [|y z Hyz _ IH]; [apply t_step; exact Hab|].
    eapply t_trans; [exact IH|apply t_step; exact Hyz].
  Qed.

  Definition static_res (src : list stmt) : resolved := map (fun i => (i_line i, targets fs i)) (imports_of src).

  Lemma sedge_static p src q :
    lookup p (fs_files fs) = Some src -> (sedge p q <-> In q (flat_map snd (static_res src))).
  Proof.
    intros Hf. unfold static_res. rewrite flat_map_concat_map, map_map, <- flat_map_concat_map. cbn [snd].
    rewrite in_flat_map. split.
    - intros [src' [i [Hf' [Hi Hq]]]]. rewrite Hf in Hf'. injection Hf' as <-. eauto.
    - intros [i [Hi Hq]]. exists src, i. auto.
  Qed.

  (* without a diagnostic every import statement resolved all its targets *)
  Definition fullmap (g : lstate) : Prop :=
    forall q res, lookup q (l_map g) = Some (Some res) ->
                  exists src, lookup q (fs_files fs) = Some src /\ res = static_res src.

  Definition rs_full (rs : RS) : Prop :=
    forall q g g' r, rs q g = (g', r) -> l_diags g' = [] -> fullmap g ->
                     fullmap g' /\ (forall res, r = Some res -> exists src, lookup q (fs_files fs) = Some src /\ res = static_res src).

  Lemma resolve_single_full {rs inst p line g ms q g' ms'} :
    rs_full rs -> l_diags g' = [] -> fullmap g ->
    resolve_single rs inst p line (g, ms) q = (g', ms') -> fullmap g' /\ ms' = ms ++ [q].
  Proof.
    intros Hrs Hd Hg E.
    destruct (resolve_single_cases E) as [[r [Hq [-> ->]]]|[[Hq [-> ->]]|[Hq [g1 [[res|] [E1 [-> ->]]]]]]].
    - auto.
    - exfalso. eapply add_diag_nonempty; eauto.
    - assert (Hg0 : fullmap (set_map q None g)).
      { intros x r. cbn. destruct (N.eqb_spec x q); [discriminate|apply Hg]. }
      destruct (Hrs _ _ _ _ E1 Hd Hg0) as [Hg1 Hres]. split; [|reflexivity].
      intros x r. cbn. destruct (N.eqb_spec x q) as [->|]; [|apply Hg1].
      intros E0; injection E0 as <-. apply Hres. reflexivity.
    - exfalso. eapply add_diag_nonempty; eauto.
  Qed.

  Lemma load_import_full {rs inst p g res i g' res'} :
    rs_mono rs -> rs_full rs -> l_diags g' = [] -> fullmap g ->
    load_import fs rs inst p (g, res) i = (g', res') -> fullmap g' /\ res' = res ++ [(i_line i, targets fs i)].
  Proof.
    intros Hm Hrs Hd Hg E. destruct (load_import_inv E) as [ms [E1 ->]].
    assert (H : l_diags g' = [] -> fullmap g' /\ ms = [] ++ targets fs i).
    { apply (fold_left_pair (fun pre g1 ms1 => l_diags g1 = [] -> fullmap g1 /\ ms1 = [] ++ pre) E1); [auto|].
      intros pre q g1 ms1 g2 ms2 _ E2 H Hd2.
      destruct (H (diags_nil_mono _ _ (resolve_single_mono Hm E2) Hd2)) as [Hg1 ->].
      exact (resolve_single_full Hrs Hd2 Hg1 E2). }
    destruct (H Hd) as [Hg' ->]. auto.
  Qed.

  Lemma parse_full f : rs_full (parse fs f).
  Proof.
    induction f as [|f IH]; intros q g g' r; [cbn [parse]|rewrite parse_S].
    - intros E; injection E as <- <-. intros _ Hg. split; [exact Hg|discriminate].
    - destruct (lookup q (fs_files fs)) as [src|] eqn:Hf; [|intros E; injection E as <- <-; intros _ Hg; split; [exact Hg|discriminate]].
      dfoldg g1 res E1. intros E; injection E as <- <-. intros Hd Hg.
      assert (H : l_diags g1 = [] -> fullmap g1 /\ res = static_res src).
      { unfold static_res.
        apply (fold_left_pair (fun pre g2 res2 => l_diags g2 = [] -> fullmap g2 /\ res2 = map (fun i => (i_line i, targets fs i)) pre) E1); [auto|].
        intros pre i g2 res2 g3 res3 _ E2 H Hd3.
        destruct (H (diags_nil_mono _ _ (load_import_mono (parse_mono _) E2) Hd3)) as [Hg2 ->].
        rewrite map_app. exact (load_import_full (parse_mono _) IH Hd3 Hg2 E2). }
      destruct (H Hd) as [H1 ->]. split; [exact H1|]. intros res0 E0; injection E0 as <-. exists src. auto.
  Qed.

  (* where nothing was diagnosed, a finished module's static edges are edges of the module map, to finished modules *)
  Lemma sedge_edge g : fullmap g -> wfmap (l_map g) ->
    forall a b, finished (l_map g) a -> sedge a b -> edge (l_map g) a b /\ finished (l_map g) b.
  Proof.
    intros Hfull Hwf a b [ra Ha] Hab. destruct (Hfull _ _ Ha) as [src [Hsf ->]].
    assert (He : edge (l_map g) a b) by (exists (static_res src); split; [exact Ha|apply (sedge_static a src b Hsf); exact Hab]).
    split; [exact He|eapply edge_child_finished; eauto].
  Qed.

  (* C10: modules that import each other (a cycle of any length >= 1 that the root reaches) are diagnosed *)
  Theorem cycle_diagnosed (root : path) :
    lookup root (fs_files fs) <> None -> scycle root ->
    exists d, In d (l_diags (fst (load fs root))) /\ include_class (dg_class d) = true.
  Proof.
    intros Hroot [p [Hreach Hcyc]].
    destruct (load_wf root) as [Hwf Hmain]. unfold load in *.
    destruct (parse fs (load_fuel fs) root init_l) as [g r] eqn:E. cbn [fst snd] in *.
    destruct (l_diags g) as [|d ds] eqn:Hd.
    2:{ exists d. split; [left; reflexivity|]. destruct (mo_diags _ _ (parse_mono _ _ _ _ _ E)) as [d' [Ed F]].
        rewrite Hd in Ed. cbn in Ed. subst d'. exact (Forall_inv F). }
    exfalso.
    destruct (parse_full _ _ _ _ _ E Hd) as [Hfull Hres]; [intros x r0; discriminate|].
    destruct (lookup root (fs_files fs)) as [rsrc|] eqn:Hf; [|congruence].
    assert (Hr : r = Some (static_res rsrc)).
    { unfold load_fuel in E. rewrite parse_S, Hf in E. revert E. dfoldg g1 res1 E1. intros E; injection E as <- <-.
      destruct (Hres _ eq_refl) as [src' [Hs ->]]. congruence. }
    subst r. specialize (Hmain _ eq_refl).
    pose proof (sedge_edge g Hfull Hwf) as Hstep.
    (* the modules the root imports are finished, hence everything reachable from them, hence p *)
    assert (Hfin : forall a b, finished (l_map g) a \/ a = root -> sedge a b -> finished (l_map g) b).
    { intros a b [Ha| ->] Hab; [apply (Hstep a b Ha Hab)|apply Hmain, (sedge_static root rsrc b Hf), Hab]. }
    assert (Hplus : forall a b, clos_trans _ sedge a b -> finished (l_map g) a \/ a = root ->
                                finished (l_map g) b /\ (finished (l_map g) a -> clos_trans _ (edge (l_map g)) a b)).
    { intros a b H. apply clos_trans_t1n in H. induction H as [a b Hab|a b c Hab _ IH]; intros Ha.
      - split; [exact (Hfin a b Ha Hab)|]. intros Ha'. apply t_step. apply (Hstep a b Ha' Hab).
      - pose proof (Hfin a b Ha Hab) as Hb. destruct (IH (or_introl Hb)) as [Hc Hbc]. split; [exact Hc|].
        intros Ha'. eapply t_trans; [apply t_step; apply (Hstep a b Ha' Hab)|exact (Hbc Hb)]. }
    assert (Hp : finished (l_map g) p).
    { apply clos_rt_rt1n in Hreach. inversion Hreach as [|b c Hb Hrest]; subst.
      - apply (Hplus p p Hcyc). right; reflexivity.
      - apply (Hplus root p); [|right; reflexivity]. apply clos_rt1n_rt in Hrest. exact (step_rt_trans _ _ _ Hb Hrest). }
    exact (wfmap_acyclic _ Hwf p (proj2 (Hplus _ _ Hcyc (or_introl Hp)) Hp)).
  Qed.

  Section Acyclic.
    Variable root : path.
    Definition closed : Prop := forall p q, sreach root p -> sedge p q -> lookup q (fs_files fs) <> None.
    Hypothesis Hclosed : closed.
    Hypothesis Hacyc : ~ scycle root.

    (* every placeholder in the map belongs to a module being parsed *)
    Definition pending_in (g : lstate) (anc : list path) : Prop :=
      forall x, lookup x (l_map g) = Some None -> In x anc.

    (* as long as the fuel lasts: no diagnostic so far and no placeholder of a finished call left *)
    Definition clean (g : lstate) (anc : list path) : Prop := l_oof g = false -> l_diags g = [] /\ pending_in g anc.

    Definition rs_acyc (rs : RS) : Prop :=
      forall q g g' r anc, rs q g = (g', r) -> l_oof g' = false -> l_diags g = [] ->
        sreach root q -> lookup q (fs_files fs) <> None -> pending_in g anc -> (forall a, In a anc -> sreach a q) ->
        l_diags g' = [] /\ r <> None /\ pending_in g' anc.

    Lemma resolve_single_acyc {rs inst p line g ms t g' ms' anc} :
      rs_mono rs -> rs_acyc rs -> sreach root p -> sedge p t -> (forall a, In a anc -> sreach a p) ->
      clean g anc -> resolve_single rs inst p line (g, ms) t = (g', ms') -> clean g' anc.
    Proof.
      intros Hm Hrs Hp Hpt Hanc Hg E Ho.
      destruct (Hg (oof_false_mono _ _ (resolve_single_mono Hm E) Ho)) as [Hd Hpend].
      destruct (resolve_single_cases E) as [[r [Ht [-> _]]]|[[Ht [-> _]]|[Ht [g1 [r [E1 Hr]]]]]].
      - auto.
      - (* a placeholder: t is being parsed, so p reaches itself through t *)
        exfalso. apply Hacyc. exists p. split; [exact Hp|].
        apply Hpend in Ht. apply Hanc in Ht. exact (step_rt_trans _ _ _ Hpt Ht).
      - assert (Hp0 : pending_in (set_map t None g) (t :: anc)).
        { intros x. cbn. destruct (N.eqb_spec x t) as [->|]; [left; reflexivity|right; auto]. }
        assert (Hanc0 : forall a, In a (t :: anc) -> sreach a t).
        { intros a [<-|Ha]; [apply rt_refl|]. eapply rt_trans; [apply Hanc; exact Ha|apply rt_step; exact Hpt]. }
        assert (Ho1 : l_oof g1 = false).
        { destruct r; destruct Hr as [-> _]; [exact Ho|]. rewrite (proj2 (proj2 (add_diag_keeps))) in Ho. exact Ho. }
        destruct (Hrs _ _ _ _ (t :: anc) E1 Ho1 Hd (rt_trans _ _ _ _ _ Hp (rt_step _ _ _ _ Hpt)) (Hclosed p t Hp Hpt) Hp0 Hanc0)
          as [Hd1 [Hr1 Hp1]].
        destruct r as [res|]; [|congruence]. destruct Hr as [-> _].
        split; [exact Hd1|]. intros x. cbn. destruct (N.eqb_spec x t) as [->|Hne]; [discriminate|].
        intros Hx. destruct (Hp1 _ Hx) as [<-|Hin]; [congruence|exact Hin].
    Qed.

    Lemma parse_acyc f : rs_acyc (parse fs f).
    Proof.
      induction f as [|f IH]; intros q g g' r anc; [cbn [parse]|rewrite parse_S].
      - intros E; injection E as <- <-. cbn. discriminate.
      - destruct (lookup q (fs_files fs)) as [src|] eqn:Hf; [|intros _ _ _ _ H; congruence].
        dfoldg g1 res E1. intros E; injection E as <- <-. intros Ho Hd Hq _ Hpend Hanc.
        assert (H : clean g1 anc).
        { refine (imports_inv (fun g2 => clean g2 anc) _ ((fun _ => conj Hd Hpend) : clean (add_log q g) anc) E1).
          intros i t line g2 ms2 g3 ms3 Hi Ht H E2.
          refine (resolve_single_acyc (parse_mono _) IH Hq _ Hanc H E2). exists src, i. auto. }
        destruct (H Ho) as [Hd1 Hp1]. split; [exact Hd1|split; [discriminate|exact Hp1]].
    Qed.

    Theorem acyclic_no_diag :
      lookup root (fs_files fs) <> None -> l_diags (fst (load fs root)) = [].
    Proof.
      intros Hroot. pose proof (load_fuel_ok root) as Ho.
      unfold load in *. destruct (parse fs (load_fuel fs) root init_l) as [g r] eqn:E. cbn [fst] in *.
      destruct (parse_acyc _ _ _ _ _ [] E Ho) as [Hd _]; auto.
      - apply rt_refl.
      - intros x Hx. discriminate.
      - intros a [].
    Qed.
  End Acyclic.
End Proofs.
