(* C10 — the init-order model (Mod/InitOrder.v): the initialiser calls of the main module are the first occurrences,
   in the post-orders of its import targets one after the other, of the modules not yet imported. *)
From Coq Require Import List NArith Bool Lia Relations.
Import ListNotations.
From DDP Require Import Mod.Loader Mod.LoaderProofs Mod.ResolveFacts Mod.InitOrder.

Section InstrInd.
  Variable P : instr -> Prop.
  Hypothesis Hinit : forall q, P (ICallInit q).
  Hypothesis Hvar : forall p n, P (IInitVar p n).
  Hypothesis Hmark : forall p t, P (IMark p t).
  Hypothesis Hfn : forall q n body, Forall P body -> P (ICallFn q n body).
  Hypothesis Hrv : forall q n, P (IReadVar q n).
  Hypothesis Hrc : forall q n, P (IReadConst q n).
  Hypothesis Hty : forall q n, P (IUseType q n).
  Hypothesis Hblock : forall c body, Forall P body -> P (IBlock c body).

  Fixpoint instr_ind' (x : instr) : P x :=
    match x with
    | ICallInit q => Hinit q
    | IInitVar p n => Hvar p n
    | IMark p t => Hmark p t
    | ICallFn q n body => Hfn q n body (Forall_all P instr_ind' body)
    | IReadVar q n => Hrv q n
    | IReadConst q n => Hrc q n
    | IUseType q n => Hty q n
    | IBlock c body => Hblock c body (Forall_all P instr_ind' body)
    end.
End InstrInd.

Fixpoint einits (tr : list event) : list path :=
  match tr with
  | [] => []
  | EInit q :: t => q :: einits t
  | _ :: t => einits t
  end.

Lemma einits_app a b : einits (a ++ b) = einits a ++ einits b.
Proof. induction a as [|e a IH]; cbn [app einits]; [reflexivity|]. destruct e; cbn [app]; rewrite IH; reflexivity. Qed.

Lemma einits_In q tr : In q (einits tr) <-> In (EInit q) tr.
Proof.
  induction tr as [|e tr IH]; cbn [einits In]; [tauto|].
  destruct e; cbn [In]; try (split; [intros H; right; apply IH; exact H|intros [H|H]; [discriminate|apply IH; exact H]]).
  split; (intros [H|H]; [left; congruence|right; apply IH; exact H]).
Qed.

Lemma einits_none tr : (forall q, ~ In (EInit q) tr) -> einits tr = [].
Proof.
  intros H. destruct (einits tr) as [|q l] eqn:E; [reflexivity|].
  exfalso. apply (H q). apply einits_In. rewrite E. left; reflexivity.
Qed.

(* code that calls no module initialiser (anywhere inside) *)
Fixpoint noinit (x : instr) : Prop :=
  match x with
  | ICallInit _ => False
  | ICallFn _ _ body => (fix go (l : list instr) : Prop := match l with [] => True | y :: t => noinit y /\ go t end) body
  | IBlock _ body => (fix go (l : list instr) : Prop := match l with [] => True | y :: t => noinit y /\ go t end) body
  | _ => True
  end.
Definition noinit_l (l : list instr) : Prop := Forall noinit l.

Lemma noinit_body body :
  (fix go (l : list instr) : Prop := match l with [] => True | y :: t => noinit y /\ go t end) body <-> noinit_l body.
Proof.
  unfold noinit_l. induction body as [|y t IH]; [split; constructor|]. rewrite Forall_cons_iff, IH. reflexivity.
Qed.
Lemma noinit_fn q n body : noinit (ICallFn q n body) <-> noinit_l body.
Proof. apply noinit_body. Qed.
Lemma noinit_block c body : noinit (IBlock c body) <-> noinit_l body.
Proof. apply noinit_body. Qed.

Section RunFacts.
  Variable vars_of : path -> list name.

  Lemma run_eq l st : run vars_of l st = fold_left (fun st y => run_instr vars_of y st) l st.
  Proof. revert st. induction l as [|y t IH]; intros st; cbn [run fold_left]; auto. Qed.

  Lemma run_instr_fn q n body s tr :
    run_instr vars_of (ICallFn q n body) (s, tr) = run vars_of body (s, tr ++ [EFn q n]).
  Proof.
    cbn [run_instr]. generalize (s, tr ++ [EFn q n]). induction body as [|y t IH]; intros st; cbn [run]; auto.
  Qed.

  Lemma run_instr_block c body st :
    run_instr vars_of (IBlock c body) st =
    match c with
    | CRepeat k => iter k (run vars_of body) st
    | CIf true => run vars_of body st
    | CIf false => st
    end.
  Proof.
    destruct st as [s tr]. cbn [run_instr].
    assert (H : forall st, (fix go (l : list instr) (st : store * list event) : store * list event :=
                              match l with [] => st | y :: t => go t (run_instr vars_of y st) end) body st = run vars_of body st).
    { induction body as [|y t IH]; intros st; cbn [run]; auto. }
    destruct c as [k|[|]]; auto.
  Qed.

  Lemma run_app l1 l2 st : run vars_of (l1 ++ l2) st = run vars_of l2 (run vars_of l1 st).
  Proof. revert st. induction l1 as [|y t IH]; intros st; cbn [run app]; auto. Qed.

  (* st' continues the trace of st, and by no init event if `quiet` holds. `quiet` is the init-freeness of the code
     that ran: a proposition, so that an instruction, a body and a list of instructions share one relation *)
  Definition extends (quiet : Prop) (st st' : store * list event) : Prop :=
    exists new, snd st' = snd st ++ new /\ (quiet -> einits new = []).

  Lemma extends_refl Q st : extends Q st st.
  Proof. exists []. rewrite app_nil_r. auto. Qed.

  Lemma extends_trans Q st1 st2 st3 : extends Q st1 st2 -> extends Q st2 st3 -> extends Q st1 st3.
  Proof.
    intros [n1 [E1 H1]] [n2 [E2 H2]]. exists (n1 ++ n2). rewrite E2, E1, app_assoc. split; [reflexivity|].
    intros HQ. rewrite einits_app, (H1 HQ), (H2 HQ). reflexivity.
  Qed.

  Lemma extends_weaken (Q Q' : Prop) st st' : (Q' -> Q) -> extends Q st st' -> extends Q' st st'.
  Proof. intros H [n [E Hn]]. exists n. auto. Qed.

  Lemma run_extends_of l : Forall (fun x => forall st, extends (noinit x) st (run_instr vars_of x st)) l ->
    forall st, extends (noinit_l l) st (run vars_of l st).
  Proof.
    induction 1 as [|y t Hy _ IHt]; intros st; cbn [run]; [apply extends_refl|].
    eapply extends_trans; [eapply extends_weaken; [|apply Hy]|eapply extends_weaken; [|apply IHt]].
    - apply Forall_inv.
    - apply Forall_inv_tail.
  Qed.

  Lemma run_instr_extends x : forall st, extends (noinit x) st (run_instr vars_of x st).
  Proof.
    assert (Hone : forall Q (st st' : store * list event) e, snd st' = snd st ++ [e] -> einits [e] = [] -> extends Q st st').
    { intros Q st st' e E He. exists [e]. auto. }
    induction x as [q|p n|p t|q n body IH|q n|q n|q n|c body IH] using instr_ind'; intros [s tr].
    - eexists. split; [reflexivity|intros []].
    - apply (Hone _ _ _ (EInitVar p n)); reflexivity.
    - apply (Hone _ _ _ (EMark p t)); reflexivity.
    - rewrite run_instr_fn.
      destruct (run_extends_of body IH (s, tr ++ [EFn q n])) as [new [E Hn]]. cbn [snd] in E.
      exists (EFn q n :: new). cbn [snd]. rewrite E, <- app_assoc. split; [reflexivity|].
      intros H. apply noinit_fn in H. exact (Hn H).
    - apply (Hone _ _ _ (EVal q n (mem_store q n s))); reflexivity.
    - apply (Hone _ _ _ (EConst q n)); reflexivity.
    - apply (Hone _ _ _ (EType q n)); reflexivity.
    - rewrite run_instr_block. apply (extends_weaken (noinit_l body)); [apply noinit_block|].
      destruct c as [k|[|]]; [|apply run_extends_of, IH|apply extends_refl].
      generalize (s, tr). induction k as [|k IHk]; intros st; cbn [iter]; [apply extends_refl|].
      eapply extends_trans; [apply run_extends_of, IH|apply IHk].
  Qed.

  Lemma run_extends l : forall st, extends (noinit_l l) st (run vars_of l st).
  Proof. apply run_extends_of. apply Forall_forall. intros x _. apply run_instr_extends. Qed.

  Lemma run_noinit code : noinit_l code -> forall st, einits (snd (run vars_of code st)) = einits (snd st).
  Proof.
    intros Hn st. destruct (run_extends code st) as [new [E Hnew]]. rewrite E, einits_app, (Hnew Hn). apply app_nil_r.
  Qed.
End RunFacts.

Section Ordered.
  Variable G : path -> list path.

  (* every element's successors stand before it in `out`, or in `done` *)
  Fixpoint ordered_in (done out : list path) : Prop :=
    match out with
    | [] => True
    | x :: t => (forall y, In y (G x) -> In y done) /\ ordered_in (x :: done) t
    end.

  Lemma ordered_in_incl out : forall d d', (forall y, In y d -> In y d') -> ordered_in d out -> ordered_in d' out.
  Proof.
    induction out as [|x t IH]; intros d d' Hd; cbn [ordered_in]; [auto|]. intros [H1 H2]. split; [auto|].
    apply (IH (x :: d)); [|exact H2]. intros y [<-|Hy]; [left; reflexivity|right; auto].
  Qed.

  Lemma ordered_in_app a : forall d b, ordered_in d (a ++ b) <-> ordered_in d a /\ ordered_in (rev a ++ d) b.
  Proof.
    induction a as [|x a IH]; intros d b; cbn [app ordered_in rev]; [tauto|].
    rewrite IH, <- app_assoc. cbn [app]. tauto.
  Qed.

  Lemma ordered_in_elt d l1 x l2 y : ordered_in d (l1 ++ x :: l2) -> In y (G x) -> In y l1 \/ In y d.
  Proof.
    intros H Hy. apply ordered_in_app in H. destruct H as [_ [H _]].
    apply H, in_app_or in Hy. rewrite <- in_rev in Hy. exact Hy.
  Qed.

  Lemma ordered_in_closed out : forall d x y, ordered_in d out -> In x out -> In y (G x) -> In y out \/ In y d.
  Proof.
    intros d x y H Hx Hy. apply in_split in Hx. destruct Hx as [l1 [l2 ->]].
    destruct (ordered_in_elt _ _ _ _ _ H Hy); [left; apply in_or_app; left|right]; assumption.
  Qed.

  Lemma ordered_in_snoc out m : ordered_in [] out -> (forall y, In y (G m) -> In y out) -> ordered_in [] (out ++ [m]).
  Proof.
    intros Ho Hm. apply ordered_in_app. split; [exact Ho|]. split; [|exact I].
    intros y Hy. rewrite app_nil_r, <- in_rev. auto.
  Qed.

End Ordered.

Section Reach.
  Variable G : path -> list path.
  Definition reach : path -> path -> Prop := clos_refl_trans _ (fun a b => In b (G a)).
End Reach.

(* IterateModuleImports on a graph that decreases a rank (the module objects: see load_wf) *)
Section DfsFacts.
  Variable G : path -> list path.
  Variable rk : path -> nat.
  Hypothesis Hrk : forall m n, In n (G m) -> rk n < rk m.

  Definition dinv (anc : list path) (st : list path * list path) : Prop :=
    (forall x, In x (fst st) <-> In x (snd st) \/ In x anc) /\ ordered_in G [] (snd st).

  Lemma dfs_spec fuel : forall vis out anc m,
    dinv anc (vis, out) -> (forall a, In a anc -> rk m < rk a) -> rk m < fuel ->
    dinv anc (dfs G fuel (vis, out) m) /\ In m (snd (dfs G fuel (vis, out) m)) /\
    (exists new, snd (dfs G fuel (vis, out) m) = out ++ new /\ forall x, In x new -> reach G m x).
  Proof.
    induction fuel as [|f IH]; intros vis out anc m Hinv Hanc Hfuel; [lia|].
    cbn [dfs]. destruct (memN m vis) eqn:Hmem.
    - apply memN_In in Hmem. destruct Hinv as [Hv Ho]. cbn [fst snd] in *.
      apply Hv in Hmem. destruct Hmem as [Hm|Hm]; [|specialize (Hanc _ Hm); lia].
      split; [split; auto|split; [exact Hm|exists []; rewrite app_nil_r; split; [reflexivity|intros x []]]].
    - destruct Hinv as [Hv Ho]. cbn [fst snd] in *.
      (* the loop over the successors: those it has been through are in the output *)
      destruct (fold_left_ind (dfs G f)
                  (fun pre r => dinv (m :: anc) r /\ (forall c, In c pre -> In c (snd r)) /\
                                exists new, snd r = out ++ new /\ forall x, In x new -> reach G m x)
                  (G m) (m :: vis, out)) as [[Hv2 Ho2] [Hin2 [new2 [En2 Hr2]]]].
      { split; [split; [|exact Ho]; intros x; cbn [fst snd In]; rewrite Hv; tauto|].
        split; [intros c []|]. exists []. rewrite app_nil_r. split; [reflexivity|intros x []]. }
      { intros pre c [vis1 out1] Hc [Hi1 [Hin1 [new1 [En1 Hr1]]]]. pose proof (Hrk _ _ Hc) as Hlt.
        destruct (IH vis1 out1 (m :: anc) c Hi1) as [Hi2 [Hc2 [new2 [En2 Hr2]]]]; [|lia|].
        { intros a [<-|Ha]; [exact Hlt|]. specialize (Hanc _ Ha). lia. }
        destruct (dfs G f (vis1, out1) c) as [vis2 out2]. cbn [snd] in *. split; [exact Hi2|split].
        - intros c' Hc'. apply in_app_or in Hc'. destruct Hc' as [Hc'|[<-|[]]]; [|exact Hc2].
          rewrite En2. apply in_or_app. left. exact (Hin1 c' Hc').
        - exists (new1 ++ new2). rewrite En2, En1, app_assoc. split; [reflexivity|].
          intros x Hx. apply in_app_or in Hx. destruct Hx as [Hx|Hx]; [auto|].
          eapply rt_trans; [apply rt_step; exact Hc|apply Hr2; exact Hx]. }
      destruct (fold_left (dfs G f) (G m) (m :: vis, out)) as [vis' out']. cbn [fst snd] in *.
      split; [split; cbn [fst snd]|split].
      + intros x. rewrite Hv2, in_app_iff. cbn [In]. tauto.
      + apply ordered_in_snoc; auto.
      + apply in_or_app. right. left. reflexivity.
      + exists (new2 ++ [m]). rewrite En2, app_assoc. split; [reflexivity|].
        intros x Hx. apply in_app_or in Hx. destruct Hx as [Hx|[<-|[]]]; [auto|apply rt_refl].
  Qed.

  (* one IterateModuleImports(m): the reachable modules, successors first *)
  Lemma post_order_spec fuel m : rk m < fuel ->
    ordered_in G [] (post_order G fuel m) /\ In m (post_order G fuel m) /\
    (forall x, In x (post_order G fuel m) <-> reach G m x).
  Proof.
    intros Hf. unfold post_order.
    destruct (dfs_spec fuel [] [] [] m) as [[_ Ho] [Hm [new [En Hr]]]]; auto.
    { split; cbn; tauto. }
    { intros a []. }
    split; [exact Ho|split; [exact Hm|]]. intros x. split.
    - intros Hx. rewrite En in Hx. cbn in Hx. auto.
    - intros Hx. revert Hm. generalize Ho. generalize (snd (dfs G fuel ([], []) m)). clear - Hx. intros S HoS.
      apply clos_rt_rt1n in Hx. induction Hx as [|a b c Hab _ IH]; [auto|].
      intros Ha. apply IH. destruct (ordered_in_closed G S [] a b HoS Ha Hab) as [H|[]]. exact H.
  Qed.

  Variable fuel : nat.
  Hypothesis Hfuel : forall m, rk m < fuel.

  (* the post-orders of several IterateModuleImports calls, one after the other *)
  Lemma post_orders_spec ms :
    ordered_in G [] (flat_map (post_order G fuel) ms) /\
    forall x, In x (flat_map (post_order G fuel) ms) <-> exists m, In m ms /\ reach G m x.
  Proof.
    split.
    - induction ms as [|m ms IH]; cbn [flat_map]; [exact I|]. apply ordered_in_app.
      split; [apply (post_order_spec fuel m (Hfuel m))|]. apply (ordered_in_incl G _ []); [intros y []|exact IH].
    - intros x. rewrite in_flat_map. split; intros [m [Hm Hx]]; exists m; (split; [exact Hm|]);
        apply (post_order_spec fuel m (Hfuel m)); exact Hx.
  Qed.
End DfsFacts.


Section RstmtInd.
  Variable P : rstmt -> Prop.
  Hypothesis Himp : forall line ms, P (RImport line ms).
  Hypothesis Hdecl : forall line d body, Forall P body -> P (RDecl line d body).
  Hypothesis Huse : forall line k e, P (RUse line k e).
  Hypothesis Hmark : forall t, P (RMark t).
  Hypothesis Hblock : forall c body, Forall P body -> P (RBlock c body).
  Fixpoint rstmt_ind' (x : rstmt) : P x :=
    match x with
    | RImport line ms => Himp line ms
    | RDecl line d body => Hdecl line d body (Forall_all P rstmt_ind' body)
    | RUse line k e => Huse line k e
    | RMark t => Hmark t
    | RBlock c body => Hblock c body (Forall_all P rstmt_ind' body)
    end.
End RstmtInd.

(* the loop of initImportedModules: importedModules is used as a set, so what is emitted for a list of
   modules is the list of their first occurrences that are not imported yet *)
Fixpoint fresh (imp po : list path) : list path :=
  match po with
  | [] => []
  | x :: t => if memN x imp then fresh imp t else x :: fresh (x :: imp) t
  end.

Lemma fresh_In po : forall imp y, In y (fresh imp po) <-> In y po /\ ~ In y imp.
Proof.
  induction po as [|x t IH]; intros imp y; cbn [fresh In]; [tauto|].
  destruct (memN x imp) eqn:E.
  - apply memN_In in E. rewrite IH. split; [tauto|]. intros [[<-|H] Hn]; tauto.
  - assert (Hx : ~ In x imp) by (intros H; apply memN_In in H; congruence).
    cbn [In]. rewrite IH. cbn [In]. split; [intros [<-|H]; tauto|].
    intros [[<-|H] Hn]; [tauto|]. destruct (N.eq_dec x y); tauto.
Qed.

Lemma fresh_nil po imp : (forall y, In y po -> In y imp) -> fresh imp po = [].
Proof.
  intros H. destruct (fresh imp po) as [|y l] eqn:E; [reflexivity|]. exfalso.
  assert (Hy : In y (fresh imp po)) by (rewrite E; left; reflexivity). apply fresh_In in Hy. destruct Hy as [H1 H2]. auto.
Qed.

Lemma fresh_NoDup po : forall imp, NoDup (fresh imp po).
Proof.
  induction po as [|x t IH]; intros imp; cbn [fresh]; [constructor|].
  destruct (memN x imp); [apply IH|]. constructor; [|apply IH].
  intros H. apply fresh_In in H. destruct H as [_ H]. apply H. left; reflexivity.
Qed.

Definition imported_after (imp po : list path) : list path := rev (fresh imp po) ++ imp.

Lemma imported_after_In imp po y : In y (imported_after imp po) <-> In y imp \/ In y po.
Proof.
  unfold imported_after. rewrite in_app_iff, <- in_rev, fresh_In.
  destruct (in_dec N.eq_dec y imp); tauto.
Qed.

Lemma fresh_app a : forall imp b, fresh imp (a ++ b) = fresh imp a ++ fresh (imported_after imp a) b.
Proof.
  unfold imported_after. induction a as [|x a IH]; intros imp b; cbn [app fresh rev]; [reflexivity|].
  destruct (memN x imp); [apply IH|]. rewrite IH. cbn [rev app]. rewrite <- app_assoc. reflexivity.
Qed.

Lemma imported_after_app a imp b : imported_after imp (a ++ b) = imported_after (imported_after imp a) b.
Proof. unfold imported_after at 1 3. rewrite fresh_app, rev_app_distr, <- app_assoc. reflexivity. Qed.

(* successors stay in front when later occurrences are dropped *)
Lemma fresh_ordered G po : forall d imp,
  ordered_in G d po -> (forall y, In y d -> In y imp) -> ordered_in G imp (fresh imp po).
Proof.
  induction po as [|x t IH]; intros d imp Ho Hd; cbn [fresh]; [exact I|]. destruct Ho as [Hx Ht].
  destruct (memN x imp) eqn:E.
  - apply memN_In in E. apply (IH (x :: d)); [exact Ht|]. intros y [<-|Hy]; auto.
  - split; [auto|]. apply (IH (x :: d)); [exact Ht|]. intros y [<-|Hy]; [left; reflexivity|right; auto].
Qed.

Lemma fold_fold_flat {A B C : Type} (f : A -> C -> A) (g : B -> list C) l : forall a,
  fold_left (fun st m => fold_left f (g m) st) l a = fold_left f (flat_map g l) a.
Proof. induction l as [|m l IH]; intros a; cbn [fold_left flat_map]; [reflexivity|]. rewrite fold_left_app. apply IH. Qed.

Section EmitFacts.
  Variable G : path -> list path.
  Variable fuel : nat.

  Lemma fold_emit_one po : forall imp calls,
    fold_left emit_one po (imp, calls) = (imported_after imp po, calls ++ fresh imp po).
  Proof.
    unfold imported_after. induction po as [|x po IH]; intros imp calls; cbn [fold_left fresh]; [rewrite app_nil_r; reflexivity|].
    unfold emit_one at 2. destruct (memN x imp); [apply IH|].
    rewrite IH. cbn [rev]. rewrite <- !app_assoc. reflexivity.
  Qed.

  Notation post_orders := (flat_map (post_order G fuel)).

  Lemma emit_import_eq imp ms : emit_import G fuel imp ms = (imported_after imp (post_orders ms), fresh imp (post_orders ms)).
  Proof. unfold emit_import. rewrite fold_fold_flat. apply fold_emit_one. Qed.

  (* several import statements one after the other = one import statement with all their modules *)
  Lemma hoist_eq iss : forall imp c0,
    fold_left (hoist_step G fuel) iss (imp, c0) =
    (imported_after imp (post_orders (concat iss)), c0 ++ fresh imp (post_orders (concat iss))).
  Proof.
    induction iss as [|ms iss IH]; intros imp c0; cbn [fold_left concat]; [cbn; rewrite app_nil_r; reflexivity|].
    unfold hoist_step at 2. rewrite emit_import_eq, IH, flat_map_app, imported_after_app, fresh_app, app_assoc. reflexivity.
  Qed.
End EmitFacts.

(* all modules named by the import statements of a statement list (top-level or nested) *)
Definition top_targets (rs : list rstmt) : list path := flat_map (fun x => concat (nested_imports x)) rs.

Section CompileFacts.
  Variable G : path -> list path.
  Variable fuel : nat.
  Variable p : path.
  Variable ext : path -> name -> list instr.
  Variable vars : path -> list name.

  Notation cstmt := (compile_stmt G fuel p ext).
  Notation cstmts := (compile_stmts G fuel p ext).
  Notation post_orders := (flat_map (post_order G fuel)).

  Definition cfn_ok (c : cstate) : Prop := forall n b, lookup n (c_fns c) = Some b -> noinit_l b.
  Hypothesis Hext : forall q n, noinit_l (ext q n).

  Lemma compile_stmts_eq hc infn l c :
    (fix go (l : list rstmt) (c : cstate) : cstate * list instr :=
       match l with
       | [] => (c, [])
       | y :: t => let '(c', a) := cstmt hc infn y c in let '(c'', b) := go t c' in (c'', a ++ b)
       end) l c = cstmts hc infn l c.
  Proof.
    revert c. induction l as [|y t IH]; intros c; [reflexivity|].
    simpl. destruct (cstmt hc infn y c) as [c1 a1]. rewrite IH. reflexivity.
  Qed.

  Lemma noinit_single x : noinit x -> noinit_l [x].
  Proof. intros H. constructor; [exact H|constructor]. Qed.

  Lemma noinit_nil : noinit_l [].
  Proof. constructor. Qed.

  (* the modules of every import statement inside x are already imported *)
  Definition cov (imp : list path) (x : rstmt) : Prop :=
    forall ms m y, In ms (nested_imports x) -> In m ms -> In y (post_order G fuel m) -> In y imp.
  Definition cov_l (imp : list path) (l : list rstmt) : Prop := forall x, In x l -> cov imp x.

  Lemma nested_imports_decl line d body : nested_imports (RDecl line d body) = flat_map nested_imports body.
  Proof. cbn [nested_imports]. induction body as [|y t IH]; cbn [flat_map]; [reflexivity|]. rewrite IH. reflexivity. Qed.
  Lemma nested_imports_block ct body : nested_imports (RBlock ct body) = flat_map nested_imports body.
  Proof. cbn [nested_imports]. induction body as [|y t IH]; cbn [flat_map]; [reflexivity|]. rewrite IH. reflexivity. Qed.

  Lemma cov_body imp body : (forall ms m y, In ms (flat_map nested_imports body) -> In m ms -> In y (post_order G fuel m) -> In y imp) -> cov_l imp body.
  Proof. intros H x Hx ms m y Hms. apply H. apply in_flat_map. exists x. auto. Qed.

  Lemma cov_post_orders imp x y : cov imp x -> In y (post_orders (concat (nested_imports x))) -> In y imp.
  Proof.
    intros H Hy. apply in_flat_map in Hy. destruct Hy as [m [Hm Hy]]. apply in_concat in Hm. destruct Hm as [ms [Hms Hm]]. eauto.
  Qed.

  (* a statement whose imports are all covered compiles to init-free code and imports nothing *)
  Definition inert (x : rstmt) : Prop := forall hc infn c c' code,
    cov (c_imp c) x -> cfn_ok c -> cstmt hc infn x c = (c', code) -> c_imp c' = c_imp c /\ noinit_l code /\ cfn_ok c'.

  Lemma compile_stmts_inert body : Forall inert body -> forall hc infn c c' code,
    cov_l (c_imp c) body -> cfn_ok c -> cstmts hc infn body c = (c', code) -> c_imp c' = c_imp c /\ noinit_l code /\ cfn_ok c'.
  Proof.
    induction 1 as [|y t Hy _ IHt]; intros hc infn c c' code Hcov Hc; cbn [compile_stmts].
    - intros E; injection E as <- <-. split; [reflexivity|split; [apply noinit_nil|exact Hc]].
    - destruct (cstmt hc infn y c) as [c1 a1] eqn:E1. destruct (cstmts hc infn t c1) as [c2 a2] eqn:E2.
      intros E; injection E as <- <-.
      destruct (Hy _ _ _ _ _ (Hcov y (or_introl eq_refl)) Hc E1) as [H1 [H2 H3]].
      destruct (IHt _ _ _ _ _ (fun x H => eq_ind_r (fun i => cov i x) (Hcov x (or_intror H)) H1) H3 E2) as [H4 [H5 H6]].
      split; [congruence|split; [apply Forall_app; auto|exact H6]].
  Qed.

  Lemma compile_stmt_inert x : inert x.
  Proof.
    induction x as [line ms|line d body IH|line k e|t|ct body IH] using rstmt_ind'; intros hc infn c c' code Hx Hc; cbn [compile_stmt].
    - rewrite emit_import_eq. unfold imported_after.
      rewrite fresh_nil by (intros y Hy; apply (cov_post_orders _ (RImport line ms)); [exact Hx|cbn; rewrite app_nil_r; exact Hy]).
      intros E; injection E as <- <-. split; [reflexivity|split; [|exact Hc]]. destruct hc; apply noinit_nil.
    - unfold cov in Hx. rewrite nested_imports_decl in Hx. apply cov_body in Hx.
      pose proof (compile_stmts_inert body IH) as Hb.
      destruct (d_kind d).
      + rewrite compile_stmts_eq. destruct (cstmts true true body c) as [c1 code1] eqn:E1.
        intros E; injection E as <- <-. destruct (Hb _ _ _ _ _ Hx Hc E1) as [H1 [H2 H3]].
        split; [exact H1|split; [apply noinit_nil|]].
        intros n b. cbn [c_fns lookup]. destruct (N.eqb n (d_name d)); [intros E; injection E as <-; exact H2|apply H3].
      + intros E; injection E as <- <-. split; [reflexivity|split; [|exact Hc]].
        destruct hc; [apply noinit_single; exact I|apply noinit_nil].
      + intros E; injection E as <- <-. split; [reflexivity|split; [apply noinit_nil|exact Hc]].
      + intros E; injection E as <- <-. split; [reflexivity|split; [apply noinit_nil|exact Hc]].
    - intros E; injection E as <- <-. split; [reflexivity|split; [|exact Hc]].
      destruct hc; [|apply noinit_nil]. destruct e as [[q0 d]|]; [|apply noinit_nil].
      destruct k; apply noinit_single; try exact I.
      (* a call: the callee's code is in the function table or comes from another module *)
      apply noinit_fn. destruct infn; [apply noinit_nil|]. destruct (N.eqb q0 p); [|apply Hext].
      destruct (lookup (d_name d) (c_fns c)) as [b|] eqn:El; [exact (Hc _ _ El)|apply noinit_nil].
    - intros E; injection E as <- <-. split; [reflexivity|split; [|exact Hc]].
      destruct hc; [apply noinit_single; exact I|apply noinit_nil].
    - unfold cov in Hx. rewrite nested_imports_block in Hx. apply cov_body in Hx.
      pose proof (compile_stmts_inert body IH) as Hb.
      destruct hc.
      + rewrite compile_stmts_eq. destruct (cstmts true infn body c) as [c1 code1] eqn:E1.
        intros E; injection E as <- <-. destruct (Hb _ _ _ _ _ Hx Hc E1) as [H1 [H2 H3]].
        split; [exact H1|split; [|exact H3]].
        apply noinit_single. apply noinit_block. exact H2.
      + intros E; injection E as <- <-. split; [reflexivity|split; [apply noinit_nil|exact Hc]].
  Qed.

  Lemma run_callinits l : forall st,
    einits (snd (run vars (map ICallInit l) st)) = einits (snd st) ++ l.
  Proof.
    induction l as [|q l IH]; intros [s tr]; cbn [map run]; [rewrite app_nil_r; reflexivity|].
    rewrite IH. cbn [run_instr snd]. rewrite einits_app. cbn [einits].
    rewrite (einits_none (map (EInitVar q) (vars q))).
    - rewrite <- app_assoc. reflexivity.
    - intros q' H. apply in_map_iff in H. destruct H as [n [H _]]. discriminate.
  Qed.

  Lemma cov_imported_after imp x : cov (imported_after imp (post_orders (concat (nested_imports x)))) x.
  Proof.
    intros ms m y Hms Hm Hy. apply imported_after_In. right.
    apply in_flat_map. exists m. split; [|exact Hy]. apply in_concat. exists ms. auto.
  Qed.

  (* initNestedImports in the main module: every module of the import statements inside x, once *)
  Lemma hoist_main x c :
    hoist G fuel true x c =
    match x with
    | RImport _ _ => (c, [])
    | _ => (mkC (imported_after (c_imp c) (post_orders (concat (nested_imports x)))) (c_fns c),
            map ICallInit (fresh (c_imp c) (post_orders (concat (nested_imports x)))))
    end.
  Proof. destruct x; unfold hoist; try rewrite hoist_eq; reflexivity. Qed.

  Lemma top_step_main x c c0 h c' a :
    cfn_ok c -> hoist G fuel true x c = (c0, h) -> cstmt true false x c0 = (c', a) ->
    c_imp c' = imported_after (c_imp c) (post_orders (concat (nested_imports x))) /\ cfn_ok c' /\
    forall st, einits (snd (run vars (h ++ a) st)) = einits (snd st) ++ fresh (c_imp c) (post_orders (concat (nested_imports x))).
  Proof.
    intros Hc Hh Ea. rewrite hoist_main in Hh.
    assert (Hcov : (forall l ms, x <> RImport l ms) ->
                   c0 = mkC (imported_after (c_imp c) (post_orders (concat (nested_imports x)))) (c_fns c) ->
                   h = map ICallInit (fresh (c_imp c) (post_orders (concat (nested_imports x)))) ->
                   c_imp c' = imported_after (c_imp c) (post_orders (concat (nested_imports x))) /\ cfn_ok c' /\
                   forall st, einits (snd (run vars (h ++ a) st)) = einits (snd st) ++ fresh (c_imp c) (post_orders (concat (nested_imports x)))).
    { intros _ -> ->. destruct (compile_stmt_inert x _ _ _ _ _ (cov_imported_after (c_imp c) x : cov (c_imp (mkC _ (c_fns c))) x) (Hc : cfn_ok (mkC _ (c_fns c))) Ea) as [H1 [H2 H3]].
      split; [exact H1|split; [exact H3|]]. intros st. rewrite run_app, (run_noinit vars _ H2). apply run_callinits. }
    destruct x as [line ms| | | |]; try (injection Hh as <- <-; apply Hcov; [discriminate|reflexivity|reflexivity]).
    clear Hcov. injection Hh as <- <-. cbn [compile_stmt nested_imports concat] in *. rewrite app_nil_r.
    rewrite emit_import_eq in Ea. injection Ea as <- <-. cbn [c_imp app].
    split; [reflexivity|split; [exact Hc|]]. intros st. apply run_callinits.
  Qed.

  Lemma compile_top_main rs : forall c c' code,
    cfn_ok c -> compile_top G fuel p true ext rs c = (c', code) ->
    c_imp c' = imported_after (c_imp c) (post_orders (top_targets rs)) /\ cfn_ok c' /\
    forall st, einits (snd (run vars code st)) = einits (snd st) ++ fresh (c_imp c) (post_orders (top_targets rs)).
  Proof.
    induction rs as [|x t IH]; intros c c' code Hc; cbn [compile_top top_targets flat_map].
    - intros E; injection E as <- <-. split; [reflexivity|split; [exact Hc|]]. intros st. cbn. rewrite app_nil_r. reflexivity.
    - destruct (hoist G fuel true x c) as [c0 h] eqn:Eh.
      destruct (cstmt true false x c0) as [c1 a1] eqn:E1.
      destruct (compile_top G fuel p true ext t c1) as [c2 a2] eqn:E2.
      intros E; injection E as <- <-.
      destruct (top_step_main _ _ _ _ _ _ Hc Eh E1) as [Hi1 [Hc1 Hr1]].
      destruct (IH _ _ _ Hc1 E2) as [Hi2 [Hc2 Hr2]]. rewrite Hi1 in Hi2, Hr2.
      rewrite flat_map_app, imported_after_app, fresh_app. split; [exact Hi2|split; [exact Hc2|]].
      intros st. rewrite app_assoc, run_app, Hr2, Hr1, app_assoc. reflexivity.
  Qed.

  (* imported modules: no top-level code is emitted at all, and the function table only ever holds init-free code *)
  Lemma compile_top_nonmain_code rs : forall c, snd (compile_top G fuel p false ext rs c) = [].
  Proof.
    induction rs as [|x t IH]; intros c; cbn [compile_top]; [reflexivity|].
    destruct (hoist G fuel false x c) as [c0 h] eqn:Eh.
    destruct (cstmt false false x c0) as [c1 a1] eqn:E1.
    specialize (IH c1). destruct (compile_top G fuel p false ext t c1) as [c2 a2]. cbn [snd] in *. subst a2.
    assert (Hh : h = []).
    { unfold hoist in Eh. destruct x; try (injection Eh as _ <-; reflexivity).
      destruct (fold_left _ _ _). injection Eh as _ <-. reflexivity. }
    assert (Ha : a1 = []).
    { destruct x as [line ms|line d body|line k e|tg|ct body]; cbn [compile_stmt] in E1.
      - destruct (emit_import G fuel (c_imp c0) ms). injection E1 as _ <-. reflexivity.
      - destruct (d_kind d); [destruct (_ body c0)| | |]; injection E1 as _ <-; reflexivity.
      - injection E1 as _ <-. reflexivity.
      - injection E1 as _ <-. reflexivity.
      - injection E1 as _ <-. reflexivity. }
    rewrite Hh, Ha. reflexivity.
  Qed.

  Lemma compile_top_nonmain rs : forall c c' code,
    cfn_ok c -> compile_top G fuel p false ext rs c = (c', code) -> cfn_ok c'.
  Proof.
    induction rs as [|x t IH]; intros c c' code Hc; cbn [compile_top].
    - intros E; injection E as <- _. exact Hc.
    - destruct (hoist G fuel false x c) as [c0 h] eqn:Eh.
      destruct (cstmt false false x c0) as [c1 a1] eqn:E1.
      destruct (compile_top G fuel p false ext t c1) as [c2 a2] eqn:E2.
      intros E; injection E as <- _. apply (IH c1 c2 a2); [|exact E2].
      destruct x as [line ms|line d body|line k e|tg|ct body]; unfold hoist in Eh.
      2:{ (* a declaration: the imports nested in it are hoisted, so that they are covered when it is compiled *)
          rewrite hoist_eq in Eh. injection Eh as <- _.
          exact (proj2 (proj2 (compile_stmt_inert _ _ _ _ _ _ (cov_imported_after (c_imp c) (RDecl line d body) : cov (c_imp (mkC _ (c_fns c))) _)
                                             (Hc : cfn_ok (mkC _ (c_fns c))) E1))). }
      all: injection Eh as <- _; cbn [compile_stmt] in E1.
      + destruct (emit_import G fuel (c_imp c) ms). injection E1 as <- _. exact Hc.
      + injection E1 as <- _. exact Hc.
      + injection E1 as <- _. exact Hc.
      + injection E1 as <- _. exact Hc.
  Qed.
End CompileFacts.

Lemma compile_top_app G fuel p is_main ext a : forall b c,
  compile_top G fuel p is_main ext (a ++ b) c =
  let '(c1, x1) := compile_top G fuel p is_main ext a c in
  let '(c2, x2) := compile_top G fuel p is_main ext b c1 in (c2, x1 ++ x2).
Proof.
  induction a as [|y t IH]; intros b c; cbn [app compile_top].
  - destruct (compile_top G fuel p is_main ext b c); reflexivity.
  - destruct (hoist G fuel is_main y c) as [c0 h].
    destruct (compile_stmt G fuel p ext is_main false y c0) as [c1 x1]. rewrite IH.
    destruct (compile_top G fuel p is_main ext t c1) as [c2 x2].
    destruct (compile_top G fuel p is_main ext b c2) as [c3 x3]. rewrite <- !app_assoc. reflexivity.
Qed.

Section ProgramFacts.
  Variable fs : fsys.
  Variable root : path.

  Notation Gr := (graph fs root).
  Notation fuel := (dfs_fuel fs root).
  Notation rk := (rank (l_map (L fs root))).

  Lemma graph_rank m n : In n (Gr m) -> rk n < rk m.
  Proof.
    intros Hn. apply rank_edge; [apply (load_wf fs root)|].
    unfold graph, res_of in Hn. fold (L fs root).
    destruct (lookup m (l_map (L fs root))) as [[r|]|] eqn:E; cbn in Hn; try contradiction.
    exists r. split; [exact E|exact Hn].
  Qed.

  Lemma rank_fuel m : rk m < fuel.
  Proof. unfold dfs_fuel. pose proof (rank_le (l_map (L fs root)) m). lia. Qed.

  Definition main_rs : list rstmt := snd (resolve_of fs root root).
  (* the modules all import statements of the root (top-level or nested) resolved to *)
  Definition main_targets : list path := top_targets main_rs.

  Lemma cfn_ok_init : cfn_ok (mkC [] []).
  Proof. intros n b H. discriminate. Qed.

  Lemma fn_code_noinit : forall q n, noinit_l (fn_code fs root q n).
  Proof.
    intros q n. unfold fn_code, compile_module.
    destruct (compile_top Gr fuel q false (fun _ _ => []) (snd (resolve_of fs root q)) (mkC [] [])) as [c' code] eqn:E.
    cbn [fst]. destruct (lookup n (c_fns c')) as [b|] eqn:El; [|constructor].
    refine (compile_top_nonmain Gr fuel q (fun _ _ => []) _ _ _ _ _ cfn_ok_init E n b El).
    intros q0 n0. constructor.
  Qed.

  (* the init events of running the main module's code for a statement list rs *)
  Lemma main_einits rs c' code :
    compile_top Gr fuel root true (fn_code fs root) rs (mkC [] []) = (c', code) ->
    forall st, einits (snd (run (vars_of fs) code st)) = einits (snd st) ++ fresh [] (flat_map (post_order Gr fuel) (top_targets rs)).
  Proof.
    intros E. exact (proj2 (proj2 (compile_top_main Gr fuel root (fn_code fs root) (vars_of fs) fn_code_noinit _ _ _ _ cfn_ok_init E))).
  Qed.

  Lemma trace_einits : einits (trace fs root) = fresh [] (flat_map (post_order Gr fuel) main_targets).
  Proof.
    unfold trace, main_code, compile_module, main_targets, main_rs.
    destruct (compile_top Gr fuel root true (fn_code fs root) (snd (resolve_of fs root root)) (mkC [] [])) as [c' code] eqn:E.
    cbn [snd]. rewrite (main_einits _ _ _ E). reflexivity.
  Qed.

  (* what is initialised for a list of import targets: each reachable module once, after the modules it imports *)
  Lemma inits_spec ms :
    let calls := fresh [] (flat_map (post_order Gr fuel) ms) in
    NoDup calls /\ ordered_in Gr [] calls /\ (forall x, In x calls <-> exists m, In m ms /\ reach Gr m x).
  Proof.
    destruct (post_orders_spec Gr rk graph_rank fuel rank_fuel ms) as [Ho Hin].
    split; [apply fresh_NoDup|split; [apply (fresh_ordered Gr _ []); [exact Ho|auto]|]].
    intros x. rewrite fresh_In, Hin. cbn [In]. tauto.
  Qed.

  (* C10: each module's initialiser runs at most once *)
  Theorem init_once : NoDup (einits (trace fs root)).
  Proof. rewrite trace_einits. exact (proj1 (inits_spec main_targets)). Qed.

  (* C10: exactly the modules reachable from the root's import statements are initialised *)
  Theorem init_covers : forall q,
    In (EInit q) (trace fs root) <-> exists m, In m main_targets /\ reach Gr m q.
  Proof. intros q. rewrite <- einits_In, trace_einits. exact (proj2 (proj2 (inits_spec main_targets)) q). Qed.

  (* C10: a module is initialised after every module it imports *)
  Theorem init_deps_first : forall l1 q l2 q',
    trace fs root = l1 ++ EInit q :: l2 -> In q' (Gr q) -> In (EInit q') l1.
  Proof.
    intros l1 q l2 q' Htr Hq'.
    pose proof (proj1 (proj2 (inits_spec main_targets))) as Ho.
    rewrite <- trace_einits, Htr, einits_app in Ho. cbn [einits] in Ho.
    apply einits_In. destruct (ordered_in_elt Gr _ _ _ _ _ Ho Hq') as [H|[]]. exact H.
  Qed.

  (* the trace of the root's first statements `pre` alone *)
  Definition prefix_trace (pre : list stmt) : list event :=
    let rs := snd (resolve_stmts fs 0 root (main_res fs root) (l_diags (L fs root)) pre (init_p)) in
    snd (run (vars_of fs) (snd (compile_top Gr fuel root true (fn_code fs root) rs (mkC [] []))) ([], [])).

  (* C10: when the statement after a top-level import starts, every module reachable through the import has been
     initialised *)
  Theorem init_before_following_code : forall s1 i s2,
    src_of fs root = s1 ++ SImport i :: s2 ->
    (exists tr2, trace fs root = prefix_trace (s1 ++ [SImport i]) ++ tr2) /\
    forall m x, In m (match lookup (i_line i) (main_res fs root) with Some ms => ms | None => [] end) ->
                reach Gr m x -> In (EInit x) (prefix_trace (s1 ++ [SImport i])).
  Proof.
    intros s1 i s2 Hsrc.
    unfold trace, main_code, compile_module, prefix_trace.
    unfold resolve_of. rewrite N.eqb_refl. unfold resolve_with, resolve_module. rewrite Hsrc.
    replace (s1 ++ SImport i :: s2) with ((s1 ++ [SImport i]) ++ s2) by (rewrite <- app_assoc; reflexivity).
    rewrite resolve_stmts_app.
    destruct (resolve_stmts fs 0 root (main_res fs root) (l_diags (L fs root)) (s1 ++ [SImport i]) init_p) as [st1 r1] eqn:E1.
    destruct (resolve_stmts fs 0 root (main_res fs root) (l_diags (L fs root)) s2 st1) as [st2 r2] eqn:E2.
    cbn [snd] in *. rewrite compile_top_app.
    destruct (compile_top Gr fuel root true (fn_code fs root) r1 (mkC [] [])) as [c1 x1] eqn:Ec1.
    destruct (compile_top Gr fuel root true (fn_code fs root) r2 c1) as [c2 x2] eqn:Ec2.
    cbn [snd]. rewrite run_app. split.
    - destruct (run_extends (vars_of fs) x2 (run (vars_of fs) x1 ([], []))) as [new [En _]]. eauto.
    - intros m x Hm Hx.
      apply einits_In. rewrite (main_einits _ _ _ Ec1). cbn [snd einits app].
      apply (proj2 (proj2 (inits_spec (top_targets r1)))).
      exists m. split; [|exact Hx].
      rewrite resolve_stmts_app in E1.
      destruct (resolve_stmts fs 0 root (main_res fs root) (l_diags (L fs root)) s1 init_p) as [sa ra].
      pose proof (resolve_stmts_one_import fs 0 root (main_res fs root) (l_diags (L fs root)) i sa) as Hsi.
      destruct (resolve_stmts fs 0 root (main_res fs root) (l_diags (L fs root)) [SImport i] sa) as [sb rb].
      cbn [snd] in Hsi. subst rb. injection E1 as _ <-. unfold top_targets. rewrite flat_map_app. apply in_or_app. right.
      cbn [flat_map nested_imports concat]. rewrite !app_nil_r. exact Hm.
  Qed.
End ProgramFacts.
