(* C10 — import visibility (Mod/Loader.v): what public_of and imported_decls hand over, and the resolver's invariant
   that every table entry is a declaration of the module itself or a public one of another module. *)
From Coq Require Import List NArith Bool.
Import ListNotations.
From DDP Require Import Mod.Loader Mod.LoaderProofs Mod.ResolveFacts Mod.InitOrder.

Section Visible.
  Variable fs : fsys.

  Definition srcs (q : path) : list stmt := src_of fs q.

  Lemma publish_sound l : forall seen pub d,
    In d (publish seen pub l) -> In d pub \/ (In d l /\ d_public d = true).
  Proof.
    induction l as [|x l IH]; intros seen pub d Hd; cbn [publish] in Hd; [left; exact Hd|].
    apply IH in Hd. destruct Hd as [Hd|[Hd Hp]]; [|right; split; [right; exact Hd|exact Hp]].
    destruct (d_public x && _) eqn:E; [|left; exact Hd].
    apply in_app_or in Hd. destruct Hd as [Hd|[<-|[]]]; [left; exact Hd|].
    right. split; [left; reflexivity|]. apply andb_prop in E. tauto.
  Qed.

  Lemma publish_keeps l : forall seen pub d, In d pub -> In d (publish seen pub l).
  Proof.
    induction l as [|x l IH]; intros seen pub d Hd; cbn [publish]; [exact Hd|].
    apply IH. destruct (d_public x && _); [apply in_or_app; left; exact Hd|exact Hd].
  Qed.

  Lemma publish_complete l : forall seen pub d,
    NoDup (map d_name l) -> (forall x, In x l -> ~ In (d_name x) seen) ->
    (forall e, In e pub -> In (d_name e) seen) ->
    In d l -> d_public d = true -> In d (publish seen pub l).
  Proof.
    induction l as [|x l IH]; intros seen pub d Hnd Hseen Hpub Hd Hp; [destruct Hd|].
    cbn [map] in Hnd. inversion Hnd as [|? ? Hx Hnd']; subst. cbn [publish].
    destruct Hd as [->|Hd].
    - apply publish_keeps.
      assert (E : d_public d && negb (match d_kind d with KFunc => memN (d_name d) seen | _ => existsb (fun e => N.eqb (d_name e) (d_name d)) pub end) = true).
      { rewrite Hp. cbn [andb]. apply negb_true_iff.
        assert (Hns : ~ In (d_name d) seen) by (apply Hseen; left; reflexivity).
        assert (H1 : memN (d_name d) seen = false).
        { destruct (memN (d_name d) seen) eqn:E; [apply memN_In in E; contradiction|reflexivity]. }
        assert (H2 : existsb (fun e => N.eqb (d_name e) (d_name d)) pub = false).
        { destruct (existsb _ pub) eqn:E; [|reflexivity]. apply existsb_exists in E. destruct E as [e [He Hn]].
          apply N.eqb_eq in Hn. exfalso. apply Hns. rewrite <- Hn. apply Hpub. exact He. }
        destruct (d_kind d); assumption. }
      rewrite E. apply in_or_app. right. left. reflexivity.
    - apply IH; auto.
      + intros y Hy [Hn|Hn]; [|eapply Hseen; [right; exact Hy|exact Hn]].
        apply Hx. rewrite Hn. apply in_map. exact Hy.
      + intros e He. destruct (d_public x && _); [|right; apply Hpub; exact He].
        apply in_app_or in He. destruct He as [He|[<-|[]]]; [right; apply Hpub; exact He|left; reflexivity].
  Qed.

  Lemma public_of_sound q d : In d (public_of fs q) -> In d (top_decls (srcs q)) /\ d_public d = true.
  Proof.
    unfold public_of, srcs, src_of. destruct (lookup q (fs_files fs)) as [src|]; [|intros []].
    intros H. apply publish_sound in H. destruct H as [[]|H]. exact H.
  Qed.

  Lemma find_decl_some n l d : find_decl n l = Some d -> In d l /\ d_name d = n.
  Proof. unfold find_decl. intros H. apply find_some in H. destruct H as [H1 H2]. apply N.eqb_eq in H2. auto. Qed.

  Lemma find_decl_none n l : find_decl n l = None -> forall d, In d l -> d_name d <> n.
  Proof. unfold find_decl. intros H d Hd Hn. apply (find_none _ _ H) in Hd. apply N.eqb_neq in Hd. auto. Qed.

  (* never a private declaration, never one of a module the statement did not resolve to *)
  Theorem imported_never_private i ms n q d :
    In (n, Some (q, d)) (imported_decls fs i ms) ->
    d_public d = true /\ In d (top_decls (srcs q)) /\ In q ms /\ d_name d = n.
  Proof.
    unfold imported_decls.
    assert (Hwhole : In (n, Some (q, d)) (flat_map (fun q0 => map (fun d0 => (d_name d0, Some (q0, d0))) (public_of fs q0)) ms) ->
                     d_public d = true /\ In d (top_decls (srcs q)) /\ In q ms /\ d_name d = n).
    { intros H. apply in_flat_map in H. destruct H as [q0 [Hq0 H]]. apply in_map_iff in H.
      destruct H as [d0 [E Hd0]]. injection E as <- <- <-. destruct (public_of_sound _ _ Hd0). auto. }
    destruct (i_form i) as [|ns|r]; auto.
    destruct ms as [|q0 ms]; [intros []|]. intros H. apply in_map_iff in H. destruct H as [n0 [E Hn0]].
    destruct (find_decl n0 (public_of fs q0)) as [d0|] eqn:Ef; [|discriminate].
    injection E as <- <- <-. destruct (find_decl_some _ _ _ Ef) as [Hin Hname].
    destruct (public_of_sound _ _ Hin). split; [auto|split; [auto|split; [left; reflexivity|exact Hname]]].
  Qed.

  (* a selective import hands over exactly the listed names: the public declaration of that name, or nothing *)
  Theorem named_import_exact i q ms ns :
    i_form i = INamed ns ->
    imported_decls fs i (q :: ms) =
    map (fun n => (n, match find_decl n (public_of fs q) with Some d => Some (q, d) | None => None end)) ns.
  Proof. intros H. unfold imported_decls. rewrite H. reflexivity. Qed.

  Section Resolver.
  Variable p : path.

  Definition entry_ok (e : entry) : Prop :=
    fst e = p \/ (d_public (snd e) = true /\ In (snd e) (top_decls (srcs (fst e)))).
  Definition table_ok (t : table) : Prop := forall n e, In (n, e) t -> entry_ok e.
  Definition state_ok (s : pstate) : Prop := Forall table_ok (p_scopes s) /\ table_ok (p_aliases s).

  Lemma lookup_ok t n e : table_ok t -> lookup n t = Some e -> entry_ok e.
  Proof. intros Ht H. apply lookup_In in H. eapply Ht; eauto. Qed.

  Lemma lookup_scopes_ok ss n e : Forall table_ok ss -> lookup_scopes n ss = Some e -> entry_ok e.
  Proof.
    induction 1 as [|t ss Ht _ IH]; cbn [lookup_scopes]; [discriminate|].
    destruct (lookup n t) eqn:E; [intros H; injection H as <-; eapply lookup_ok; eauto|exact IH].
  Qed.

  Lemma insert_cur_ok n e ss : entry_ok e -> Forall table_ok ss -> Forall table_ok (insert_cur n e ss).
  Proof.
    intros He Hs. destruct Hs as [|t ss Ht Hss]; cbn [insert_cur].
    - constructor; [|constructor]. intros n' e' [E|[]]. injection E as <- <-. exact He.
    - constructor; [|exact Hss]. intros n' e' [E|H]; [injection E as <- <-; exact He|eapply Ht; eauto].
  Qed.

  Lemma report_ok inst line errs s : state_ok s -> state_ok (report inst p line errs s).
  Proof. intros H. unfold report. destruct errs; [exact H|]. destruct (has_diag_at _ _ _); exact H. Qed.

  Section WithRes.
    Variable inst : N.
    Variable res : resolved.
    Variable ld : list diag.

    Lemma import_alias_step_ok st x :
      (forall e0, snd x = Some e0 -> entry_ok e0) -> state_ok (fst st) -> state_ok (fst (import_alias_step st x)).
    Proof.
      destruct st as [s0 e0], x as [n e]. intros He H0. cbn [import_alias_step fst]. destruct e as [[q d]|]; [|exact H0].
      destruct (lookup_scopes n (p_scopes s0)); [exact H0|].
      destruct (d_kind d); try exact H0. destruct (lookup n (p_aliases s0)); [exact H0|].
      destruct H0 as [Ha Hb]. split; [exact Ha|].
      intros n' e' [E|H']; [injection E as <- <-; apply He; reflexivity|eapply Hb; eauto].
    Qed.

    Lemma import_resolve_step_ok st x :
      (forall e0, snd x = Some e0 -> entry_ok e0) -> state_ok (fst st) -> state_ok (fst (import_resolve_step st x)).
    Proof.
      destruct st as [s0 e0], x as [n e]. intros He H0. cbn [import_resolve_step fst]. destruct e as [e|]; [|exact H0].
      destruct (in_cur n (p_scopes s0)); [exact H0|].
      destruct H0 as [Ha Hb]. split; [|exact Hb]. apply insert_cur_ok; [apply He; reflexivity|exact Ha].
    Qed.

    Lemma resolve_import_ok i s : state_ok s -> state_ok (fst (resolve_import fs inst p res ld i s)).
    Proof.
      intros Hs. unfold resolve_import.
      set (ds := imported_decls fs i (match lookup (i_line i) res with Some ms => ms | None => [] end)).
      assert (Hds : forall x, In x ds -> forall e0, snd x = Some e0 -> entry_ok e0).
      { intros [n e] H [q d] E. cbn in E. subst e. apply imported_never_private in H. right. cbn. tauto. }
      clearbody ds.
      pose proof (fold_left_ind import_alias_step (fun _ st => state_ok (fst st)) ds (s, []) Hs
                    (fun _ x st Hx => import_alias_step_ok st x (Hds x Hx))) as H1.
      destruct (fold_left import_alias_step ds (s, [])) as [s1 e1].
      pose proof (fold_left_ind import_resolve_step (fun _ st => state_ok (fst st)) ds (s1, []) H1
                    (fun _ x st Hx => import_resolve_step_ok st x (Hds x Hx))) as H2.
      destruct (fold_left import_resolve_step ds (s1, [])) as [s2 e2]. cbn [fst] in *.
      destruct (has_diag_at inst (i_line i) ld); [exact H2|apply report_ok; exact H2].
    Qed.

    (* every resolved use in the annotated tree *)
    Fixpoint ruses_ok (x : rstmt) : Prop :=
      match x with
      | RUse _ _ (Some e) => entry_ok e
      | RDecl _ _ body => (fix go (l : list rstmt) : Prop := match l with [] => True | y :: t => ruses_ok y /\ go t end) body
      | RBlock _ body => (fix go (l : list rstmt) : Prop := match l with [] => True | y :: t => ruses_ok y /\ go t end) body
      | _ => True
      end.
    Fixpoint ruses_ok_l (l : list rstmt) : Prop := match l with [] => True | y :: t => ruses_ok y /\ ruses_ok_l t end.
    Lemma ruses_ok_decl line d body : ruses_ok (RDecl line d body) <-> ruses_ok_l body.
    Proof. cbn [ruses_ok]. induction body as [|y t IH]; cbn [ruses_ok_l]; tauto. Qed.
    Lemma ruses_ok_block c body : ruses_ok (RBlock c body) <-> ruses_ok_l body.
    Proof. cbn [ruses_ok]. induction body as [|y t IH]; cbn [ruses_ok_l]; tauto. Qed.

    Lemma push_ok s : state_ok s -> state_ok (push s).
    Proof. intros [Ha Hb]. split; [constructor; [intros n e []|exact Ha]|exact Hb]. Qed.
    Lemma pop_ok s : state_ok s -> state_ok (pop s).
    Proof. intros [Ha Hb]. split; [|exact Hb]. cbn. destruct Ha; [constructor|assumption]. Qed.

    Definition stmt_ok (x : stmt) : Prop := forall s, state_ok s ->
      state_ok (fst (resolve_stmt fs inst p res ld x s)) /\ ruses_ok (snd (resolve_stmt fs inst p res ld x s)).

    Lemma resolve_stmts_ok l : Forall stmt_ok l -> forall s, state_ok s ->
      state_ok (fst (resolve_stmts fs inst p res ld l s)) /\ ruses_ok_l (snd (resolve_stmts fs inst p res ld l s)).
    Proof.
      induction 1 as [|y t Hy _ IHt]; intros s0 H0; cbn [resolve_stmts]; [split; [exact H0|exact I]|].
      destruct (Hy s0 H0) as [H1 H2]. destruct (resolve_stmt fs inst p res ld y s0) as [s1 r1]. cbn [fst snd] in *.
      destruct (IHt s1 H1) as [H3 H4]. destruct (resolve_stmts fs inst p res ld t s1) as [s2 rs2]. cbn [fst snd ruses_ok_l] in *. auto.
    Qed.

    (* a declaration of the module itself entering the current scope *)
    Lemma insert_own_ok d s : state_ok s ->
      state_ok (if in_cur (d_name d) (p_scopes s) then s else mkP (insert_cur (d_name d) (p, d) (p_scopes s)) (p_aliases s) (p_diags s)).
    Proof.
      intros Hs. destruct (in_cur (d_name d) (p_scopes s)); [exact Hs|]. destruct Hs as [Ha Hb]. split; [|exact Hb].
      apply insert_cur_ok; [left; reflexivity|exact Ha].
    Qed.

    Lemma resolve_stmt_ok x : stmt_ok x.
    Proof.
      induction x as [i|line d body IH|line n k|t|c body IH] using stmt_ind'; intros s Hs; cbn [resolve_stmt].
      - pose proof (resolve_import_ok i s Hs) as H.
        pose proof (resolve_import_snd fs inst p res ld i s) as H2.
        destruct (resolve_import fs inst p res ld i s) as [s1 r1]. cbn [fst snd] in *. subst r1. split; [exact H|exact I].
      - destruct (d_kind d) eqn:Ek.
        2-4: cbn [fst snd]; split; [apply report_ok, insert_own_ok, Hs|exact I].
        rewrite resolve_stmts_eq.
        match goal with |- context [resolve_stmts fs inst p res ld body ?s0] =>
          assert (H0 : state_ok s0); [|destruct (resolve_stmts_ok body IH s0 H0) as [H1 H2]; destruct (resolve_stmts fs inst p res ld body s0) as [s2 rb]] end.
        { apply push_ok. apply report_ok. destruct (is_global s); [|exact Hs].
          destruct Hs as [Ha Hb']. split; cbn [p_scopes p_aliases].
          - destruct (in_cur (d_name d) (p_scopes s)); [exact Ha|apply insert_cur_ok; [left; reflexivity|exact Ha]].
          - destruct (lookup (d_name d) (p_aliases s)); [exact Hb'|].
            intros n' e' [E|H']; [injection E as <- <-; left; reflexivity|eapply Hb'; eauto]. }
        cbn [fst snd] in *. split; [apply pop_ok; exact H1|apply ruses_ok_decl; exact H2].
      - set (e := match k with KFunc => lookup n (p_aliases s) | _ => lookup_scopes n (p_scopes s) end).
        assert (He : forall e0, e = Some e0 -> entry_ok e0).
        { intros e0. subst e. destruct Hs as [Ha Hb']. destruct k; intros H;
            first [solve [eapply lookup_ok; eauto]|solve [eapply lookup_scopes_ok; eauto]]. }
        destruct e as [[q d]|]; [|split; [apply report_ok; exact Hs|exact I]].
        destruct (kind_eqb (d_kind d) k); cbn [fst snd]; [split; [exact Hs|apply He; reflexivity]|split; [apply report_ok; exact Hs|exact I]].
      - split; [exact Hs|exact I].
      - rewrite resolve_stmts_eq.
        destruct (resolve_stmts_ok body IH (push s) (push_ok s Hs)) as [H1 H2].
        destruct (resolve_stmts fs inst p res ld body (push s)) as [s2 rb]. cbn [fst snd] in *.
        split; [apply pop_ok; exact H1|apply ruses_ok_block; exact H2].
    Qed.

    (* C10: whatever the program, a name only ever resolves to a declaration of the module itself or to a
       public top-level declaration of another module *)
    Theorem resolve_never_private src :
      ruses_ok_l (snd (resolve_module fs inst p res ld src)).
    Proof.
      apply resolve_stmts_ok; [apply Forall_forall; intros x _; apply resolve_stmt_ok|].
      split; [constructor; [intros n e []|constructor]|intros n e []].
    Qed.

    Lemma report_has_diag line c errs s : has_diag_at inst line (p_diags (report inst p line (c :: errs) s)) = true.
    Proof.
      unfold report. destruct (has_diag_at inst line (p_diags s)) eqn:E; [exact E|].
      cbn [p_diags]. unfold has_diag_at. rewrite existsb_app. cbn [existsb dg_inst dg_line].
      rewrite !N.eqb_refl. cbn. apply orb_true_r.
    Qed.

    Lemma resolve_step_errs l : forall st n, In (n, None) l -> snd (fold_left import_resolve_step l st) <> [].
    Proof.
      assert (Hgrow : forall l' st, snd st <> [] -> snd (fold_left import_resolve_step l' st) <> []).
      { induction l' as [|[n [e|]] l' IH]; intros [s0 e0] H0; cbn [fold_left]; auto; apply IH; cbn [import_resolve_step].
        - destruct (in_cur n (p_scopes s0)); cbn [snd] in *; [destruct e0; [congruence|discriminate]|exact H0].
        - cbn [snd] in *. destruct e0; discriminate. }
      induction l as [|[n' [e|]] l IH]; intros [s0 e0] n Hn; [destruct Hn| |]; cbn [fold_left].
      - destruct Hn as [E|Hn]; [discriminate|]. eapply IH; eauto.
      - destruct Hn as [E|Hn]; [|eapply IH; eauto]. apply Hgrow. cbn [import_resolve_step snd]. destruct e0; discriminate.
    Qed.

    (* a selective import of a name that is not public in the module is diagnosed at that statement *)
    Theorem named_import_unknown_diagnosed i ns q ms n s :
      i_form i = INamed ns -> lookup (i_line i) res = Some (q :: ms) -> In n ns ->
      find_decl n (public_of fs q) = None ->
      has_diag_at inst (i_line i) ld = true \/
      has_diag_at inst (i_line i) (p_diags (fst (resolve_import fs inst p res ld i s))) = true.
    Proof.
      intros Hf Hres Hn Hfind. destruct (has_diag_at inst (i_line i) ld) eqn:Eld; [left; reflexivity|right].
      unfold resolve_import. rewrite Hres, Eld.
      assert (Hin : In (n, None) (imported_decls fs i (q :: ms))).
      { rewrite (named_import_exact i q ms ns Hf). apply in_map_iff. exists n. rewrite Hfind. auto. }
      destruct (fold_left import_alias_step (imported_decls fs i (q :: ms)) (s, [])) as [s1 e1].
      pose proof (resolve_step_errs _ (s1, []) n Hin) as He.
      destruct (fold_left import_resolve_step (imported_decls fs i (q :: ms)) (s1, [])) as [s2 e2]. cbn [fst snd] in *.
      destruct (e1 ++ e2) as [|c errs] eqn:E; [apply app_eq_nil in E; tauto|]. apply report_has_diag.
    Qed.

    (* a name that nothing made visible cannot be used *)
    Theorem invisible_use_refused line n k s :
      k <> KFunc -> lookup_scopes n (p_scopes s) = None ->
      has_diag_at inst line (p_diags (fst (resolve_stmt fs inst p res ld (SUse line n k) s))) = true /\
      snd (resolve_stmt fs inst p res ld (SUse line n k) s) = RUse line k None.
    Proof.
      intros Hk Hl. cbn [resolve_stmt]. destruct k; [congruence| | |]; rewrite Hl; cbn [fst snd];
        (split; [apply report_has_diag|reflexivity]).
    Qed.

    Theorem invisible_call_refused line n s :
      lookup n (p_aliases s) = None ->
      has_diag_at inst line (p_diags (fst (resolve_stmt fs inst p res ld (SUse line n KFunc) s))) = true /\
      snd (resolve_stmt fs inst p res ld (SUse line n KFunc) s) = RUse line KFunc None.
    Proof.
      intros Hl. cbn [resolve_stmt]. rewrite Hl. cbn [fst snd]. split; [apply report_has_diag|reflexivity].
    Qed.
  End WithRes.
  End Resolver.
End Visible.
