(* C17 — lemmas about the language-construct model of Lib/Base.v, and the list facts the loop invariants share *)
From Coq Require Import List ZArith Bool Lia.
From DDP Require Import Lib.Base.
Import ListNotations.
Open Scope Z_scope.

Lemma len_nil {A} : len (@nil A) = 0. Proof. reflexivity. Qed.
Lemma len_cons {A} (x : A) l : len (x :: l) = len l + 1.
Proof. unfold len. cbn [length]. lia. Qed.
Lemma len_app {A} (a b : list A) : len (a ++ b) = len a + len b.
Proof. unfold len. rewrite app_length. lia. Qed.
Lemma len_snoc {A} (l : list A) x : len (l ++ [x]) = len l + 1.
Proof. now rewrite len_app, len_cons. Qed.
Lemma len_nonneg {A} (l : list A) : 0 <= len l.
Proof. unfold len. lia. Qed.
Lemma len_repeat {A} (x : A) n : len (repeat x n) = Z.of_nat n.
Proof. unfold len. now rewrite repeat_length. Qed.
Lemma len_rev {A} (l : list A) : len (rev l) = len l.
Proof. unfold len. now rewrite rev_length. Qed.
Lemma len_map {A B} (f : A -> B) l : len (map f l) = len l.
Proof. unfold len. now rewrite map_length. Qed.
Lemma len_pos {A} (l : list A) : l <> [] -> 0 < len l.
Proof. destruct l as [|x r]; [congruence|]. intros _. rewrite len_cons. pose proof (len_nonneg r). lia. Qed.
Lemma len_zero_nil {A} (l : list A) : len l = 0 -> l = [].
Proof. destruct l as [|x r]; [reflexivity|]. intros H. pose proof (len_pos (x :: r) ltac:(discriminate)). lia. Qed.
Lemma len_eqb0 {A} (l : list A) : (len l =? 0) = match l with [] => true | _ => false end.
Proof. destruct l as [|x r]; [reflexivity|]. apply Z.eqb_neq. pose proof (len_pos (x :: r) ltac:(discriminate)). lia. Qed.
Lemma of_nat_S k : Z.of_nat k + 1 = Z.of_nat (S k).
Proof. lia. Qed.
Lemma to_nat_len {A} (l : list A) : Z.to_nat (len l) = length l.
Proof. unfold len. lia. Qed.

Lemma app_snoc {A} (pre : list A) x suf : pre ++ x :: suf = (pre ++ [x]) ++ suf.
Proof. now rewrite <- app_assoc. Qed.

Lemma tl_skipn {A} (l : list A) k : tl (skipn k l) = skipn (S k) l.
Proof. revert l. induction k as [|k IH]; intros [|x l]; cbn [skipn tl]; auto. apply IH. Qed.
Lemma skipn_add {A} (l : list A) a b : skipn a (skipn b l) = skipn (b + a) l.
Proof. revert l. induction b as [|b IH]; intros l; [reflexivity|]. destruct l as [|x l]; cbn [skipn Nat.add]; [now rewrite skipn_nil|apply IH]. Qed.
Lemma nth_error_skipn' {A} (l : list A) : forall n i, nth_error (skipn n l) i = nth_error l (n + i).
Proof. induction l as [|x l IH]; intros [|n] i; cbn [skipn Nat.add nth_error]; auto. destruct i; reflexivity. Qed.
Lemma nth_error_firstn' {A} (l : list A) : forall n i, (i < n)%nat -> nth_error (firstn n l) i = nth_error l i.
Proof.
  induction l as [|x l IH]; intros [|n] [|i] H; cbn [firstn nth_error]; auto; try lia. apply IH. lia.
Qed.
Lemma skipn_cons_nth {A} (l : list A) j x : nth_error l j = Some x -> exists r, skipn j l = x :: r.
Proof.
  revert j. induction l as [|y l IH]; intros [|j] H; cbn in H; try discriminate.
  - injection H as ->. exists l. reflexivity.
  - cbn [skipn]. now apply IH.
Qed.
Lemma skipn_app_len {A} (a b : list A) : skipn (length a) (a ++ b) = b.
Proof. now rewrite skipn_app, skipn_all, Nat.sub_diag. Qed.
Lemma firstn_app_len {A} (a b : list A) : firstn (length a) (a ++ b) = a.
Proof. rewrite firstn_app, firstn_all, Nat.sub_diag. cbn [firstn]. apply app_nil_r. Qed.

Lemma set_nth_length {A} (l : list A) n v : length (set_nth l n v) = length l.
Proof. revert n. induction l as [|x r IH]; intros [|n]; cbn; auto. Qed.
Lemma len_set_nth {A} (l : list A) n v : len (set_nth l n v) = len l.
Proof. unfold len. now rewrite set_nth_length. Qed.
Lemma set_nth_mid {A} (pre : list A) x suf v : set_nth (pre ++ x :: suf) (length pre) v = pre ++ v :: suf.
Proof. induction pre as [|p pre IH]; cbn; [reflexivity|]. now rewrite IH. Qed.
Lemma set_nth_app_r {A} (p : list A) x s n v : set_nth (p ++ x :: s) (length p + S n) v = p ++ x :: set_nth s n v.
Proof. induction p as [|y p IH]; cbn; [reflexivity|]. now rewrite IH. Qed.
Lemma nth_set_nth_same {A} (l : list A) n v d : (n < length l)%nat -> nth n (set_nth l n v) d = v.
Proof. revert n. induction l as [|x r IH]; intros [|n] H; cbn in *; try lia; auto. apply IH. lia. Qed.
Lemma nth_set_nth_other {A} (l : list A) n m v d : n <> m -> nth m (set_nth l n v) d = nth m l d.
Proof. revert n m. induction l as [|x r IH]; intros [|n] [|m] H; cbn; try congruence; auto. Qed.
Lemma set_nth_same {A} (l : list A) n d : set_nth l n (nth n l d) = l.
Proof. revert n. induction l as [|x r IH]; intros [|n]; cbn; auto. now rewrite IH. Qed.
Lemma set_nth_comm {A} (l : list A) a b x y : a <> b -> set_nth (set_nth l a x) b y = set_nth (set_nth l b y) a x.
Proof. revert a b. induction l as [|z r IH]; intros [|a] [|b] H; cbn; try congruence; auto. f_equal. apply IH. congruence. Qed.

Lemma in_rangeP {A} (l : list A) i : reflect (1 <= i <= len l) ((1 <=? i) && (i <=? len l)).
Proof. apply iff_reflect. now rewrite andb_true_iff, !Z.leb_le. Qed.

Lemma rd_nth {A} (d : A) (l : list A) i : 1 <= i <= len l -> rd l i = Ok (nth (Z.to_nat (i - 1)) l d).
Proof.
  intros H. unfold rd. destruct (in_rangeP l i); [|contradiction].
  now rewrite (nth_error_nth' l d) by (unfold len in H; lia).
Qed.
Lemma rd_nth_error {A} (l : list A) i : 1 <= i <= len l -> exists x, rd l i = Ok x /\ nth_error l (Z.to_nat (i - 1)) = Some x.
Proof.
  intros H. unfold rd. destruct (in_rangeP l i); [|contradiction].
  destruct (nth_error l (Z.to_nat (i - 1))) as [x|] eqn:E; [now exists x|].
  apply nth_error_None in E. unfold len in H. lia.
Qed.

Lemma rd_out {A} (l : list A) i : i < 1 \/ len l < i -> rd l i = Err.
Proof. intros H. unfold rd. destruct (in_rangeP l i); [lia|reflexivity]. Qed.
Lemma wr_ok {A} (l : list A) i v : 1 <= i <= len l -> wr l i v = Ok (set_nth l (Z.to_nat (i - 1)) v).
Proof. intros H. unfold wr. destruct (in_rangeP l i); [reflexivity|contradiction]. Qed.
Lemma wr_out {A} (l : list A) i v : i < 1 \/ len l < i -> wr l i v = Err.
Proof. intros H. unfold wr. destruct (in_rangeP l i); [lia|reflexivity]. Qed.

(* the element behind a prefix of i - 1 elements *)
Lemma in_range_mid {A} (pre : list A) x suf : 1 <= len pre + 1 <= len (pre ++ x :: suf).
Proof. rewrite len_app, len_cons. pose proof (len_nonneg pre). pose proof (len_nonneg suf). lia. Qed.
Lemma rd_at {A} (l pre : list A) x suf i : l = pre ++ x :: suf -> i = len pre + 1 -> rd l i = Ok x.
Proof.
  intros -> ->. rewrite (rd_nth x) by apply in_range_mid.
  replace (Z.to_nat (len pre + 1 - 1)) with (length pre) by (unfold len; lia). now rewrite nth_middle.
Qed.
Lemma wr_at {A} (l pre : list A) x suf i v : l = pre ++ x :: suf -> i = len pre + 1 -> wr l i v = Ok (pre ++ v :: suf).
Proof.
  intros -> ->. rewrite wr_ok by apply in_range_mid.
  replace (Z.to_nat (len pre + 1 - 1)) with (length pre) by (unfold len; lia). now rewrite set_nth_mid.
Qed.
Lemma rd_mid {A} (pre : list A) x suf : rd (pre ++ x :: suf) (len pre + 1) = Ok x.
Proof. now apply (rd_at _ pre x suf). Qed.
Lemma wr_mid {A} (pre : list A) x suf v : wr (pre ++ x :: suf) (len pre + 1) v = Ok (pre ++ v :: suf).
Proof. now apply (wr_at _ pre x suf). Qed.
Lemma rd_cons_1 {A} (x : A) l : rd (x :: l) 1 = Ok x.
Proof. apply (rd_mid [] x l). Qed.

Lemma mal_ok {A} n (x : A) : 0 <= n -> mal n x = Ok (repeat x (Z.to_nat n)).
Proof. intros H. unfold mal. destruct (Z.ltb_spec n 0); [lia|reflexivity]. Qed.
Lemma mal_len {A B} (l : list B) (x : A) : mal (len l) x = Ok (repeat x (length l)).
Proof. rewrite mal_ok by apply len_nonneg. now rewrite to_nat_len. Qed.

Lemma clampZ_minmax v lo hi : clampZ v lo hi = Z.min hi (Z.max lo v).
Proof. unfold clampZ. destruct (Z.ltb_spec v lo); [destruct (Z.gtb_spec lo hi)|destruct (Z.gtb_spec v hi)]; lia. Qed.
Lemma clampZ_id v lo hi : lo <= v <= hi -> clampZ v lo hi = v.
Proof. rewrite clampZ_minmax. lia. Qed.
Lemma clampZ_range v lo hi : lo <= hi -> lo <= clampZ v lo hi <= hi.
Proof. rewrite clampZ_minmax. lia. Qed.
Lemma clampZ_ge v lo hi x : x <= v -> x <= hi -> x <= clampZ v lo hi.
Proof. rewrite clampZ_minmax. lia. Qed.
Lemma clampZ_low v lo hi : lo <= hi -> v <= lo -> clampZ v lo hi = lo.
Proof. rewrite clampZ_minmax. lia. Qed.
Lemma clampZ_high v lo hi : lo <= hi -> hi <= v -> clampZ v lo hi = hi.
Proof. rewrite clampZ_minmax. lia. Qed.

Lemma slice_nil {A} i1 i2 : slice (@nil A) i1 i2 = Ok [].
Proof. reflexivity. Qed.

Lemma slice_clamped {A} (l : list A) i1 i2 : 0 < len l ->
  slice l i1 i2 =
    let a := clampZ i1 1 (len l) in let b := clampZ i2 1 (len l) in
    if b <? a then Err else Ok (firstn (Z.to_nat (b - a + 1)) (skipn (Z.to_nat (a - 1)) l)).
Proof. intros H. unfold slice. destruct (Z.leb_spec (len l) 0); [lia|reflexivity]. Qed.

Lemma slice_in {A} (l : list A) a b : 1 <= a -> a <= b -> b <= len l ->
  slice l a b = Ok (firstn (Z.to_nat (b - a + 1)) (skipn (Z.to_nat (a - 1)) l)).
Proof.
  intros H1 H2 H3. rewrite slice_clamped by lia. cbv zeta.
  rewrite !clampZ_id by lia. destruct (Z.ltb_spec b a); [lia|reflexivity].
Qed.

(* the window of ns elements behind the first k *)
Lemma slice_window {A} (t : list A) k ns : 0 <= k -> 0 < ns -> k + ns <= len t ->
  slice t (k + 1) (k + ns) = Ok (firstn (Z.to_nat ns) (skipn (Z.to_nat k) t)).
Proof.
  intros Hk Hns Hb. rewrite slice_in by lia.
  replace (k + ns - (k + 1) + 1) with ns by lia. replace (k + 1 - 1) with k by lia. reflexivity.
Qed.

(* the part b of p ++ b ++ r *)
Lemma slice_app_mid {A} (p b r : list A) : b <> [] -> slice (p ++ b ++ r) (len p + 1) (len (p ++ b)) = Ok b.
Proof.
  intros Hb. pose proof (len_pos b Hb). pose proof (len_nonneg p). pose proof (len_nonneg r).
  rewrite slice_in by (rewrite ?len_app; lia). rewrite len_app.
  replace (len p + len b - (len p + 1) + 1) with (len b) by lia. replace (len p + 1 - 1) with (len p) by lia.
  now rewrite !to_nat_len, skipn_app_len, firstn_app_len.
Qed.
Lemma slice_to_in {A} (l : list A) n : 1 <= n <= len l -> slice_to l n = Ok (firstn (Z.to_nat n) l).
Proof. intros H. apply (slice_window l 0 n); lia. Qed.

Lemma slice_from_in {A} (l : list A) i : 1 <= i <= len l -> slice_from l i = Ok (skipn (Z.to_nat (i - 1)) l).
Proof.
  intros H. unfold slice_from. rewrite slice_in by lia.
  rewrite firstn_all2; [reflexivity|]. rewrite skipn_length. unfold len in *. lia.
Qed.

(* the general (clamping) behaviour of the two one-sided slices on a non-empty container *)
Lemma slice_to_clamp {A} (l : list A) n : 0 < len l ->
  slice_to l n = Ok (firstn (Z.to_nat (clampZ n 1 (len l))) l).
Proof.
  intros H. pose proof (clampZ_range n 1 (len l) ltac:(lia)) as Hr.
  unfold slice_to. rewrite slice_clamped by assumption. cbv zeta. rewrite (clampZ_id 1) by lia.
  destruct (Z.ltb_spec (clampZ n 1 (len l)) 1); [lia|].
  now replace (clampZ n 1 (len l) - 1 + 1) with (clampZ n 1 (len l)) by lia.
Qed.

Lemma slice_from_clamp {A} (l : list A) i : 0 < len l ->
  slice_from l i = Ok (skipn (Z.to_nat (clampZ i 1 (len l) - 1)) l).
Proof.
  intros H. pose proof (clampZ_range i 1 (len l) ltac:(lia)) as Hr.
  unfold slice_from. rewrite slice_clamped by assumption. cbv zeta. rewrite (clampZ_id (len l)) by lia.
  destruct (Z.ltb_spec (len l) (clampZ i 1 (len l))); [lia|].
  rewrite firstn_all2; [reflexivity|]. rewrite skipn_length. unfold len in *. lia.
Qed.

Lemma wrap64_id z : in_i64 z -> wrap64 z = z.
Proof. unfold in_i64, wrap64, two63, two64. intros H. rewrite Z.mod_small; lia. Qed.

Lemma wrap64_range z : in_i64 (wrap64 z).
Proof.
  unfold in_i64, wrap64, two63, two64.
  pose proof (Z.mod_pos_bound (z + 9223372036854775808) 18446744073709551616 ltac:(lia)). lia.
Qed.

(* wrap64 only depends on the residue modulo 2^64, and keeps it *)
Lemma wrap64_eqm a b : a mod two64 = b mod two64 -> wrap64 a = wrap64 b.
Proof. intros H. unfold wrap64. now rewrite <- (Zplus_mod_idemp_l a), H, Zplus_mod_idemp_l. Qed.
Lemma wrap64_mod z : wrap64 z mod two64 = z mod two64.
Proof. unfold wrap64. rewrite <- Z.add_opp_r, Zplus_mod_idemp_l. f_equal. lia. Qed.

Lemma wrap64_add_l a b : wrap64 (wrap64 a + b) = wrap64 (a + b).
Proof. apply wrap64_eqm. now rewrite <- Zplus_mod_idemp_l, wrap64_mod, Zplus_mod_idemp_l. Qed.

Lemma wrap64_mul_l a b : wrap64 (wrap64 a * b) = wrap64 (a * b).
Proof. apply wrap64_eqm. now rewrite <- Zmult_mod_idemp_l, wrap64_mod, Zmult_mod_idemp_l. Qed.
