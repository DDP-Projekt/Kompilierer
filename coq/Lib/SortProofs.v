(* C17 — Sortierung.ddp: the iterative quicksort returns a sorted permutation of its argument *)
From Coq Require Import List ZArith Lia Permutation Sorted.
From DDP Require Import Lib.Base Lib.BaseProofs Lib.SortFns.
Import ListNotations.
Open Scope Z_scope.

(* 1-based read with a default, for stating invariants *)
Definition at1 (l : list Z) (k : Z) : Z := nth (Z.to_nat (k - 1)) l 0.

Lemma rd_at1 l k : 1 <= k <= len l -> rd l k = Ok (at1 l k).
Proof. apply rd_nth. Qed.
Lemma at1_set_same l k v : 1 <= k <= len l -> at1 (set_nth l (Z.to_nat (k - 1)) v) k = v.
Proof. intros H. unfold at1. apply nth_set_nth_same. unfold len in H. lia. Qed.
Lemma at1_set_other l k k' v : 1 <= k -> 1 <= k' -> k <> k' -> at1 (set_nth l (Z.to_nat (k - 1)) v) k' = at1 l k'.
Proof. intros H1 H2 H3. unfold at1. apply nth_set_nth_other. lia. Qed.
Lemma at1_cons x r k : 1 <= k -> at1 (x :: r) (k + 1) = at1 r k.
Proof. intros H. unfold at1. now replace (Z.to_nat (k + 1 - 1)) with (S (Z.to_nat (k - 1))) by lia. Qed.

Lemma nth_split2 (l : list Z) i j : (i < j)%nat -> (j < length l)%nat ->
  exists p m s, l = p ++ nth i l 0 :: m ++ nth j l 0 :: s /\ length p = i /\ (length p + S (length m))%nat = j.
Proof.
  intros Hij Hj. destruct (@nth_split _ i l 0 ltac:(lia)) as (p & rest & E & Hp).
  assert (Hl : length l = (length p + S (length rest))%nat) by (rewrite E at 1; now rewrite app_length).
  destruct (@nth_split _ (j - i - 1) rest 0 ltac:(lia)) as (m & s & E2 & Hm).
  exists p, m, s. split; [|lia].
  replace (nth j l 0) with (nth (j - i - 1) rest 0); [now rewrite <- E2|].
  rewrite E at 1. rewrite app_nth2 by lia. now replace (j - length p)%nat with (S (j - i - 1)) by lia.
Qed.

Lemma swap_perm_lt (l : list Z) i j : (i < j)%nat -> (j < length l)%nat ->
  Permutation (set_nth (set_nth l i (nth j l 0)) j (nth i l 0)) l.
Proof.
  intros Hij Hj. destruct (nth_split2 l i j Hij Hj) as (p & m & s & E & <- & <-).
  revert E. generalize (nth (length p) l 0) as a, (nth (length p + S (length m)) l 0) as b. intros a b ->.
  rewrite set_nth_mid, set_nth_app_r, set_nth_mid. apply Permutation_app_head.
  (* b :: m ++ a :: s  ~  a :: m ++ b :: s *)
  transitivity (b :: a :: m ++ s); [apply perm_skip; symmetry; apply Permutation_middle|].
  transitivity (a :: b :: m ++ s); [apply perm_swap|]. apply perm_skip, Permutation_middle.
Qed.

Lemma tausche_in_spec l i j : 1 <= i <= len l -> 1 <= j <= len l ->
  exists l', tausche_in l i j = Ok l' /\ len l' = len l /\ Permutation l' l /\
    at1 l' i = at1 l j /\ at1 l' j = at1 l i /\ (forall k, 1 <= k -> k <> i -> k <> j -> at1 l' k = at1 l k).
Proof.
  intros Hi Hj. unfold tausche_in, Tausche. rewrite !rd_at1 by assumption. cbn [bind].
  rewrite wr_ok by assumption. cbn [bind]. rewrite wr_ok by (rewrite len_set_nth; assumption).
  eexists. split; [reflexivity|]. split; [now rewrite !len_set_nth|].
  destruct (Z.eq_dec i j) as [->|Hne].
  - (* i = j: the list is unchanged *)
    replace (set_nth (set_nth l (Z.to_nat (j - 1)) (at1 l j)) (Z.to_nat (j - 1)) (at1 l j)) with l
      by (unfold at1; now rewrite !set_nth_same).
    repeat split; auto.
  - split.
    + unfold at1. unfold len in *. destruct (Z.lt_ge_cases i j).
      * apply swap_perm_lt; lia.
      * rewrite set_nth_comm by lia. apply swap_perm_lt; lia.
    + repeat split.
      * rewrite at1_set_other by lia. now rewrite at1_set_same.
      * apply at1_set_same. now rewrite len_set_nth.
      * intros k Hk H1 H2. now rewrite !at1_set_other by lia.
Qed.

(* l' results from l by swaps inside [lo, hi] *)
Definition within (l l' : list Z) (lo hi : Z) : Prop :=
  len l' = len l /\ Permutation l' l /\
  (forall k, 1 <= k -> (k < lo \/ hi < k) -> at1 l' k = at1 l k) /\
  (forall k, lo <= k <= hi -> exists k', lo <= k' <= hi /\ at1 l' k = at1 l k').

Lemma within_refl l lo hi : within l l lo hi.
Proof. repeat split; auto. intros k H. exists k. auto. Qed.
Lemma within_trans l1 l2 l3 lo hi : within l1 l2 lo hi -> within l2 l3 lo hi -> within l1 l3 lo hi.
Proof.
  intros (A1 & A2 & A3 & A4) (B1 & B2 & B3 & B4). repeat split.
  - lia.
  - now transitivity l2.
  - intros k Hk Ho. rewrite B3, A3; auto.
  - intros k Hk. destruct (B4 k Hk) as (k' & Hk' & E1). destruct (A4 k' Hk') as (k'' & Hk'' & E2).
    exists k''. split; [assumption|congruence].
Qed.
(* every element of l' comes from l: from inside the range if it stands inside, from its own place otherwise *)
Lemma within_src l l' lo hi k : within l l' lo hi -> 1 <= k ->
  exists k', at1 l' k = at1 l k' /\ ((lo <= k <= hi /\ lo <= k' <= hi) \/ (~ lo <= k <= hi /\ k' = k)).
Proof.
  intros (_ & _ & Wout & Win) Hk. destruct (Z_le_gt_dec lo k); [destruct (Z_le_gt_dec k hi)|].
  - destruct (Win k ltac:(lia)) as (k' & Hk' & E). exists k'. split; [exact E|left; lia].
  - exists k. split; [apply Wout; lia|right; lia].
  - exists k. split; [apply Wout; lia|right; lia].
Qed.
Lemma within_swap l i j lo hi : 1 <= lo -> hi <= len l -> lo <= i <= hi -> lo <= j <= hi ->
  exists l', tausche_in l i j = Ok l' /\ within l l' lo hi /\ at1 l' i = at1 l j /\ at1 l' j = at1 l i /\
    (forall k, 1 <= k -> k <> i -> k <> j -> at1 l' k = at1 l k).
Proof.
  intros Hlo Hhi Hi Hj.
  destruct (tausche_in_spec l i j ltac:(lia) ltac:(lia)) as (l' & E & Hl & Hp & Gi & Gj & Go).
  exists l'. split; [exact E|]. split; [|auto].
  repeat split; auto.
  - intros k Hk Ho. apply Go; lia.
  - intros k Hk. destruct (Z.eq_dec k i) as [->|Hki]; [exists j; auto|].
    destruct (Z.eq_dec k j) as [->|Hkj]; [exists i; auto|].
    exists k. split; [assumption|]. apply Go; lia.
Qed.

Lemma sortiere_zwei_spec l i j lo hi : 1 <= lo -> hi <= len l -> lo <= i <= hi -> lo <= j <= hi ->
  exists l', sortiere_zwei l i j = Ok l' /\ within l l' lo hi /\ at1 l' i <= at1 l' j /\
    (forall k, 1 <= k -> k <> i -> k <> j -> at1 l' k = at1 l k) /\
    ((at1 l' i = at1 l i /\ at1 l' j = at1 l j) \/ (at1 l' i = at1 l j /\ at1 l' j = at1 l i)).
Proof.
  intros Hlo Hhi Hi Hj. unfold sortiere_zwei. rewrite !rd_at1 by lia. cbn [bind].
  destruct (Z.gtb_spec (at1 l i) (at1 l j)) as [E|E].
  - destruct (within_swap l i j lo hi Hlo Hhi Hi Hj) as (l' & E1 & W & Gi & Gj & Go).
    exists l'. split; [exact E1|]. split; [exact W|]. split; [lia|]. split; [exact Go|]. right. auto.
  - exists l. split; [reflexivity|]. split; [apply within_refl|]. split; [lia|]. split; [auto|]. left. auto.
Qed.

Lemma drei_werte_spec l ia ib ic lo hi : 1 <= lo -> hi <= len l ->
  lo <= ia <= hi -> lo <= ib <= hi -> lo <= ic <= hi -> ia <> ib -> ib <> ic -> ia <> ic ->
  exists l', drei_werte_sortieren l ia ib ic = Ok l' /\ within l l' lo hi /\ at1 l' ia <= at1 l' ib /\ at1 l' ib <= at1 l' ic.
Proof.
  intros Hlo Hhi Ha Hb Hc Nab Nbc Nac. unfold drei_werte_sortieren.
  destruct (sortiere_zwei_spec l ia ic lo hi Hlo Hhi Ha Hc) as (l1 & E1 & W1 & O1 & K1 & _).
  rewrite E1. cbn [bind].
  assert (L1 : len l1 = len l) by apply W1.
  destruct (sortiere_zwei_spec l1 ia ib lo hi Hlo ltac:(lia) Ha Hb) as (l2 & E2 & W2 & O2 & K2 & C2).
  rewrite E2. cbn [bind].
  assert (L2 : len l2 = len l1) by apply W2.
  destruct (sortiere_zwei_spec l2 ib ic lo hi Hlo ltac:(lia) Hb Hc) as (l3 & E3 & W3 & O3 & K3 & C3).
  exists l3. split; [exact E3|]. split.
  - apply (within_trans l l2 l3 lo hi); [|exact W3]. apply (within_trans l l1 l2 lo hi); assumption.
  - assert (Hc2 : at1 l2 ic = at1 l1 ic) by (apply K2; lia).
    assert (Ha3 : at1 l3 ia = at1 l2 ia) by (apply K3; lia).
    split; [|exact O3]. destruct C2 as [[A B]|[A B]], C3 as [[C D]|[C D]]; lia.
Qed.

Lemma scan_up_spec fuel : forall l pivot re i0, 1 <= i0 <= re -> re <= len l -> pivot <= at1 l re ->
  re - i0 < Z.of_nat fuel ->
  exists i', scan_up fuel l pivot i0 = Ok i' /\ i0 <= i' <= re /\ (forall k, i0 <= k < i' -> at1 l k < pivot) /\ pivot <= at1 l i'.
Proof.
  induction fuel as [|f IH]; intros l pivot re i0 Hi Hre Hp Hf; [lia|].
  cbn [scan_up]. rewrite rd_at1 by lia. cbn [bind].
  destruct (Z.ltb_spec (at1 l i0) pivot) as [E|E].
  - assert (i0 <> re) by (intros ->; lia).
    destruct (IH l pivot re (i0 + 1) ltac:(lia) Hre Hp ltac:(lia)) as (i' & E' & R & A & B).
    exists i'. split; [exact E'|]. split; [lia|]. split; [|exact B].
    intros k Hk. destruct (Z.eq_dec k i0) as [->|]; [exact E|]. apply A. lia.
  - exists i0. split; [reflexivity|]. split; [lia|]. split; [intros k Hk; lia|exact E].
Qed.

Lemma scan_down_spec fuel : forall l pivot li j0, 1 <= li -> j0 <= len l -> li - 1 <= j0 ->
  j0 - li + 1 < Z.of_nat fuel ->
  exists j', scan_down fuel l pivot li j0 = Ok j' /\ li - 1 <= j' <= j0 /\ (forall k, j' < k <= j0 -> pivot < at1 l k) /\
    (j' < li \/ at1 l j' <= pivot).
Proof.
  induction fuel as [|f IH]; intros l pivot li j0 Hli Hj Hlo Hf; [lia|].
  cbn [scan_down]. destruct (Z.geb_spec j0 li) as [Ej|Ej].
  - rewrite rd_at1 by lia. cbn [bind].
    destruct (Z.gtb_spec (at1 l j0) pivot) as [E|E].
    + destruct (IH l pivot li (j0 - 1) Hli ltac:(lia) ltac:(lia) ltac:(lia)) as (j' & E' & R & A & B).
      exists j'. split; [exact E'|]. split; [lia|]. split; [|exact B].
      intros k Hk. destruct (Z.eq_dec k j0) as [->|]; [exact E|]. apply A. lia.
    + exists j0. split; [reflexivity|]. split; [lia|]. split; [intros k Hk; lia|right; exact E].
  - exists j0. split; [reflexivity|]. split; [lia|]. split; [intros k Hk; lia|left; lia].
Qed.

(* position p splits the range: nothing larger in front of it, nothing smaller behind it *)
Definition teilt (l : list Z) (li re p : Z) : Prop :=
  (forall k, li <= k < p -> at1 l k <= at1 l p) /\ (forall k, p < k <= re -> at1 l p <= at1 l k).

Lemma partition_loop_spec pivot li re fuel : forall l i j, 1 <= li -> re <= len l -> li - 1 <= i -> i < j -> j <= re ->
  at1 l re = pivot -> (forall k, li <= k <= i -> at1 l k <= pivot) -> (forall k, j <= k <= re -> pivot <= at1 l k) ->
  j - i < Z.of_nat fuel ->
  exists l' p, partition_loop fuel l pivot li re i j = Ok (l', p) /\ within l l' li re /\ li <= p <= re /\ teilt l' li re p.
Proof.
  induction fuel as [|f IH]; intros l i j Hli Hre Hi Hij Hj Hp Hlow Hhigh Hf; [lia|].
  cbn [partition_loop].
  destruct (scan_up_spec (length l + 1) l pivot re (i + 1) ltac:(lia) Hre ltac:(lia) ltac:(unfold len in *; lia))
    as (i' & Ei & Ri & Ai & Bi).
  rewrite Ei. cbn [bind].
  destruct (scan_down_spec (length l + 1) l pivot li (j - 1) Hli ltac:(lia) ltac:(lia) ltac:(unfold len in *; lia))
    as (j' & Ej & Rj & Aj & Bj).
  rewrite Ej. cbn [bind].
  (* what the two scans have established *)
  assert (Hlow' : forall k, li <= k < i' -> at1 l k <= pivot).
  { intros k Hk. destruct (Z_le_gt_dec k i); [apply Hlow; lia|]. pose proof (Ai k ltac:(lia)). lia. }
  assert (Hhigh' : forall k, j' < k <= re -> pivot <= at1 l k).
  { intros k Hk. destruct (Z_le_gt_dec j k); [apply Hhigh; lia|]. pose proof (Aj k ltac:(lia)). lia. }
  destruct (Z.geb_spec i' j') as [Ec|Ec].
  - destruct (within_swap l i' re li re Hli Hre ltac:(lia) ltac:(lia)) as (l' & Es & W & Gi & Gr & Go).
    rewrite Es. cbn [bind]. exists l', i'. split; [reflexivity|]. split; [exact W|]. split; [lia|].
    unfold teilt. rewrite Gi, Hp. split.
    + intros k Hk. rewrite Go by lia. apply Hlow'. lia.
    + intros k Hk. destruct (Z.eq_dec k re) as [->|Hkr]; [now rewrite Gr|]. rewrite Go by lia. apply Hhigh'. lia.
  - assert (Hj'p : at1 l j' <= pivot) by (destruct Bj as [Bj|Bj]; [lia|exact Bj]).
    destruct (within_swap l i' j' li re Hli Hre ltac:(lia) ltac:(lia)) as (l' & Es & W & Gi & Gj & Go).
    rewrite Es. cbn [bind].
    assert (Ll : len l' = len l) by apply W.
    destruct (IH l' i' j' Hli ltac:(lia) ltac:(lia) Ec ltac:(lia)) as (l'' & p & E'' & W'' & Rp & P).
    + rewrite Go by lia. exact Hp.
    + intros k Hk. destruct (Z.eq_dec k i') as [->|Hne]; [now rewrite Gi|]. rewrite Go by lia. apply Hlow'. lia.
    + intros k Hk. destruct (Z.eq_dec k j') as [->|Hne]; [now rewrite Gj|]. rewrite Go by lia. apply Hhigh'. lia.
    + lia.
    + replace (length l') with (length l) in E'' by (unfold len in Ll; lia).
      exists l'', p. split; [exact E''|]. split; [apply (within_trans l l' l'' li re W W'')|]. now split.
Qed.

Lemma quicksort_iter_impl_spec l li re : (li <= re -> 1 <= li /\ re <= len l) ->
  exists l' p, quicksort_iter_impl l li re = Ok (l', p) /\ within l l' li re /\
    (re <= li -> p = li) /\ (li < re -> li <= p <= re) /\ teilt l' li re p.
Proof.
  intros Hv. unfold quicksort_iter_impl.
  destruct (Z.leb_spec re li) as [E0|E0].
  - exists l, li. split; [reflexivity|]. split; [apply within_refl|].
    unfold teilt. repeat split; intros; lia.
  - destruct (Hv ltac:(lia)) as [Hli Hre].
    destruct (Z.eqb_spec (re - li + 1) 2) as [E2|E2].
    + destruct (sortiere_zwei_spec l li re li re Hli Hre ltac:(lia) ltac:(lia)) as (l' & E & W & O & _).
      rewrite E. cbn [bind]. exists l', li. split; [reflexivity|]. split; [exact W|].
      unfold teilt. repeat split; intros; try lia. replace k with re by lia. exact O.
    + set (mi := li + Z.quot (re - li + 1) 2).
      assert (Hq : Z.quot (re - li + 1) 2 = (re - li + 1) / 2) by (apply Z.quot_div_nonneg; lia).
      assert (Hmi : li < mi < re) by (unfold mi; rewrite Hq; pose proof (Z.div_mod (re - li + 1) 2 ltac:(lia));
                                     pose proof (Z.mod_pos_bound (re - li + 1) 2 ltac:(lia)); lia).
      destruct (drei_werte_spec l li mi re li re Hli Hre ltac:(lia) ltac:(lia) ltac:(lia) ltac:(lia) ltac:(lia) ltac:(lia))
        as (l1 & E1 & W1 & O1 & O2).
      rewrite E1. cbn [bind]. assert (L1 : len l1 = len l) by apply W1.
      destruct (Z.eqb_spec (re - li + 1) 3) as [E3|E3].
      * exists l1, mi. split; [reflexivity|]. split; [exact W1|].
        unfold teilt. repeat split; intros; try lia.
        -- replace k with li by lia. exact O1.
        -- replace k with re by lia. exact O2.
      * destruct (within_swap l1 mi re li re Hli ltac:(lia) ltac:(lia) ltac:(lia)) as (l2 & Es & W2 & _ & _ & _).
        rewrite Es. cbn [bind]. assert (L2 : len l2 = len l1) by apply W2.
        rewrite rd_at1 by lia. cbn [bind].
        destruct (partition_loop_spec (at1 l2 re) li re (length l + 1) l2 (li - 1) re Hli ltac:(lia) ltac:(lia) ltac:(lia) ltac:(lia) eq_refl)
          as (l3 & p & E & W3 & Rp & P1 & P2).
        -- intros k Hk. lia.
        -- intros k Hk. replace k with re by lia. lia.
        -- unfold len in *. lia.
        -- exists l3, p. split; [exact E|]. split.
           ++ apply (within_trans l l2 l3 li re); [|exact W3]. apply (within_trans l l1 l2 li re); assumption.
           ++ repeat split; intros; try lia; auto.
Qed.

Definition in_r (r : Z * Z) (k : Z) : Prop := fst r <= k <= snd r.
Definition same_range (stk : list (Z * Z)) (p q : Z) : Prop := exists r, In r stk /\ in_r r p /\ in_r r q.
Definition valid_r (l : list Z) (r : Z * Z) : Prop := fst r <= snd r -> 1 <= fst r /\ snd r <= len l.
Fixpoint disj (stk : list (Z * Z)) : Prop :=
  match stk with
  | [] => True
  | r :: rest => (forall r', In r' rest -> forall k, in_r r k -> ~ in_r r' k) /\ disj rest
  end.
(* the invariant of the loop: elements of different pending ranges (or of none) are already in order;
   inside a pending range nothing is known *)
Definition sorted_except (l : list Z) (stk : list (Z * Z)) : Prop :=
  forall p q, 1 <= p -> p < q -> q <= len l -> ~ same_range stk p q -> at1 l p <= at1 l q.
Definition qs_inv (l : list Z) (stk : list (Z * Z)) : Prop :=
  (forall r, In r stk -> valid_r l r) /\ disj stk /\ sorted_except l stk.
(* a range of n elements is replaced by two of together at most n - 1, and a range of at most one element still costs a round *)
Fixpoint qs_measure (stk : list (Z * Z)) : Z :=
  match stk with
  | [] => 0
  | (li, re) :: rest => 2 * Z.max 0 (re - li + 1) + 1 + qs_measure rest
  end.
Lemma qs_measure_nonneg stk : 0 <= qs_measure stk.
Proof. induction stk as [|[li re] rest IH]; cbn [qs_measure]; lia. Qed.

(* the stack after the range (li, re) has been partitioned at i: the two sides that have more than one element *)
Definition next_stack (li re i : Z) (rest : list (Z * Z)) : list (Z * Z) :=
  let s1 := if i - 1 >? li then (li, i - 1) :: rest else rest in
  if i + 1 <? re then (i + 1, re) :: s1 else s1.

Lemma next_stack_in li re i rest r : In r (next_stack li re i rest) <->
  In r rest \/ (r = (li, i - 1) /\ li < i - 1) \/ (r = (i + 1, re) /\ i + 1 < re).
Proof.
  unfold next_stack. split.
  - destruct (Z.ltb_spec (i + 1) re) as [E2|E2], (Z.gtb_spec (i - 1) li) as [E1|E1]; cbn [In]; intros H;
      repeat (destruct H as [<-|H]; [auto|]); auto.
  - intros [H|[[-> H]|[-> H]]]; destruct (Z.ltb_spec (i + 1) re) as [E2|E2], (Z.gtb_spec (i - 1) li) as [E1|E1]; cbn [In]; auto; lia.
Qed.

Lemma quicksort_loop_S f l li re rest : quicksort_loop (S f) l ((li, re) :: rest) =
  do '(l', i) <- quicksort_iter_impl l li re;; quicksort_loop f l' (next_stack li re i rest).
Proof. reflexivity. Qed.

Section Step.
  Variables (l l' : list Z) (li re i : Z) (rest : list (Z * Z)).
  Hypothesis HI : qs_inv l ((li, re) :: rest).
  Hypothesis W : within l l' li re.
  Hypothesis Hi0 : re <= li -> i = li.
  Hypothesis Hi1 : li < re -> li <= i <= re.
  Hypothesis P : teilt l' li re i.

  Lemma next_valid r : In r (next_stack li re i rest) -> valid_r l' r.
  Proof.
    intros Hr. destruct HI as (Hval & _). destruct W as (Wl & _). unfold valid_r. rewrite Wl.
    pose proof (Hval (li, re) (or_introl eq_refl)) as Hv. unfold valid_r in Hv. cbn [fst snd] in Hv.
    apply next_stack_in in Hr. destruct Hr as [Hr|[[-> Hr]|[-> Hr]]]; cbn [fst snd].
    - apply Hval. now right.
    - intros _. lia.
    - intros _. lia.
  Qed.

  (* the pushed sides lie inside (li, re), on different sides of i *)
  Lemma next_disj : disj (next_stack li re i rest).
  Proof.
    destruct HI as (_ & (Hd1 & Hd2) & _).
    assert (Hside : forall a b, li <= a -> b <= re -> forall r', In r' rest -> forall k, in_r (a, b) k -> ~ in_r r' k).
    { intros a b Ha Hb r' Hr' k Hk. apply (Hd1 r' Hr' k). unfold in_r in *. cbn [fst snd] in *. lia. }
    unfold next_stack. destruct (Z.gtb_spec (i - 1) li) as [E1|E1], (Z.ltb_spec (i + 1) re) as [E2|E2]; cbn [disj].
    - split; [|split; [apply Hside; lia|exact Hd2]].
      intros r' [<-|Hr'] k Hk; [unfold in_r in *; cbn [fst snd] in *; lia|]. revert r' Hr' k Hk. apply Hside; lia.
    - split; [apply Hside; lia|exact Hd2].
    - split; [apply Hside; lia|exact Hd2].
    - exact Hd2.
  Qed.

  Lemma next_sorted : sorted_except l' (next_stack li re i rest).
  Proof.
    destruct HI as (Hval & (Hd1 & _) & Hsort). pose proof W as (Wl & _). destruct P as [P1 P2].
    specialize (Hval (li, re) (or_introl eq_refl)). unfold valid_r in Hval. cbn [fst snd] in Hval.
    intros p q Hp Hpq Hq Hns. rewrite Wl in Hq.
    destruct (within_src l l' li re p W Hp) as (p' & Ep & Cp). destruct (within_src l l' li re q W ltac:(lia)) as (q' & Eq & Cq).
    destruct Cp as [[Pin Pin']|[Pout ->]], Cq as [[Qin Qin']|[Qout ->]].
    - (* both inside: they lie on different sides of the pivot position, or one of them is the pivot *)
      pose proof (Hi1 ltac:(lia)) as Hi. clear Ep Eq Pin' Qin'.
      destruct (Z_lt_dec q i).
      { exfalso. apply Hns. exists (li, i - 1). split; [apply next_stack_in; right; left; split; [reflexivity|lia]|]. unfold in_r. cbn [fst snd]. lia. }
      destruct (Z_lt_dec i p).
      { exfalso. apply Hns. exists (i + 1, re). split; [apply next_stack_in; right; right; split; [reflexivity|lia]|]. unfold in_r. cbn [fst snd]. lia. }
      assert (A : at1 l' p <= at1 l' i) by (destruct (Z.eq_dec p i) as [->|]; [lia|apply P1; lia]).
      assert (B : at1 l' i <= at1 l' q) by (destruct (Z.eq_dec q i) as [->|]; [lia|apply P2; lia]).
      lia.
    - (* p inside, q behind the range: no pending range of l holds a place inside together with q *)
      rewrite Ep, Eq. assert (Hb : 1 <= p' /\ p' < q) by lia. apply Hsort; [apply Hb|apply Hb|exact Hq|].
      intros (r & [<-|Hr] & Rp & Rq); [apply Qout, Rq|exact (Hd1 r Hr p' Pin' Rp)].
    - (* p in front of the range, q inside *)
      rewrite Ep, Eq. assert (Hb : p < q' /\ q' <= len l) by lia. apply Hsort; [exact Hp|apply Hb|apply Hb|].
      intros (r & [<-|Hr] & Rp & Rq); [apply Pout, Rp|exact (Hd1 r Hr q' Qin' Rq)].
    - (* both outside: their values and their pending ranges are those of l *)
      rewrite Ep, Eq. apply Hsort; [exact Hp|exact Hpq|exact Hq|].
      intros (r & [<-|Hr] & Rp & Rq); [apply Pout, Rp|]. apply Hns. exists r. split; [apply next_stack_in; now left|now split].
  Qed.

  Lemma next_measure : qs_measure (next_stack li re i rest) < qs_measure ((li, re) :: rest).
  Proof. unfold next_stack. destruct (Z.gtb_spec (i - 1) li), (Z.ltb_spec (i + 1) re); cbn [qs_measure]; lia. Qed.
End Step.

Lemma quicksort_loop_spec fuel : forall l stk, qs_inv l stk -> qs_measure stk < Z.of_nat fuel ->
  exists l', quicksort_loop fuel l stk = Ok l' /\ Permutation l' l /\ len l' = len l /\ sorted_except l' [].
Proof.
  induction fuel as [|f IH]; intros l stk HI Hf; [pose proof (qs_measure_nonneg stk); lia|].
  destruct stk as [|[li re] rest].
  - exists l. split; [reflexivity|]. split; [reflexivity|]. split; [reflexivity|]. apply HI.
  - assert (Hv : valid_r l (li, re)) by (apply HI; left; reflexivity).
    destruct (quicksort_iter_impl_spec l li re Hv) as (l' & i & E & W & I0 & I1 & P).
    rewrite quicksort_loop_S, E. cbn [bind].
    pose proof (next_measure li re i rest I0 I1) as Hm. pose proof (qs_measure_nonneg (next_stack li re i rest)) as Hn.
    destruct (IH l' (next_stack li re i rest)) as (l'' & E'' & Pm & Ln & S); [|lia|].
    + split; [intros r Hr; eapply next_valid; eassumption|]. split; [eapply next_disj; eassumption|].
      eapply next_sorted; eassumption.
    + exists l''. split; [exact E''|]. destruct W as (Wl & Wp & _). split; [now transitivity l'|]. split; [lia|exact S].
Qed.

Lemma sorted_except_nil l : sorted_except l [] -> Sorted Z.le l.
Proof.
  intros H. apply StronglySorted_Sorted.
  induction l as [|x r IH]; [constructor|].
  constructor.
  - apply IH. intros p q Hp Hpq Hq _. rewrite <- (at1_cons x r p), <- (at1_cons x r q) by lia. apply H; try lia.
    + rewrite len_cons. lia.
    + intros (r0 & [] & _).
  - apply Forall_forall. intros y Hy. destruct (In_nth r y 0 Hy) as (n & Hn & <-).
    change x with (at1 (x :: r) 1).
    replace (nth n r 0) with (at1 (x :: r) (Z.of_nat n + 2)).
    + apply H; try lia.
      * rewrite len_cons. unfold len. lia.
      * intros (r0 & [] & _).
    + unfold at1. now replace (Z.to_nat (Z.of_nat n + 2 - 1)) with (S n) by lia.
Qed.

Theorem quicksort_ref_spec l : exists l', Quicksort_Ref l = Ok l' /\ Sorted Z.le l' /\ Permutation l' l.
Proof.
  unfold Quicksort_Ref, quicksort_iter.
  destruct (quicksort_loop_spec (2 * length l + 2) l [(1, len l)]) as (l' & E & P & L & S).
  - split; [|split].
    + intros r [<-|[]]. unfold valid_r. cbn [fst snd]. lia.
    + cbn [disj]. split; [intros r' []|exact I].
    + intros p q Hp Hpq Hq Hns. exfalso. apply Hns. exists (1, len l). split; [left; reflexivity|].
      unfold in_r. cbn [fst snd]. lia.
  - cbn [qs_measure]. unfold len. lia.
  - exists l'. split; [exact E|]. split; [apply sorted_except_nil; exact S|exact P].
Qed.
Theorem quicksort_spec l : exists l', Quicksort l = Ok l' /\ Sorted Z.le l' /\ Permutation l' l.
Proof. apply quicksort_ref_spec. Qed.

(* the instrumented loop sorts exactly like the plain one *)
Lemma quicksort_loop_tiefe_fst fuel : forall l stk d,
  match quicksort_loop_tiefe fuel l stk d with Ok (l', _) => quicksort_loop fuel l stk = Ok l' | Err => quicksort_loop fuel l stk = Err
  | NoFuel => quicksort_loop fuel l stk = NoFuel | Undef => quicksort_loop fuel l stk = Undef end.
Proof.
  induction fuel as [|f IH]; intros l stk d; cbn [quicksort_loop_tiefe quicksort_loop]; [reflexivity|].
  destruct stk as [|[li re] rest]; [reflexivity|].
  destruct (quicksort_iter_impl l li re) as [[l' i]| | |]; cbn [bind]; try reflexivity. apply IH.
Qed.
Lemma quicksort_tiefe_spec l : exists l' d, Quicksort_Tiefe l = Ok (l', d) /\ Quicksort_Ref l = Ok l'.
Proof.
  destruct (quicksort_ref_spec l) as (l' & E & _). unfold Quicksort_Tiefe.
  pose proof (quicksort_loop_tiefe_fst (2 * length l + 2) l [(1, len l)] 1) as H.
  unfold Quicksort_Ref, quicksort_iter in E. rewrite E in H.
  destruct (quicksort_loop_tiefe (2 * length l + 2) l [(1, len l)] 1) as [[l2 d]| | |]; try discriminate.
  exists l2, d. split; [reflexivity|]. unfold Quicksort_Ref, quicksort_iter. congruence.
Qed.
