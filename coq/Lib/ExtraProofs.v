(* C17 — refinement proofs for Lib/ExtraFns.v *)
From Coq Require Import List ZArith Bool Lia.
From DDP Require Import Lib.Base Lib.BaseProofs Lib.ListFns Lib.ListProofs Lib.NumFns Lib.NumProofs Lib.TextFns Lib.ExtraFns.
Import ListNotations.
Open Scope Z_scope.

(* `z als Text`: the decimal digits denote |z|, a leading '-' marks a negative number *)
Definition ziffern_wert (ds : text) (a : Z) : Z := fold_left (fun a d => a * 10 + (d - 48)) ds a.
Lemma dezimal_wert f : forall n acc, 0 <= n < 10 ^ Z.of_nat f -> ziffern_wert (dezimal f n acc) 0 = ziffern_wert acc n.
Proof.
  induction f as [|f IH]; intros n acc Hn.
  - cbn in Hn. now replace n with 0 by lia.
  - cbn [dezimal]. cbv zeta. rewrite Nat2Z.inj_succ, Z.pow_succ_r in Hn by lia.
    assert (Hdm : n = 10 * (n / 10) + n mod 10 /\ 0 <= n mod 10 < 10 /\ 0 <= n / 10 < 10 ^ Z.of_nat f) by (Z.div_mod_to_equations; lia).
    destruct (Z.ltb_spec n 10) as [E|E]; [|rewrite IH by apply Hdm]; unfold ziffern_wert; cbn [fold_left]; f_equal; lia.
Qed.

Definition skalar (c : Z) : Prop := 0 <= c < 1114112.
Theorem text_zu_byteliste_spec t : Text_Zu_ByteListe t = concat (map utf8_enc t).
Proof. unfold Text_Zu_ByteListe. rewrite len_eqb0. now destruct t. Qed.
(* the lead byte selects the branch of the decoder that undoes the branch of the encoder;
   c = ((q3 * 64 + r3) * 64 + r2) * 64 + r1 in base 64, and the bytes carry q1 r1 / q2 r2 r1 / q3 r3 r2 r1 *)
Lemma utf8_dec_enc c f rest : skalar c -> utf8_dec (S f) (utf8_enc c ++ rest) = c :: utf8_dec f rest.
Proof.
  unfold skalar. intros Hc. unfold utf8_enc.
  replace (c / 4096) with (c / 64 / 64) by (now rewrite Z.div_div by lia).
  replace (c / 262144) with (c / 64 / 64 / 64) by (now rewrite !Z.div_div by lia).
  pose proof (Z.div_mod c 64 ltac:(lia)) as D1. pose proof (Z.mod_pos_bound c 64 ltac:(lia)) as M1.
  pose proof (Z.div_mod (c / 64) 64 ltac:(lia)) as D2. pose proof (Z.mod_pos_bound (c / 64) 64 ltac:(lia)) as M2.
  pose proof (Z.div_mod (c / 64 / 64) 64 ltac:(lia)) as D3. pose proof (Z.mod_pos_bound (c / 64 / 64) 64 ltac:(lia)) as M3.
  set (r1 := c mod 64) in *. set (q1 := c / 64) in *. set (r2 := q1 mod 64) in *. set (q2 := q1 / 64) in *.
  set (r3 := q2 mod 64) in *. set (q3 := q2 / 64) in *. clearbody q3 r3 q2 r2 q1 r1.
  destruct (Z.ltb_spec c 128) as [E1|E1]; [|destruct (Z.ltb_spec c 2048) as [E2|E2]; [|destruct (Z.ltb_spec c 65536) as [E3|E3]]];
    cbn [app utf8_dec].
  - destruct (Z.ltb_spec c 128); [reflexivity|lia].
  - assert (Hq : 2 <= q1 <= 31) by lia. clear - Hq D1 M1.
    destruct (Z.ltb_spec (192 + q1) 128); [lia|]. destruct (Z.ltb_spec (192 + q1) 224); [|lia]. f_equal. lia.
  - assert (Hq : 0 <= q2 <= 15) by lia. clear - Hq D1 M1 D2 M2.
    destruct (Z.ltb_spec (224 + q2) 128); [lia|]. destruct (Z.ltb_spec (224 + q2) 224); [lia|].
    destruct (Z.ltb_spec (224 + q2) 240); [|lia]. f_equal. lia.
  - assert (Hq : 0 <= q3 <= 4) by lia. clear - Hq D1 M1 D2 M2 D3 M3.
    destruct (Z.ltb_spec (240 + q3) 128); [lia|]. destruct (Z.ltb_spec (240 + q3) 224); [lia|].
    destruct (Z.ltb_spec (240 + q3) 240); [lia|]. f_equal. lia.
Qed.
Lemma utf8_roundtrip t : forall fuel, Forall skalar t -> (length t <= fuel)%nat -> utf8_dec fuel (concat (map utf8_enc t)) = t.
Proof.
  induction t as [|c t IH]; intros fuel Ht Hf; [destruct fuel; reflexivity|].
  destruct fuel as [|f]; [cbn in Hf; lia|]. cbn [map concat].
  rewrite utf8_dec_enc by (now apply Forall_inv in Ht). f_equal. apply IH; [now apply Forall_inv_tail in Ht|cbn in Hf; lia].
Qed.
Lemma concat_enc_length t : (length t <= length (concat (map utf8_enc t)))%nat.
Proof.
  induction t as [|c t IH]; cbn [map concat length]; [lia|]. rewrite app_length.
  assert (1 <= length (utf8_enc c))%nat by (unfold utf8_enc; destruct (c <? 128), (c <? 2048), (c <? 65536); cbn; lia). lia.
Qed.

(* Levenshtein_Distanz: the rows of the Wagner-Fischer table *)
Definition lev_cell (c1 y pd pu left : Z) : Z :=
  Min3 (wrap64 (pu + 1)) (wrap64 (left + 1)) (if negb (c1 =? y) then wrap64 (pd + 1) else pd).
(* prev = [prev_{j-1}; prev_j; ...], left = cur_{j-1}; yields cur_j, cur_{j+1}, ... *)
Fixpoint row_step (c1 : Z) (t2 : text) (prev : list Z) (left : Z) : list Z :=
  match t2, prev with
  | y :: t2', pd :: ((pu :: _) as prev') => let v := lev_cell c1 y pd pu left in v :: row_step c1 t2' prev' v
  | _, _ => []
  end.
Definition next_row (c1 : Z) (t2 : text) (prev : list Z) (i : Z) : list Z := i :: row_step c1 t2 prev i.
Fixpoint lev_rows (t1 t2 : text) (i : Z) (row : list Z) : list Z :=
  match t1 with [] => row | c :: r => lev_rows r t2 (i + 1) (next_row c t2 row i) end.
Definition lev_ref (t1 t2 : text) : Z := nth (length t2) (lev_rows t1 t2 1 (zrange_up 0 (S (length t2)))) 0.

Lemma row_step_length c1 t2 : forall prev left, length prev = S (length t2) -> length (row_step c1 t2 prev left) = length t2.
Proof.
  induction t2 as [|y t2 IH]; intros prev left H; [destruct prev; reflexivity|].
  destruct prev as [|pd [|pu prest]]; cbn [length] in H; try lia. cbn [row_step length]. cbv zeta. f_equal. apply IH. cbn [length]. lia.
Qed.
Lemma lev_rows_length t2 s1 : forall i row, length row = S (length t2) -> length (lev_rows s1 t2 i row) = S (length t2).
Proof.
  induction s1 as [|c s1 IH]; intros i row Hr; [exact Hr|]. cbn [lev_rows]. apply IH.
  unfold next_row. cbn [length]. f_equal. now apply row_step_length.
Qed.

(* the inner loop has read the row above up to pd and written the new row up to left *)
Lemma lev_inner_inv c1 s2 : forall p2 pp pd prest dn left junk,
  length prest = length s2 -> length junk = length s2 -> len p2 = len pp -> len dn = len pp ->
  lev_inner_loop (length s2) (len pp + 1) c1 (p2 ++ s2) (pp ++ pd :: prest) (dn ++ left :: junk) =
    Ok (dn ++ left :: row_step c1 s2 (pd :: prest) left).
Proof.
  induction s2 as [|y s2 IH]; intros p2 pp pd prest dn left junk Hp Hj Hp2 Hdn.
  - destruct junk; [|discriminate]. now destruct prest.
  - destruct prest as [|pu prest']; [discriminate|]. destruct junk as [|x junk']; [discriminate|].
    cbn [lev_inner_loop length row_step]. cbv zeta.
    rewrite (rd_at _ (pp ++ [pd]) pu prest') by (apply app_snoc || now rewrite len_snoc). cbn [bind].
    erewrite (rd_at _ dn) by (reflexivity || now rewrite Hdn). cbn [bind]. rewrite rd_mid. cbn [bind].
    erewrite (rd_at _ p2) by (reflexivity || now rewrite Hp2). cbn [bind].
    rewrite (wr_at _ (dn ++ [left]) x junk') by (apply app_snoc || now rewrite len_snoc, Hdn). cbn [bind].
    fold (lev_cell c1 y pd pu left).
    rewrite (app_snoc p2 y s2), (app_snoc pp pd (pu :: prest')), <- (len_snoc pp pd), IH.
    + now rewrite <- app_snoc.
    + now injection Hp.
    + now injection Hj.
    + now rewrite !len_snoc, Hp2.
    + now rewrite !len_snoc, Hdn.
Qed.

Lemma lev_outer_inv t2 s1 : forall p1 cost newCost, length cost = S (length t2) -> length newCost = S (length t2) ->
  lev_outer_loop (length s1) (len p1 + 1) (p1 ++ s1) t2 cost newCost = Ok (lev_rows s1 t2 (len p1 + 1) cost).
Proof.
  induction s1 as [|c s1 IH]; intros p1 cost newCost Hc Hn; [reflexivity|].
  cbn [lev_outer_loop length lev_rows].
  destruct newCost as [|x junk]; [discriminate|]. destruct cost as [|pd prest]; [discriminate|]. cbn [length] in Hc, Hn.
  rewrite (wr_at _ [] x junk 1) by reflexivity. cbn [bind app]. rewrite rd_mid. cbn [bind].
  rewrite (lev_inner_inv c t2 [] [] pd prest [] (len p1 + 1) junk ltac:(now injection Hc) ltac:(now injection Hn) eq_refl eq_refl
           : lev_inner_loop (length t2) 1 c t2 (pd :: prest) ((len p1 + 1) :: junk) = _).
  cbn [bind app]. fold (next_row c t2 (pd :: prest) (len p1 + 1)).
  rewrite (app_snoc p1 c s1), <- (len_snoc p1 c). apply IH; [|exact Hc].
  unfold next_row. cbn [length]. f_equal. now apply row_step_length.
Qed.

Lemma lev_outer_spec t1 t2 cost newCost : length cost = S (length t2) -> length newCost = S (length t2) ->
  lev_outer_loop (length t1) 1 t1 t2 cost newCost = Ok (lev_rows t1 t2 1 cost).
Proof. exact (lev_outer_inv t2 t1 [] cost newCost). Qed.

(* the initialisation loop is Aufsteigende_Zahlen's loop with start 0 *)
Lemma lev_init_aufsteigend n : forall i cost, lev_init_loop n i cost = aufsteigend_loop n i 0 cost.
Proof. induction n as [|n IH]; intros i cost; cbn [lev_init_loop aufsteigend_loop]; [reflexivity|].
  rewrite Z.add_0_l. destruct (wr cost (i + 1) i); cbn [bind]; auto.
Qed.

Theorem levenshtein_spec t1 t2 : Levenshtein_Distanz t1 t2 = Ok (lev_ref t1 t2).
Proof.
  unfold Levenshtein_Distanz. pose proof (len_nonneg t2) as H2. rewrite !mal_ok by lia. cbn [bind].
  replace (Z.to_nat (len t2 + 1)) with (S (length t2)) by (unfold len; lia).
  rewrite lev_init_aufsteigend, aufsteigend_loop_spec. cbn [bind].
  rewrite lev_outer_spec by (apply zrange_up_length || apply repeat_length). cbn [bind].
  rewrite (rd_nth 0) by (unfold len; rewrite lev_rows_length by apply zrange_up_length; lia).
  unfold lev_ref. do 2 f_equal. unfold len. lia.
Qed.

(* Levenshtein_Distanz against the recursive definition of the edit distance:
   lev a b: minimal number of insertions, deletions and substitutions, by recursion on the first letters;
   the table of the code works on the last letters of the prefixes, i.e. on the reversed texts. *)
Fixpoint lev (a : text) : text -> Z :=
  match a with
  | [] => fun b => len b
  | x :: a' =>
      fix inner (b : text) : Z :=
        match b with
        | [] => len a' + 1
        | y :: b' => Min3 (lev a' (y :: b') + 1) (inner b' + 1) (lev a' b' + (if x =? y then 0 else 1))
        end
  end.
Lemma lev_cons_cons x a y b : lev (x :: a) (y :: b) = Min3 (lev a (y :: b) + 1) (lev (x :: a) b + 1) (lev a b + (if x =? y then 0 else 1)).
Proof. reflexivity. Qed.
Lemma lev_bound a : forall b, 0 <= lev a b <= len a + len b.
Proof.
  induction a as [|x a IH]; intros b.
  - cbn [lev]. change (len (@nil Z)) with 0. pose proof (len_nonneg b). lia.
  - induction b as [|y b IHb].
    + change (lev (x :: a) []) with (len a + 1). change (len (@nil Z)) with 0. rewrite len_cons. pose proof (len_nonneg a). lia.
    + rewrite lev_cons_cons, min3_spec. pose proof (IH (y :: b)). pose proof (IH b). rewrite !len_cons in *. destruct (x =? y); lia.
Qed.

Definition lev_rev (p q : text) : Z := lev (rev p) (rev q).
Lemma lev_rev_snoc_nil p c : lev_rev (p ++ [c]) [] = len p + 1.
Proof. unfold lev_rev. rewrite rev_unit. cbn [rev lev]. now rewrite len_rev. Qed.
(* the prefixes of p2 ++ s2 that extend p2 *)
Definition prefixes_from (p2 s2 : text) : list text := map (fun k => p2 ++ firstn k s2) (seq 0 (S (length s2))).
Lemma prefixes_from_cons p2 y s2 : prefixes_from p2 (y :: s2) = p2 :: prefixes_from (p2 ++ [y]) s2.
Proof.
  unfold prefixes_from. cbn [length]. change (seq 0 (S (S (length s2)))) with (0%nat :: seq 1 (S (length s2))).
  cbn [map]. cbn [firstn]. rewrite app_nil_r. f_equal.
  rewrite <- seq_shift, map_map. apply map_ext. intros k. cbn [firstn]. now rewrite <- app_assoc.
Qed.
Lemma prefixes_from_nil p2 : prefixes_from p2 [] = [p2].
Proof. unfold prefixes_from. cbn. now rewrite app_nil_r. Qed.
Lemma prefixes_from_head q s : prefixes_from q s = q :: tl (prefixes_from q s).
Proof. destruct s; [now rewrite prefixes_from_nil|now rewrite prefixes_from_cons]. Qed.

Lemma row_step_lev p c : forall s2 p2 left, len p + 1 + len p2 + len s2 < two63 -> left = lev_rev (p ++ [c]) p2 ->
  row_step c s2 (map (lev_rev p) (prefixes_from p2 s2)) left = map (lev_rev (p ++ [c])) (tl (prefixes_from p2 s2)).
Proof.
  induction s2 as [|y s2 IH]; intros p2 left Hb Hl.
  - rewrite prefixes_from_nil. reflexivity.
  - rewrite prefixes_from_cons. cbn [tl]. rewrite (prefixes_from_head (p2 ++ [y]) s2) at 1. cbn [map row_step]. cbv zeta.
    assert (Hv : lev_cell c y (lev_rev p p2) (lev_rev p (p2 ++ [y])) left = lev_rev (p ++ [c]) (p2 ++ [y])).
    { unfold lev_cell. rewrite Hl. unfold lev_rev. rewrite !rev_unit, lev_cons_cons.
      pose proof (lev_bound (rev p) (y :: rev p2)) as B1. pose proof (lev_bound (c :: rev p) (rev p2)) as B2. pose proof (lev_bound (rev p) (rev p2)) as B3.
      rewrite !len_cons, !len_rev in *. pose proof (len_nonneg s2). unfold two63 in Hb. clear IH Hl.
      rewrite !wrap64_id by (unfold in_i64, two63; lia).
      f_equal. destruct (c =? y); cbn [negb]; lia. }
    rewrite Hv. rewrite (prefixes_from_head (p2 ++ [y]) s2) at 2. cbn [map]. f_equal.
    change (lev_rev p (p2 ++ [y]) :: map (lev_rev p) (tl (prefixes_from (p2 ++ [y]) s2))) with (map (lev_rev p) ((p2 ++ [y]) :: tl (prefixes_from (p2 ++ [y]) s2))).
    rewrite <- prefixes_from_head. apply IH; [|reflexivity]. rewrite len_snoc. rewrite len_cons in Hb. lia.
Qed.

Lemma lev_rows_lev t2 s1 : forall p, len p + len s1 + len t2 < two63 ->
  lev_rows s1 t2 (len p + 1) (map (lev_rev p) (prefixes_from [] t2)) = map (lev_rev (p ++ s1)) (prefixes_from [] t2).
Proof.
  induction s1 as [|c s1 IH]; intros p Hb; [now rewrite app_nil_r|].
  cbn [lev_rows]. unfold next_row. rewrite len_cons in Hb. pose proof (len_nonneg s1).
  rewrite (row_step_lev p c t2 [] (len p + 1)) by (rewrite ?len_nil, ?lev_rev_snoc_nil; lia || reflexivity).
  rewrite <- lev_rev_snoc_nil with (c := c).
  change (lev_rev (p ++ [c]) [] :: map (lev_rev (p ++ [c])) (tl (prefixes_from [] t2))) with (map (lev_rev (p ++ [c])) ([] :: tl (prefixes_from [] t2))).
  rewrite <- prefixes_from_head, lev_rev_snoc_nil, <- (len_snoc p c), IH by (rewrite len_snoc; lia). now rewrite <- app_snoc.
Qed.
(* the last cell of the last row is the distance of the whole texts *)
Lemma lev_ref_lev t1 t2 : len t1 + len t2 < two63 -> lev_ref t1 t2 = lev (rev t1) (rev t2).
Proof.
  intros Hb. unfold lev_ref.
  assert (Hrow0 : zrange_up 0 (S (length t2)) = map (lev_rev []) (prefixes_from [] t2)).
  { unfold zrange_up, prefixes_from. rewrite map_map. apply map_ext_in. intros k Hk. apply in_seq in Hk.
    unfold lev_rev. cbn [rev app lev]. rewrite len_rev. unfold len. rewrite firstn_length. lia. }
  rewrite Hrow0. pose proof (lev_rows_lev t2 t1 [] ltac:(rewrite len_nil; lia)) as H. rewrite len_nil in H. cbn [app Z.add] in H.
  rewrite H. unfold prefixes_from. rewrite map_map.
  rewrite (nth_indep _ 0 (lev_rev t1 ([] ++ firstn (length t2) t2))) by (rewrite map_length, seq_length; lia).
  rewrite (map_nth (fun k => lev_rev t1 ([] ++ firstn k t2)) (seq 0 (S (length t2))) (length t2) (length t2)).
  rewrite seq_nth by lia. cbn [app Nat.add]. now rewrite firstn_all.
Qed.

Definition zprod (l : list Z) : Z := fold_right Z.mul 1 l.
Definition ist_prim (p : Z) : Prop := 1 < p /\ forall d, 1 < d < p -> ~ (d | p).

Lemma zprod_app a b : zprod (a ++ b) = zprod a * zprod b.
Proof. unfold zprod. induction a as [|x a IH]; cbn [app fold_right]; [lia|]. rewrite IH. ring. Qed.

(* dividing out d: the quotient is no longer divisible by d, the divisors found are copies of d *)
Lemma pf_div_loop_spec d : 2 <= d -> forall fuel z acc, 1 <= z -> z < 2 ^ Z.of_nat fuel ->
  exists z' extra, pf_div_loop fuel z d acc = Ok (z', acc ++ extra) /\ 1 <= z' /\ z' <= z /\ z = z' * zprod extra /\
    ~ (d | z') /\ Forall (fun x => x = d) extra.
Proof.
  intros Hd. induction fuel as [|f IH]; intros z acc Hz Hf; [cbn in Hf; lia|].
  cbn [pf_div_loop]. unfold Ist_Teilbar, zrem. destruct (Z.eqb_spec d 0); [lia|]. cbn [bind].
  destruct (Z.eqb_spec (Z.rem z d) 0) as [E|E].
  - apply Z.rem_divide in E; [|lia]. destruct E as [q ->]. rewrite Z.quot_mul by lia.
    rewrite Nat2Z.inj_succ, Z.pow_succ_r in Hf by lia.
    destruct (IH q (acc ++ [d]) ltac:(nia) ltac:(nia)) as (z' & extra & -> & H1 & H2 & H3 & H4 & H5).
    exists z', (d :: extra). rewrite <- app_assoc. split; [reflexivity|]. split; [exact H1|]. split; [nia|].
    split; [cbn [zprod fold_right]; fold (zprod extra); rewrite H3; ring|]. split; [exact H4|now constructor].
  - exists z, []. rewrite app_nil_r. split; [reflexivity|]. split; [exact Hz|]. split; [lia|].
    split; [cbn; lia|]. split; [|constructor]. intros Hdiv. apply E. now apply Z.rem_divide; [lia|].
Qed.
Lemma pf_div_fuel_ok z : 1 <= z -> z < 2 ^ Z.of_nat (pf_div_fuel z).
Proof.
  intros Hz. unfold pf_div_fuel. rewrite Z.abs_eq by lia. pose proof (Z.log2_spec z ltac:(lia)) as [_ H]. pose proof (Z.log2_nonneg z).
  replace (Z.of_nat (S (Z.to_nat (Z.log2 z) + 1))) with (Z.succ (Z.succ (Z.log2 z))) by lia.
  rewrite Z.pow_succ_r by lia. lia.
Qed.

(* no number in [2, i) divides z *)
Definition ohne_kleine_teiler (z i : Z) : Prop := forall d, 2 <= d < i -> ~ (d | z).

Lemma teiler_frei_prim p i : 1 < p -> ohne_kleine_teiler p i -> p < i * i -> 0 <= i -> ist_prim p.
Proof.
  intros Hp Hno Hlt Hi. split; [exact Hp|]. intros d Hd [q Hq].
  (* p = q * d: one of q, d is below i *)
  assert (Hq1 : 1 < q) by nia.
  destruct (Z_lt_dec d i) as [Hdi|Hdi].
  - apply (Hno d ltac:(lia)). exists q. exact Hq.
  - assert (Hqi : q < i) by nia. apply (Hno q ltac:(lia)). exists d. lia.
Qed.
(* a divisor i of z below which nothing divides z is prime *)
Lemma kleinster_teiler_prim z i : 1 < i -> ohne_kleine_teiler z i -> (i | z) -> ist_prim i.
Proof. intros Hi Hno Hdiv. split; [exact Hi|]. intros d Hd Hdi. apply (Hno d ltac:(lia)). now apply (Z.divide_trans d i z). Qed.
(* once the odd i is divided out of z, nothing below i + 2 divides the rest: i + 1 is even *)
Lemma ohne_kleine_teiler_next z z1 i : 3 <= i -> Z.odd i = true -> ohne_kleine_teiler z i -> (z1 | z) -> ~ (i | z1) ->
  ohne_kleine_teiler z1 (i + 2).
Proof.
  intros Hi Hodd Hno Hz1 Hni d Hd Hdiv.
  destruct (Z_lt_dec d i) as [Hlt|Hge]; [apply (Hno d ltac:(lia)); now apply (Z.divide_trans d z1 z)|].
  destruct (Z.eq_dec d i) as [->|Hne]; [contradiction|]. replace d with (i + 1) in Hdiv by lia.
  apply (Hno 2 ltac:(lia)). apply (Z.divide_trans 2 z1 z); [|exact Hz1]. apply (Z.divide_trans 2 (i + 1)); [|exact Hdiv].
  apply Zodd_bool_iff in Hodd. destruct (Zodd_ex i Hodd) as [k Hk]. exists (k + 1). lia.
Qed.

Lemma pf_outer_loop_spec fuel : forall z i acc, 1 <= z -> 3 <= i -> Z.odd i = true -> ohne_kleine_teiler z i ->
  Forall ist_prim acc -> (Z.to_nat (Z.sqrt z + 2 - i) < fuel)%nat ->
  exists z' extra, pf_outer_loop fuel z i acc = Ok (z', acc ++ extra) /\ 1 <= z' /\ z = z' * zprod extra /\
    Forall ist_prim extra /\ (z' = 1 \/ ist_prim z').
Proof.
  induction fuel as [|f IH]; intros z i acc Hz Hi Hodd Hno Hacc Hf; [lia|].
  cbn [pf_outer_loop]. destruct (Z.leb_spec (i * i) z) as [E|E].
  - destruct (pf_div_loop_spec i ltac:(lia) (pf_div_fuel z) z acc Hz (pf_div_fuel_ok z Hz)) as (z1 & ex1 & -> & H1 & H2 & H3 & H4 & H5).
    cbn [bind fst snd].
    assert (Hz1 : (z1 | z)) by (exists (zprod ex1); rewrite H3; ring).
    assert (Hprimes : Forall ist_prim ex1).
    { destruct ex1 as [|y ex1']; [constructor|].
      assert (Hpi : ist_prim i).
      { apply (kleinster_teiler_prim z i ltac:(lia) Hno). rewrite H3, (Forall_inv H5). cbn [zprod fold_right].
        apply Z.divide_mul_r, Z.divide_mul_l, Z.divide_refl. }
      revert H5. apply Forall_impl. now intros x ->. }
    assert (Hsq : Z.sqrt z1 <= Z.sqrt z) by (apply Z.sqrt_le_mono; lia).
    assert (Hisq : i <= Z.sqrt z) by (apply Z.sqrt_le_square; lia).
    destruct (IH z1 (i + 2) (acc ++ ex1) H1 ltac:(lia)) as (z' & ex2 & -> & G1 & G2 & G3 & G4).
    + rewrite Z.odd_add, Hodd. reflexivity.
    + now apply (ohne_kleine_teiler_next z).
    + apply Forall_app. now split.
    + lia.
    + exists z', (ex1 ++ ex2). rewrite <- app_assoc. split; [reflexivity|]. split; [exact G1|].
      split; [rewrite zprod_app, H3, G2; ring|]. split; [apply Forall_app; now split|exact G4].
  - exists z, []. rewrite app_nil_r. split; [reflexivity|]. split; [exact Hz|]. split; [cbn; lia|].
    split; [constructor|]. destruct (Z.eq_dec z 1) as [->|Hne]; [now left|]. right.
    apply (teiler_frei_prim z i); try lia; assumption.
Qed.

Theorem primfaktorzerlegung_spec z : 1 <= z ->
  exists l, Primfaktorzerlegung z = Ok l /\ zprod l = z /\ Forall ist_prim l.
Proof.
  intros Hz. unfold Primfaktorzerlegung.
  destruct (pf_div_loop_spec 2 ltac:(lia) (pf_div_fuel z) z [] Hz (pf_div_fuel_ok z Hz)) as (z1 & ex1 & -> & H1 & H2 & H3 & H4 & H5).
  cbn [bind fst snd app].
  assert (Hp2 : ist_prim 2) by (split; [lia|intros d Hd; lia]).
  assert (Hex1 : Forall ist_prim ex1) by (revert H5; apply Forall_impl; now intros x ->).
  destruct (pf_outer_loop_spec (Z.to_nat (Z.sqrt z1) + 2) z1 3 ex1 H1 ltac:(lia) eq_refl) as (z2 & ex2 & -> & G1 & G2 & G3 & G4).
  - intros d Hd. now replace d with 2 by lia.
  - exact Hex1.
  - pose proof (Z.sqrt_nonneg z1). lia.
  - cbn [bind fst snd]. eexists. split; [reflexivity|].
    assert (Hz2 : z2 = 1 \/ (2 < z2 /\ ist_prim z2)).
    { destruct G4 as [->|G4]; [now left|right]. split; [|exact G4].
      (* z2 = 2 is impossible: 2 does not divide z1 *)
      destruct G4 as [Hgt _]. assert (z2 <> 2) by (intros ->; apply H4; rewrite G2; apply Z.divide_mul_l, Z.divide_refl). lia. }
    destruct (Z.gtb_spec z2 2) as [E|E]; (split; [rewrite !zprod_app, H3, G2|]).
    + cbn [zprod fold_right]. fold (zprod ex1) (zprod ex2). ring.
    + apply Forall_app. split; [apply Forall_app; now split|]. constructor; [|constructor]. destruct Hz2 as [->|[_ P]]; [lia|exact P].
    + destruct Hz2 as [->|[P _]]; [ring|lia].
    + apply Forall_app. now split.
Qed.
