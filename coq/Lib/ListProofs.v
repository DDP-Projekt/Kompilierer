(* C17 — the list functions of Listen.ddp / lists.c refine the Coq list library *)
From Coq Require Import List ZArith Bool Lia.
From DDP Require Import Lib.Base Lib.BaseProofs Lib.ListFns.
Import ListNotations.
Open Scope Z_scope.

Section Generic.
  Context {A : Type} (junk : A) (eqb : A -> A -> bool).

  (* the documented behaviour: the inclusive range is removed; every invalid index raises *)
  Lemma loesche_bereich_spec (l : list A) s e : 1 <= s -> s <= e -> e <= len l ->
    Loesche_Bereich l s e = Ok (firstn (Z.to_nat (s - 1)) l ++ skipn (Z.to_nat e) l).
  Proof.
    intros H1 H2 H3. unfold Loesche_Bereich, efficient_list_delete_range.
    destruct (Z.gtb_spec (s - 1) (e - 1)); [lia|]. destruct (Z.ltb_spec (s - 1) 0); [lia|].
    destruct (Z.geb_spec (e - 1) (len l)); [lia|]. cbn [orb]. now replace (e - 1 + 1) with e by lia.
  Qed.
  Lemma loesche_bereich_err (l : list A) s e : ~ (1 <= s /\ s <= e /\ e <= len l) -> Loesche_Bereich l s e = Err.
  Proof.
    intros H. unfold Loesche_Bereich, efficient_list_delete_range.
    destruct (Z.gtb_spec (s - 1) (e - 1)); [reflexivity|]. destruct (Z.ltb_spec (s - 1) 0); [reflexivity|].
    destruct (Z.geb_spec (e - 1) (len l)); [reflexivity|lia].
  Qed.

  Lemma fuellen_loop_inv (suf pre : list A) x :
    fuellen_loop (length suf) (len pre + 1) (pre ++ suf) x = Ok (pre ++ repeat x (length suf)).
  Proof.
    revert pre. induction suf as [|y suf IH]; intros pre; cbn [fuellen_loop length repeat]; [reflexivity|].
    rewrite wr_mid. cbn [bind]. rewrite (app_snoc pre x suf), <- (len_snoc pre x), IH. now rewrite <- app_snoc.
  Qed.
  Lemma fuellen_spec (l : list A) x : Fuellen_Liste l x = Ok (repeat x (length l)).
  Proof. apply (fuellen_loop_inv l [] x). Qed.

  Definition has (l : list A) (x : A) : bool := existsb (fun e => eqb e x) l.

  Lemma index_loop_inv (suf pre : list A) x :
    exists r, index_loop eqb (length suf) (len pre + 1) (pre ++ suf) x = Ok r /\
      ((r = -1 /\ has suf x = false) \/
       (exists s1 e s2, suf = s1 ++ e :: s2 /\ r = len pre + len s1 + 1 /\ eqb e x = true /\ has s1 x = false)).
  Proof.
    revert pre. induction suf as [|y suf IH]; intros pre; cbn [index_loop length].
    - exists (-1). split; [reflexivity|]. left. split; reflexivity.
    - rewrite rd_mid. cbn [bind]. destruct (eqb y x) eqn:E.
      + exists (len pre + 1). split; [reflexivity|]. right. exists [], y, suf.
        rewrite len_nil. repeat split; try reflexivity; try assumption; lia.
      + rewrite (app_snoc pre y suf), <- (len_snoc pre y).
        destruct (IH (pre ++ [y])) as (r & Hr & Hc). exists r. split; [exact Hr|].
        unfold has in *. destruct Hc as [[-> Hn] | (s1 & e & s2 & -> & -> & He & Hs1)].
        * left. split; [reflexivity|]. cbn [existsb]. now rewrite E, Hn.
        * right. exists (y :: s1), e, s2. rewrite len_snoc, len_cons. cbn [existsb]. rewrite E, Hs1.
          repeat split; try reflexivity; try assumption; lia.
  Qed.

  Lemma enthaelt_spec (l : list A) x : Enthaelt_Wert_Ref eqb l x = has l x.
  Proof.
    induction l as [|e r IH]; cbn [Enthaelt_Wert_Ref has existsb]; [reflexivity|].
    destruct (eqb e x); [reflexivity|]. exact IH.
  Qed.
  Lemma enthaelt_In (l : list A) x : (forall a b, eqb a b = true <-> a = b) ->
    (Enthaelt_Wert eqb l x = true <-> In x l).
  Proof.
    intros Heq. unfold Enthaelt_Wert. rewrite enthaelt_spec. unfold has. rewrite existsb_exists. split.
    - intros (e & Hin & He). apply Heq in He. now subst.
    - intros Hin. exists x. split; [assumption|]. now apply Heq.
  Qed.

  Lemma spiegeln_loop_inv (suf pre : list A) :
    spiegeln_loop (length suf) (len pre + 1) (pre ++ suf) (repeat junk (length suf) ++ rev pre) = Ok (rev (pre ++ suf)).
  Proof.
    revert pre. induction suf as [|y suf IH]; intros pre; cbn [spiegeln_loop length repeat].
    - cbn [app]. now rewrite app_nil_r.
    - rewrite rd_mid. cbn [bind]. rewrite repeat_cons, <- app_assoc. cbn [app].
      erewrite (wr_at _ (repeat junk (length suf))) by (reflexivity || (rewrite len_app, len_cons, len_repeat; unfold len; lia)). cbn [bind].
      rewrite (app_snoc pre y suf), <- (len_snoc pre y).
      replace (y :: rev pre) with (rev (pre ++ [y])) by apply rev_unit. apply IH.
  Qed.
  Lemma spiegeln_spec (l : list A) : Liste_Spiegeln_Ref junk l = Ok (rev l).
  Proof.
    unfold Liste_Spiegeln_Ref. rewrite mal_len. cbn [bind].
    rewrite <- (app_nil_r (repeat junk (length l))). exact (spiegeln_loop_inv l []).
  Qed.
End Generic.

Definition zsum (l : list Z) : Z := fold_right Z.add 0 l.
Definition zprod (l : list Z) : Z := fold_right Z.mul 1 l.

Lemma summe_loop_inv l acc : summe_loop l (wrap64 acc) = wrap64 (acc + zsum l).
Proof.
  revert acc. induction l as [|e r IH]; intros acc; cbn [summe_loop zsum fold_right].
  - now rewrite Z.add_0_r.
  - rewrite wrap64_add_l, IH. f_equal. unfold zsum. lia.
Qed.
Lemma summe_spec l : Summe_Liste l = wrap64 (zsum l).
Proof. exact (summe_loop_inv l 0). Qed.

Lemma produkt_loop_inv l acc : produkt_loop l (wrap64 acc) = wrap64 (acc * zprod l).
Proof.
  revert acc. induction l as [|e r IH]; intros acc; cbn [produkt_loop zprod fold_right].
  - now rewrite Z.mul_1_r.
  - rewrite wrap64_mul_l, IH. f_equal. unfold zprod. lia.
Qed.

Definition zip_with (op : Z -> Z -> Z) (l1 l2 : list Z) : list Z :=
  map (fun p => wrap64 (op (fst p) (snd p))) (combine l1 l2).

Lemma elementweise_loop_inv op (s1 s2 pre p2 : list Z) : length s1 = length s2 -> len p2 = len pre ->
  elementweise_loop op (length s1) (len pre + 1) (pre ++ s1) (p2 ++ s2) = Ok (pre ++ zip_with op s1 s2).
Proof.
  revert s2 pre p2. induction s1 as [|a s1 IH]; intros [|b s2] pre p2 Hl Hp; try discriminate Hl;
    cbn [elementweise_loop length].
  - cbn. now rewrite app_nil_r.
  - rewrite rd_mid. cbn [bind]. erewrite (rd_at _ p2) by (reflexivity || lia). cbn [bind]. rewrite wr_mid. cbn [bind].
    rewrite (app_snoc pre _ s1), (app_snoc p2 b s2), <- (len_snoc pre (wrap64 (op a b))), IH.
    + now rewrite <- app_snoc.
    + now injection Hl.
    + now rewrite !len_snoc, Hp.
Qed.

Definition zrange_up (start : Z) (n : nat) : list Z := map (fun k => start + Z.of_nat k) (seq 0 n).
Definition zrange_down (start : Z) (n : nat) : list Z := map (fun k => start - Z.of_nat k) (seq 0 n).

Lemma zrange_up_length start n : length (zrange_up start n) = n.
Proof. unfold zrange_up. now rewrite map_length, seq_length. Qed.
Lemma zrange_up_S start n : zrange_up start (S n) = start :: zrange_up (start + 1) n.
Proof.
  unfold zrange_up. cbn [seq map]. f_equal; [lia|]. rewrite <- seq_shift, map_map. apply map_ext. intros k. lia.
Qed.
Lemma zrange_down_S start n : zrange_down start (S n) = start :: zrange_down (start - 1) n.
Proof.
  unfold zrange_down. cbn [seq map]. f_equal; [lia|]. rewrite <- seq_shift, map_map. apply map_ext. intros k. lia.
Qed.

(* both loops write the next number of the range behind the part filled so far *)
Lemma aufsteigend_loop_inv n pre start :
  aufsteigend_loop n (len pre) start (pre ++ repeat 0 n) = Ok (pre ++ zrange_up (start + len pre) n).
Proof.
  revert pre. induction n as [|n IH]; intros pre; cbn [aufsteigend_loop repeat]; [reflexivity|].
  rewrite wr_mid. cbn [bind]. rewrite app_snoc, <- (len_snoc pre (start + len pre)), IH, zrange_up_S, len_snoc, <- app_snoc.
  now rewrite Z.add_assoc.
Qed.
Lemma aufsteigend_loop_spec n start : aufsteigend_loop n 0 start (repeat 0 n) = Ok (zrange_up start n).
Proof. rewrite <- (Z.add_0_r start) at 2. exact (aufsteigend_loop_inv n [] start). Qed.

Lemma absteigend_loop_inv n pre start :
  absteigend_loop n (start - len pre) start (pre ++ repeat 0 n) = Ok (pre ++ zrange_down (start - len pre) n).
Proof.
  revert pre. induction n as [|n IH]; intros pre; cbn [absteigend_loop repeat]; [reflexivity|].
  erewrite (wr_at _ pre) by (reflexivity || lia). cbn [bind]. rewrite app_snoc, zrange_down_S.
  replace (start - len pre - 1) with (start - len (pre ++ [start - len pre])) by (rewrite len_snoc; lia).
  rewrite IH. now rewrite <- app_snoc.
Qed.

Lemma verketten_loop_inv (l : list (list Z)) acc : verketten_loop l acc = acc ++ concat l.
Proof.
  revert acc. induction l as [|t r IH]; intros acc; cbn [verketten_loop concat].
  - now rewrite app_nil_r.
  - rewrite IH. now rewrite <- app_assoc.
Qed.

Definition zip_app (l1 l2 : list (list Z)) : list (list Z) := map (fun p => fst p ++ snd p) (combine l1 l2).

Lemma elw_verketten_loop_inv (s1 s2 pre p2 done : list (list Z)) : length s1 = length s2 -> len p2 = len pre -> len done = len pre ->
  elw_verketten_loop (length s1) (len pre + 1) (pre ++ s1) (p2 ++ s2) (done ++ s1) = Ok (done ++ zip_app s1 s2).
Proof.
  revert s2 pre p2 done. induction s1 as [|a s1 IH]; intros [|b s2] pre p2 done Hl Hp Hd; try discriminate Hl;
    cbn [elw_verketten_loop length].
  - reflexivity.
  - rewrite rd_mid. cbn [bind]. erewrite (rd_at _ p2) by (reflexivity || lia). cbn [bind]. erewrite (wr_at _ done) by (reflexivity || lia). cbn [bind].
    rewrite (app_snoc done _ s1), (app_snoc pre a s1), (app_snoc p2 b s2), <- (len_snoc pre a), IH.
    + now rewrite <- app_snoc.
    + now injection Hl.
    + now rewrite !len_snoc, Hp.
    + now rewrite !len_snoc, Hd.
Qed.
