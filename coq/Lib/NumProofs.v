(* C17 — number functions of Mathe.ddp / Statistik.ddp against Z's library *)
From Coq Require Import List ZArith Lia.
From DDP Require Import Lib.Base Lib.BaseProofs Lib.NumFns.
Import ListNotations.
Open Scope Z_scope.

Lemma max_spec a b : Max a b = Z.max a b.
Proof. unfold Max. destruct (Z.geb_spec a b); lia. Qed.
Lemma min_spec a b : Min a b = Z.min a b.
Proof. unfold Min. destruct (Z.leb_spec a b); lia. Qed.
Lemma min3_spec a b c : Min3 a b c = Z.min a (Z.min b c).
Proof.
  unfold Min3. destruct (Z.leb_spec a b), (Z.leb_spec a c); cbn [andb]; try lia;
    destruct (Z.leb_spec b a), (Z.leb_spec b c); cbn [andb]; lia.
Qed.

Lemma ggt_loop_spec fuel : forall a b, Z.abs b < Z.of_nat fuel -> ggt_loop fuel a b = Ok (Z.gcd a b).
Proof.
  induction fuel as [|f IH]; intros a b Hf; [lia|].
  cbn [ggt_loop]. destruct (Z.eqb_spec b 0) as [->|E].
  - now rewrite Z.gcd_0_r.
  - pose proof (Z.rem_bound_abs a b E) as Hr.
    rewrite IH by lia. f_equal. rewrite (Z.gcd_comm b (Z.rem a b)), Z.gcd_rem by exact E. apply Z.gcd_comm.
Qed.
Lemma ggt_spec a b : Groesster_Gemeinsamer_Teiler a b = Ok (Z.gcd a b).
Proof. unfold Groesster_Gemeinsamer_Teiler. apply ggt_loop_spec. lia. Qed.

(* the doc comment: "(x!)"; the result fits a Zahl exactly for 0 <= x <= 20 *)
Fixpoint zfact (n : nat) : Z := match n with O => 1 | S k => Z.of_nat (S k) * zfact k end.
Lemma zfact_pos n : 0 < zfact n.
Proof. induction n as [|n IH]; cbn [zfact]; [lia|]. apply Z.mul_pos_pos; lia. Qed.
Lemma zfact_mono n m : (n <= m)%nat -> zfact n <= zfact m.
Proof. induction 1 as [|m H IH]; [lia|]. cbn [zfact]. pose proof (zfact_pos m). nia. Qed.
(* no product wraps as long as the result is at most 20! < 2^63 *)
Lemma fakultaet_rec_spec fuel : forall n, (n < fuel)%nat -> (n <= 20)%nat -> fakultaet_rec fuel (Z.of_nat n) = Ok (zfact n).
Proof.
  induction fuel as [|f IH]; intros n Hf Hn; [lia|]. cbn [fakultaet_rec]. cbv zeta.
  destruct (Z.ltb_spec (Z.of_nat n) 0); [lia|]. destruct n as [|m]; [reflexivity|].
  destruct (Z.eqb_spec (Z.of_nat (S m)) 0); [lia|].
  replace (Z.of_nat (S m) - 1) with (Z.of_nat m) by lia. rewrite IH by lia. cbn [bind]. f_equal. apply wrap64_id.
  pose proof (zfact_mono (S m) 20 Hn) as Hle. pose proof (zfact_pos (S m)).
  change (zfact 20) with 2432902008176640000 in Hle. unfold in_i64, two63. cbn [zfact] in *. lia.
Qed.

Lemma teiler_loop_inv n : forall i z acc,
  teiler_loop n i z acc = acc ++ filter (fun d => Z.rem z d =? 0) (map (fun k => i - Z.of_nat k) (seq 0 n)).
Proof.
  induction n as [|n IH]; intros i z acc; cbn [teiler_loop seq map filter].
  - now rewrite app_nil_r.
  - change (Z.of_nat 0) with 0. rewrite IH, Z.sub_0_r, <- seq_shift, map_map.
    rewrite (map_ext (fun k => i - Z.of_nat (S k)) (fun k => i - 1 - Z.of_nat k)) by (intros k; lia).
    destruct (Z.rem z i =? 0); [rewrite <- app_assoc|]; reflexivity.
Qed.

(* rounding toward minus infinity: the largest multiple of d (= integer) not above n *)
Lemma floor_spec n d : 0 < d -> Floor n d = n / d * d.
Proof.
  intros Hd. unfold Floor, trunc_q. cbv zeta.
  pose proof (Z.quot_rem' n d) as Hq.
  assert (Hr : (0 <= n -> 0 <= Z.rem n d < d) /\ (n <= 0 -> - d < Z.rem n d <= 0)).
  { split; intros Hn; [apply Z.rem_bound_pos; lia|]. pose proof (Z.rem_bound_pos (- n) d ltac:(lia) Hd) as Hb.
    rewrite Z.rem_opp_l' in Hb. lia. }
  destruct Hr as [Hp Hn].
  destruct (Z.gtb_spec (Z.quot n d * d) n) as [E|E].
  - replace (Z.quot n d * d - 1 * d) with ((Z.quot n d - 1) * d) by ring. f_equal.
    apply (Z.div_unique n d (Z.quot n d - 1) (Z.rem n d + d)); [left|]; lia.
  - f_equal. apply (Z.div_unique n d (Z.quot n d) (Z.rem n d)); [left|]; lia.
Qed.
(* rounding toward plus infinity: the smallest multiple of d not below n; Ceil n = - Floor (- n) *)
Lemma ceil_floor n d : d <> 0 -> Ceil n d = - Floor (- n) d.
Proof.
  intros Hd. unfold Ceil, Floor, trunc_q. cbv zeta. rewrite Z.quot_opp_l by assumption.
  destruct (Z.ltb_spec (Z.quot n d * d) n), (Z.gtb_spec (- Z.quot n d * d) (- n)); lia.
Qed.
Lemma ceil_spec n d : 0 < d -> Ceil n d = - ((- n) / d) * d.
Proof. intros Hd. rewrite ceil_floor, floor_spec by lia. ring. Qed.

(* a running extremum: pick returns one of its arguments and is an upper bound of both w.r.t. le *)
Lemma pick_fold (le : Z -> Z -> Prop) (pick : Z -> Z -> Z) :
  (forall a, le a a) -> (forall a b c, le a b -> le b c -> le a c) ->
  (forall a b, le a (pick a b) /\ le b (pick a b) /\ (pick a b = a \/ pick a b = b)) ->
  forall l m, le m (fold_left (fun m z => pick z m) l m) /\
    (forall x, In x l -> le x (fold_left (fun m z => pick z m) l m)) /\
    (fold_left (fun m z => pick z m) l m = m \/ In (fold_left (fun m z => pick z m) l m) l).
Proof.
  intros Hrefl Htrans Hpick. induction l as [|z l IH]; intros m; cbn [fold_left In].
  - split; [apply Hrefl|]. split; [intros x []|now left].
  - destruct (IH (pick z m)) as (H1 & H2 & H3). destruct (Hpick z m) as (P1 & P2 & P3).
    split; [now apply (Htrans _ (pick z m))|]. split.
    + intros x [->|Hx]; [now apply (Htrans _ (pick x m))|now apply H2].
    + destruct H3 as [H3|H3]; [|now right; right]. rewrite H3. destruct P3 as [->| ->]; [right; now left|now left].
Qed.

Definition count (cond : Z -> bool) (l : list Z) : Z := len (filter cond l).
Lemma count_loop_spec cond l : forall a, count_loop cond l a = a + count cond l.
Proof.
  unfold count. induction l as [|z r IH]; intros a; cbn [count_loop filter].
  - rewrite len_nil. lia.
  - rewrite IH. destruct (cond z); [rewrite len_cons|]; lia.
Qed.
Lemma count_eqb_occ l x : count (fun z => z =? x) l = Z.of_nat (count_occ Z.eq_dec l x).
Proof.
  unfold count, len. induction l as [|z r IH]; cbn [filter count_occ]; [reflexivity|].
  destruct (Z.eq_dec z x) as [->|Hn].
  - rewrite Z.eqb_refl. cbn [length]. lia.
  - now rewrite (proj2 (Z.eqb_neq z x) Hn).
Qed.
