(* C17 — loop invariants and refinement proofs for the searching text functions of Texte.ddp:
   Text_Index_Von_Text, Finde_Subtext, Spalte_Text, Spalten_Spaltmenge_Text (and its wrappers). *)
From Coq Require Import List ZArith Bool Lia.
From DDP Require Import Lib.Base Lib.BaseProofs Lib.ListFns Lib.ListProofs Lib.TextFns Lib.TextProofs.
Import ListNotations.
Open Scope Z_scope.

Lemma nth_error_firstn_none {A} (l : list A) n i : (n <= i)%nat -> nth_error (firstn n l) i = None.
Proof. intros H. apply nth_error_None. rewrite firstn_length. lia. Qed.

Lemma occ_head t c1 s' j x : nth_error t j = Some x -> x <> c1 -> occ_b t (c1 :: s') j = false.
Proof.
  intros Hn Hx. destruct (occ_b t (c1 :: s') j) eqn:E; [|reflexivity]. unfold occ_b in E. apply text_eqb_spec in E.
  destruct (skipn_cons_nth t j x Hn) as (r & Hr). rewrite Hr in E. cbn [length firstn] in E. congruence.
Qed.
Lemma occ_second t c1 c2 s' j y : nth_error t (S j) = Some y -> y <> c2 -> occ_b t (c1 :: c2 :: s') j = false.
Proof.
  intros Hn Hy. destruct (occ_b t (c1 :: c2 :: s') j) eqn:E; [|reflexivity]. unfold occ_b in E. apply text_eqb_spec in E.
  destruct (skipn_cons_nth t (S j) y Hn) as (r & Hr). rewrite <- tl_skipn in Hr.
  destruct (skipn j t) as [|x rest]; [cbn in E; discriminate|]. cbn [tl] in Hr. subst rest. cbn [length firstn] in E. congruence.
Qed.
Lemma occ_none_past t s j : (length t < j + length s)%nat -> s <> [] -> occ_b t s j = false.
Proof. intros H Hs. destruct (occ_b t s j) eqn:E; [|reflexivity]. apply occ_length in E; [lia|exact Hs]. Qed.
Lemma occ_single t c j : occ_b t [c] j = match nth_error t j with Some x => x =? c | None => false end.
Proof.
  unfold occ_b. cbn [length]. destruct (nth_error t j) as [x|] eqn:E.
  - destruct (skipn_cons_nth t j x E) as (r & ->). cbn [firstn text_eqb]. now rewrite andb_true_r.
  - apply nth_error_None in E. rewrite skipn_all2 by lia. reflexivity.
Qed.
Lemma occ_tl t s j : occ_b (tl t) s j = occ_b t s (S j).
Proof. unfold occ_b. destruct t as [|c r]; cbn [tl skipn]; [now rewrite skipn_nil|reflexivity]. Qed.

(* what `find` computes over a run of positions: the first one that satisfies f *)
Lemma find_seq (f : nat -> bool) N : forall a,
  match find f (seq a N) with
  | Some k => (a <= k < a + N)%nat /\ f k = true /\ forall j, (a <= j < k)%nat -> f j = false
  | None => forall j, (a <= j < a + N)%nat -> f j = false
  end.
Proof.
  induction N as [|N IH]; intros a; cbn [seq find]; [intros j Hj; lia|]. destruct (f a) eqn:E.
  - split; [lia|]. split; [exact E|]. intros j Hj. lia.
  - specialize (IH (S a)). destruct (find f (seq (S a) N)) as [k|].
    + destruct IH as (H1 & H2 & H3). split; [lia|]. split; [exact H2|].
      intros j Hj. destruct (Nat.eq_dec j a) as [->|]; [exact E|apply H3; lia].
    + intros j Hj. destruct (Nat.eq_dec j a) as [->|]; [exact E|apply IH; lia].
Qed.
(* k is a start position exactly if k + length s <= length t *)
Lemma ref_index_none t s : (forall j, (j + length s <= length t)%nat -> occ_b t s j = false) -> ref_index t s = -1.
Proof.
  intros H. unfold ref_index. rewrite positions_nat. pose proof (find_seq (occ_b t s) (length t + 1 - length s) 0) as F.
  destruct (find _ _) as [k|]; [|reflexivity]. destruct F as (Hk & Ho & _). rewrite H in Ho by lia. discriminate.
Qed.
Lemma ref_index_some t s k : (k + length s <= length t)%nat -> occ_b t s k = true ->
  (forall j, (j < k)%nat -> occ_b t s j = false) -> ref_index t s = Z.of_nat k + 1.
Proof.
  intros Hk Hf Hb. unfold ref_index. rewrite positions_nat. pose proof (find_seq (occ_b t s) (length t + 1 - length s) 0) as F.
  destruct (find _ _) as [k'|]; [|rewrite F in Hf by lia; discriminate]. destruct F as (Hk' & Ho & Hb').
  destruct (Nat.lt_trichotomy k k') as [H|[->|H]]; [rewrite Hb' in Hf by lia; discriminate|reflexivity|rewrite Hb in Ho by lia; discriminate].
Qed.
Lemma ref_index_cases t s : s <> [] ->
  (ref_index t s = -1 /\ forall j, occ_b t s j = false) \/
  (exists k, ref_index t s = Z.of_nat k + 1 /\ (k + length s <= length t)%nat /\ occ_b t s k = true /\ forall j, (j < k)%nat -> occ_b t s j = false).
Proof.
  intros Hs. unfold ref_index. rewrite positions_nat. pose proof (find_seq (occ_b t s) (length t + 1 - length s) 0) as F.
  destruct (find _ _) as [k|].
  - right. exists k. destruct F as (Hk & Ho & Hb). split; [reflexivity|]. split; [now apply occ_length|]. split; [exact Ho|].
    intros j Hj. apply Hb. lia.
  - left. split; [reflexivity|]. intros j. destruct (Nat.lt_ge_cases j (length t + 1 - length s)); [apply F; lia|].
    apply occ_none_past; [lia|exact Hs].
Qed.
Lemma ref_index_short t s : (length t < length s)%nat -> ref_index t s = -1.
Proof. intros H. apply ref_index_none. intros j Hj. lia. Qed.
(* a text of the same length occurs only as the whole text *)
Lemma ref_index_full t s : length s = length t -> ref_index t s = if text_eqb t s then 1 else -1.
Proof.
  intros H. destruct (text_eqb t s) eqn:E.
  - apply (ref_index_some t s 0); [lia|now rewrite occ_b_full|intros j Hj; lia].
  - apply ref_index_none. intros j Hj. replace j with 0%nat by lia. now rewrite occ_b_full.
Qed.
(* the first occurrence of a text of one letter is the first occurrence of the letter *)
Lemma ref_index_single t c : ref_index t [c] = Text_Index_Von_Buchstabe_Ref t c.
Proof.
  destruct (text_index_von_buchstabe_spec t c) as [[-> Hnot]|(pre & suf & -> & Hnot & ->)].
  - apply ref_index_none. intros j Hj. rewrite occ_single. destruct (nth_error t j) as [x|] eqn:E; [|reflexivity].
    apply Z.eqb_neq. intros ->. apply Hnot. now apply (nth_error_In t j).
  - apply (ref_index_some _ _ (length pre)).
    + rewrite app_length. cbn [length]. lia.
    + rewrite occ_single, nth_error_app2, Nat.sub_diag by lia. apply Z.eqb_refl.
    + intros j Hj. rewrite occ_single, nth_error_app1 by exact Hj.
      destruct (nth_error pre j) as [x|] eqn:E; [|reflexivity]. apply Z.eqb_neq. intros ->. apply Hnot. now apply (nth_error_In pre j).
Qed.

(* Text_Index_Von_Text: the loop for a needle s = c1 :: c2 :: s' that is shorter than t *)
Section IndexLoop.
  Variables (t s s' : text) (c1 c2 : Z) (N : nat).
  Hypothesis Hs : s = c1 :: c2 :: s'.
  Hypothesis HN : (N + length s = length t + 1)%nat.        (* N start positions *)
  Hypothesis Hlen : (length s < length t)%nat.
  Local Notation tt := (len t - len s + 1).

  Lemma needle_long : (2 <= length s)%nat.
  Proof. rewrite Hs. cbn [length]. lia. Qed.
  Lemma tt_N : tt = Z.of_nat N.
  Proof. unfold len. lia. Qed.

  (* the test made at a position whose letter is c1 is the occurrence test *)
  Lemma check_at k (K : bool -> res Z) : (k < N)%nat ->
    (do y <- rd t (Z.of_nat k + 1 + 1);;
     do hit <- (if y =? c2 then do sub <- slice t (Z.of_nat k + 1) (Z.of_nat k + 1 + len s - 1);; Ok (text_eqb sub s) else Ok false);;
     K hit) = K (occ_b t s k).
  Proof.
    intros Hk. pose proof needle_long.
    destruct (rd_nth_error t (Z.of_nat k + 1 + 1)) as (y & Hy & Hyn); [unfold len; lia|].
    rewrite Hy. cbn [bind]. replace (Z.to_nat (Z.of_nat k + 1 + 1 - 1)) with (S k) in Hyn by lia.
    destruct (Z.eqb_spec y c2) as [->|Ey]; cbn [bind].
    - replace (Z.of_nat k + 1 + len s - 1) with (Z.of_nat k + len s) by lia.
      rewrite slice_occ; [reflexivity|rewrite Hs; discriminate|unfold len; lia].
    - rewrite Hs. now rewrite (occ_second t c1 c2 s' k y Hyn Ey).
  Qed.

  (* no occurrence begins before a position whose letters up to there are not c1 *)
  Lemma no_c1_no_occ k q : (forall j, (j < k)%nat -> occ_b t s j = false) -> occ_b t s k = false ->
    (forall j, (j < q)%nat -> nth_error t (S k + j) <> Some c1) -> forall j, (j < S k + q)%nat -> occ_b t s j = false.
  Proof.
    intros Hinv Hk Hq j Hj. destruct (Nat.lt_trichotomy j k) as [H|[->|H]]; [now apply Hinv|exact Hk|].
    rewrite Hs. destruct (nth_error t j) as [x|] eqn:E.
    - apply (occ_head t c1 _ j x E). intros ->. apply (Hq (j - S k)%nat ltac:(lia)). now replace (S k + (j - S k))%nat with j by lia.
    - apply nth_error_None in E. apply occ_none_past; [cbn [length]; lia|discriminate].
  Qed.

  (* the window searched for c1 behind position k covers all later start positions *)
  Lemma window_slice k : (k < N)%nat ->
    exists m, slice t (Z.of_nat k + 1 + 1) (Z.of_nat k + 1 + tt) = Ok (firstn m (skipn (S k) t)) /\ (N - S k <= m)%nat.
  Proof.
    intros Hk. pose proof needle_long as Hn. pose proof tt_N as Htt.
    assert (Hi : Z.of_nat k + 1 + 1 <= len t /\ 1 <= tt <= len t) by (unfold len in *; lia). destruct Hi as (Hi & Ht1 & Ht2).
    pose proof (clampZ_range (Z.of_nat k + 1 + tt) 1 (len t) ltac:(lia)) as Hr.
    pose proof (clampZ_ge (Z.of_nat k + 1 + tt) 1 (len t) (Z.of_nat k + 1 + 1) ltac:(lia) Hi) as Hb1.
    pose proof (clampZ_ge (Z.of_nat k + 1 + tt) 1 (len t) tt ltac:(lia) Ht2) as Hb2.
    rewrite slice_clamped by lia. cbv zeta. rewrite (clampZ_id (Z.of_nat k + 1 + 1)) by lia.
    set (b := clampZ (Z.of_nat k + 1 + tt) 1 (len t)) in *. clearbody b. clear Hi Hr.
    destruct (Z.ltb_spec b (Z.of_nat k + 1 + 1)); [lia|].
    replace (Z.to_nat (Z.of_nat k + 1 + 1 - 1)) with (S k) by lia. eexists. split; [reflexivity|]. lia.
  Qed.

  (* at a position whose letter is not c1 the loop jumps to the next c1, or gives up when there is none in reach *)
  Lemma jump_at k x : (k < N)%nat -> nth_error t k = Some x -> x <> c1 -> (forall j, (j < k)%nat -> occ_b t s j = false) ->
    let jump := do sub <- slice t (Z.of_nat k + 1 + 1) (Z.of_nat k + 1 + tt);;
                if Text_Index_Von_Buchstabe sub c1 <? 0 then Ok (Ret (-1))
                else if Z.of_nat k + 1 + Text_Index_Von_Buchstabe sub c1 >? tt then Ok (Ret (-1))
                else Ok (Next (Z.of_nat k + 1 + Text_Index_Von_Buchstabe sub c1)) in
    (exists k', (k < k' < N)%nat /\ (forall j, (j < k')%nat -> occ_b t s j = false) /\ jump = Ok (Next (Z.of_nat k' + 1))) \/
    ((forall j, (j < N)%nat -> occ_b t s j = false) /\ jump = Ok (Ret (-1))).
  Proof.
    intros Hk Hx Hne Hinv. cbv zeta.
    assert (Hno : occ_b t s k = false) by (rewrite Hs; now apply (occ_head t c1 _ k x)).
    destruct (window_slice k Hk) as (m & -> & Hm). cbn [bind]. set (sub := firstn m (skipn (S k) t)).
    assert (Hsub : forall q, (q < m)%nat -> nth_error sub q = nth_error t (S k + q)).
    { intros q Hq. unfold sub. rewrite nth_error_firstn' by exact Hq. apply nth_error_skipn'. }
    unfold Text_Index_Von_Buchstabe.
    destruct (text_index_von_buchstabe_spec sub c1) as [[-> Hnot]|(pre & suf & Hdec & Hnot & ->)].
    - right. split; [|reflexivity]. intros j Hj. apply (no_c1_no_occ k m Hinv Hno); [|lia].
      intros q Hq E. rewrite <- Hsub in E by exact Hq. apply Hnot. now apply (nth_error_In sub q).
    - pose proof (len_nonneg pre). destruct (Z.ltb_spec (len pre + 1) 0); [lia|].
      assert (Hlp : (length pre < m)%nat).
      { assert (length sub <= m)%nat by (unfold sub; rewrite firstn_length; lia). rewrite Hdec, app_length in H1. cbn [length] in H1. lia. }
      assert (Hskip : forall j, (j < S k + length pre)%nat -> occ_b t s j = false).
      { apply (no_c1_no_occ k (length pre) Hinv Hno). intros q Hq E. rewrite <- Hsub, Hdec, nth_error_app1 in E by lia.
        apply Hnot. now apply (nth_error_In pre q). }
      destruct (Z.gtb_spec (Z.of_nat k + 1 + (len pre + 1)) tt) as [E|E]; rewrite tt_N in E; unfold len in E.
      + right. split; [|reflexivity]. intros j Hj. apply Hskip. lia.
      + left. exists (S k + length pre)%nat. split; [lia|]. split; [exact Hskip|]. do 2 f_equal. unfold len. lia.
  Qed.

  Lemma index_text_loop_inv fuel : forall k, (forall j, (j < k)%nat -> occ_b t s j = false) -> (N - k < fuel)%nat ->
    index_text_loop fuel t s (len s) c1 c2 tt (Z.of_nat k + 1) = Ok (ref_index t s).
  Proof.
    pose proof needle_long as Hl2. induction fuel as [|f IH]; intros k Hinv Hf; [lia|]. cbn [index_text_loop].
    destruct (Z.leb_spec (Z.of_nat k + 1) tt) as [E|E]; rewrite tt_N in E.
    2:{ f_equal. symmetry. apply ref_index_none. intros j Hj. apply Hinv. lia. }
    (* the part behind the (possible) jump, at a position k' whose letter is c1 *)
    assert (Hafter : forall k', (k <= k' < N)%nat -> (forall j, (j < k')%nat -> occ_b t s j = false) ->
      (do y <- rd t (Z.of_nat k' + 1 + 1);;
       do hit <- (if y =? c2 then do sub <- slice t (Z.of_nat k' + 1) (Z.of_nat k' + 1 + len s - 1);; Ok (text_eqb sub s) else Ok false);;
       if hit then Ok (Z.of_nat k' + 1) else index_text_loop f t s (len s) c1 c2 tt (Z.of_nat k' + 1 + 1)) = Ok (ref_index t s)).
    { intros k' Hk' Hinv'.
      rewrite (check_at k' (fun hit : bool => if hit then Ok (Z.of_nat k' + 1) else index_text_loop f t s (len s) c1 c2 tt (Z.of_nat k' + 1 + 1))) by lia.
      destruct (occ_b t s k') eqn:Eo.
      - f_equal. symmetry. apply ref_index_some; [lia|exact Eo|exact Hinv'].
      - replace (Z.of_nat k' + 1 + 1) with (Z.of_nat (S k') + 1) by lia. apply IH; [|lia].
        intros j Hj. destruct (Nat.eq_dec j k') as [->|]; [exact Eo|apply Hinv'; lia]. }
    destruct (rd_nth_error t (Z.of_nat k + 1)) as (x & Hx & Hxn); [unfold len; lia|].
    rewrite Hx. cbn [bind]. replace (Z.to_nat (Z.of_nat k + 1 - 1)) with k in Hxn by lia.
    destruct (Z.eqb_spec x c1) as [->|Ex]; cbn [negb bind]; cbv zeta.
    - apply Hafter; [lia|exact Hinv].
    - destruct (jump_at k x ltac:(lia) Hxn Ex Hinv) as [(k' & Hk' & Hinv' & ->)|(Hnone & ->)]; cbn [bind].
      + apply Hafter; [lia|exact Hinv'].
      + f_equal. symmetry. apply ref_index_none. intros j Hj. apply Hnone. lia.
  Qed.
End IndexLoop.

Theorem text_index_von_text_spec t s : s <> [] -> Text_Index_Von_Text t s = Ok (ref_index t s).
Proof.
  intros Hs. unfold Text_Index_Von_Text. cbv zeta. rewrite !len_eqb0.
  destruct t as [|c t']; [now rewrite ref_index_short by (destruct s; [congruence|cbn; lia])|]. set (t := c :: t').
  destruct s as [|c1 [|c2 s']]; [congruence| |].
  - (* one letter *) cbn [len length Z.of_nat Pos.of_succ_nat Z.eqb Pos.eqb]. rewrite rd_cons_1. cbn [bind]. now rewrite ref_index_single.
  - set (s := c1 :: c2 :: s'). destruct (Z.eqb_spec (len s) 1) as [E1|_]; [unfold s in E1; rewrite !len_cons in E1; pose proof (len_nonneg s'); lia|].
    destruct (Z.eqb_spec (len s) (len t)) as [E2|E2].
    { rewrite ref_index_full by (unfold len in E2; lia).
      destruct (text_eqbP s t) as [->|Hne]; [now rewrite text_eqb_refl|]. now destruct (text_eqbP t s) as [->|_]. }
    destruct (Z.gtb_spec (len s) (len t)) as [E3|E3]; [now rewrite ref_index_short by (unfold len in E3; lia)|].
    rewrite (rd_cons_1 c1 (c2 :: s') : rd s 1 = Ok c1), (rd_at s [c1] c2 s' 2 eq_refl eq_refl : rd s 2 = Ok c2). cbn [bind].
    apply (index_text_loop_inv t s s' c1 c2 (length t + 1 - length s) eq_refl ltac:(unfold len in *; lia) ltac:(unfold len in *; lia) (length t + 1) 0);
      [intros j Hj; lia|unfold s; cbn [length]; lia].
Qed.

Lemma nonoverlap_steps s : s <> [] -> forall k F t, occ_b t s k = true -> (forall j, (j < k)%nat -> occ_b t s j = false) -> (k < F)%nat ->
  nonoverlap_ref F s t = 1 + nonoverlap_ref (F - k - 1) s (skipn (k + length s) t).
Proof.
  intros Hs. induction k as [|k IH]; intros F t Hocc Hno HF; (destruct F as [|f]; [lia|]); cbn [nonoverlap_ref];
    pose proof (occ_length t s _ Hs Hocc) as Hl; (destruct (Nat.ltb_spec (length t) (length s)); [lia|]);
    change (text_eqb (firstn (length s) t) s) with (occ_b t s 0).
  - rewrite Hocc. now replace (S f - 0 - 1)%nat with f by lia.
  - rewrite (Hno 0%nat) by lia. rewrite (IH f (tl t)).
    + cbn [Nat.sub]. do 2 f_equal. destruct t as [|c r]; [cbn in Hl; lia|reflexivity].
    + now rewrite occ_tl.
    + intros j Hj. rewrite occ_tl. apply Hno. lia.
    + lia.
Qed.
Lemma nonoverlap_none s : forall F t, (forall j, occ_b t s j = false) -> nonoverlap_ref F s t = 0.
Proof.
  induction F as [|f IH]; intros t Hno; cbn [nonoverlap_ref]; [reflexivity|].
  destruct (length t <? length s)%nat; [reflexivity|].
  change (text_eqb (firstn (length s) t) s) with (occ_b t s 0). rewrite Hno.
  apply IH. intros j. rewrite occ_tl. apply Hno.
Qed.
Lemma nonoverlap_nonneg s : forall F t, 0 <= nonoverlap_ref F s t.
Proof.
  induction F as [|f IH]; intros t; cbn [nonoverlap_ref]; [lia|].
  destruct (length t <? length s)%nat; [lia|]. destruct (text_eqb (firstn (length s) t) s); [pose proof (IH (skipn (length s) t))|apply IH]; lia.
Qed.
(* more fuel than letters is enough *)
Lemma nonoverlap_fuel s : s <> [] -> forall F F' t, (length t < F)%nat -> (length t < F')%nat -> nonoverlap_ref F s t = nonoverlap_ref F' s t.
Proof.
  intros Hs. assert (0 < length s)%nat by (destruct s; [congruence|cbn; lia]).
  induction F as [|f IH]; intros F' t H1 H2; [lia|]. destruct F' as [|f']; [lia|]. cbn [nonoverlap_ref].
  destruct (Nat.ltb_spec (length t) (length s)); [reflexivity|].
  destruct (text_eqb (firstn (length s) t) s); [f_equal|]; apply IH; rewrite ?skipn_length; destruct t; cbn [length tl] in *; lia.
Qed.

(* Spalte_Text: cut at the first occurrence of the separator text, continue behind it *)
Fixpoint split_iter (fuel : nat) (s t : text) : list text :=
  match fuel with
  | O => [t]
  | S f =>
      let i := ref_index t s in
      if i =? -1 then [t]
      else firstn (Z.to_nat (i - 1)) t :: split_iter f s (skipn (Z.to_nat (i - 1) + length s) t)
  end.

(* t = pre ++ s ++ suf at the first occurrence of s *)
Lemma first_occ_split t s k : s <> [] -> occ_b t s k = true ->
  t = firstn k t ++ s ++ skipn (k + length s) t /\ len (firstn k t) = Z.of_nat k.
Proof.
  intros Hs Hocc. pose proof (occ_length t s k Hs Hocc). split; [|unfold len; rewrite firstn_length; lia].
  rewrite <- (firstn_skipn k t) at 1. f_equal. apply text_eqb_spec in Hocc. rewrite <- Hocc at 1. rewrite <- skipn_add. symmetry. apply firstn_skipn.
Qed.
Lemma split_iter_fuel s : s <> [] -> forall G G' t, (length t < G)%nat -> (length t < G')%nat -> split_iter G s t = split_iter G' s t.
Proof.
  intros Hs. assert (0 < length s)%nat by (destruct s; [congruence|cbn; lia]).
  induction G as [|g IH]; intros G' t H1 H2; [lia|]. destruct G' as [|g']; [lia|]. cbn [split_iter]. cbv zeta.
  destruct (ref_index_cases t s Hs) as [[-> _]|(k & -> & Hkl & _)]; [reflexivity|].
  destruct (Z.eqb_spec (Z.of_nat k + 1) (-1)); [lia|]. f_equal. apply IH; rewrite skipn_length; lia.
Qed.

Lemma split_iter_S f s t : split_iter (S f) s t =
  if ref_index t s =? -1 then [t] else firstn (Z.to_nat (ref_index t s - 1)) t :: split_iter f s (skipn (Z.to_nat (ref_index t s - 1) + length s) t).
Proof. reflexivity. Qed.
(* both reference functions step to the first occurrence of s and go on behind it *)
Lemma first_occ_step s u k : s <> [] -> occ_b u s k = true -> (forall j, (j < k)%nat -> occ_b u s j = false) ->
  exists pre suf, u = pre ++ s ++ suf /\ len pre = Z.of_nat k /\
    split_iter (S (length u)) s u = pre :: split_iter (S (length suf)) s suf /\
    nonoverlap_ref (S (length u)) s u = nonoverlap_ref (S (length suf)) s suf + 1.
Proof.
  intros Hs Hocc Hbefore. assert (Hls : (0 < length s)%nat) by (destruct s; [congruence|cbn; lia]).
  destruct (first_occ_split u s k Hs Hocc) as [Hu Hlp].
  pose proof (nonoverlap_steps s Hs k (S (length u)) u Hocc Hbefore) as Hstep.
  assert (Hri : ref_index u s = Z.of_nat k + 1) by (apply ref_index_some; [now apply occ_length|exact Hocc|exact Hbefore]).
  rewrite (split_iter_S (length u)), Hri. destruct (Z.eqb_spec (Z.of_nat k + 1) (-1)); [lia|].
  replace (Z.to_nat (Z.of_nat k + 1 - 1)) with k by lia.
  remember (firstn k u) as pre eqn:Epre. remember (skipn (k + length s) u) as suf eqn:Esuf. clear Epre Esuf Hocc Hbefore Hri.
  assert (Hlu : length u = (k + length s + length suf)%nat) by (rewrite Hu at 1; rewrite !app_length; unfold len in Hlp; lia).
  exists pre, suf. split; [exact Hu|]. split; [exact Hlp|]. split.
  - f_equal. apply split_iter_fuel; [exact Hs|lia..].
  - rewrite Hstep, Z.add_comm by lia. f_equal. apply nonoverlap_fuel; [exact Hs|lia..].
Qed.

Theorem spalte_text_spec t s : 1 < len s -> Spalte_Text t s = Ok (split_iter (length t + 1) s t).
Proof.
  intros Hls. assert (Hs : s <> []) by (intros ->; cbn in Hls; lia).
  unfold Spalte_Text. cbv zeta.
  destruct (Z.eqb_spec (len s) 0); [lia|]. destruct (Z.eqb_spec (len s) 1); [lia|].
  rewrite nicht_ueberlappend_spec by exact Hs. cbn [bind].
  apply (spalte_loop_spec s (fun t => Text_Index_Von_Text t s) (fun e t => e + len s >? len t)
           (fun t => split_iter (length t + 1) s t) (fun t => nonoverlap_ref (length t + 1) s t));
    [exact Hs|intros u; apply nonoverlap_nonneg| |lia|lia].
  intros u. rewrite text_index_von_text_spec, !Nat.add_1_r by exact Hs.
  destruct (ref_index_cases u s Hs) as [[E _]|(k & -> & _ & Hocc & Hbefore)].
  - left. now rewrite split_iter_S, E.
  - right. destruct (first_occ_step s u k Hs Hocc Hbefore) as (pre & suf & Hu & Hlp & Hsp & Hcn).
    exists pre, suf. rewrite <- Hlp, Nat.add_1_r. split; [exact Hu|]. split; [reflexivity|]. split; [|now split].
    rewrite Hu, !len_app. pose proof (len_nonneg suf).
    destruct (Z.gtb_spec (len pre + 1 + len s) (len pre + (len s + len suf))), (Z.eqb_spec (len suf) 0); lia || reflexivity.
Qed.

(* Finde_Subtext: the first occurrence, then the first occurrence behind it, ... (1-based start positions) *)
Fixpoint finde_iter (fuel : nat) (s t : text) (pos : Z) : list Z :=
  match fuel with
  | O => []
  | S f =>
      let i := ref_index t s in
      if i =? -1 then []
      else (i + (pos - 1)) :: finde_iter f s (skipn (Z.to_nat (i - 1) + length s) t) (i + (pos - 1) + len s)
  end.

Lemma finde_loop_inv s t fuel : s <> [] -> forall start l, 1 <= start <= len t + 1 -> len t - start + 1 < Z.of_nat fuel ->
  finde_loop fuel t s (len t) (len s) start l = Ok (l ++ finde_iter fuel s (skipn (Z.to_nat (start - 1)) t) start).
Proof.
  intros Hs. pose proof (len_pos s Hs) as Hls.
  induction fuel as [|f IH]; intros start l Hst Hf; [lia|].
  cbn [finde_loop finde_iter]. cbv zeta.
  set (u := skipn (Z.to_nat (start - 1)) t).
  assert (Hlu : length u = (length t - Z.to_nat (start - 1))%nat) by apply skipn_length.
  destruct (Z.leb_spec start (len t - len s + 1)) as [E|E].
  - rewrite slice_from_in by lia. cbn [bind]. fold u.
    rewrite text_index_von_text_spec by exact Hs. cbn [bind].
    destruct (ref_index_cases u s Hs) as [[-> Hno]|(k & -> & Hkl & Hocc & Hbefore)].
    + cbn. now rewrite app_nil_r.
    + destruct (Z.eqb_spec (Z.of_nat k + 1) (-1)); [lia|].
      replace (Z.to_nat (Z.of_nat k + 1 - 1)) with k by lia.
      rewrite IH by (unfold len in *; lia). rewrite <- app_assoc. cbn [app].
      replace (skipn (k + length s) u) with (skipn (Z.to_nat (Z.of_nat k + 1 + (start - 1) + len s - 1)) t); [reflexivity|].
      unfold u. rewrite skipn_add. f_equal. unfold len. lia.
  - rewrite ref_index_short by (unfold len in *; lia). cbn. now rewrite app_nil_r.
Qed.

(* the iterator behind a prefix: at the end it reports the letter 0 and stays *)
Lemma it_on (pre suf : text) :
  it_zuende (pre ++ suf) (len pre + 1) = (match suf with [] => true | _ => false end) /\
  it_buchstabe (pre ++ suf) (len pre + 1) = hd 0 suf /\
  it_naechster (pre ++ suf) (len pre + 1) = len pre + 1 + (match suf with [] => 0 | _ => 1 end).
Proof.
  unfold it_buchstabe, it_naechster, it_zuende. rewrite len_app.
  destruct suf as [|c suf'].
  - rewrite len_nil. destruct (Z.gtb_spec (len pre + 1) (len pre + 0)); [|lia]. repeat split. lia.
  - pose proof (len_nonneg suf'). rewrite len_cons. destruct (Z.gtb_spec (len pre + 1) (len pre + (len suf' + 1))); [lia|]. now rewrite rd_mid.
Qed.

Definition stops (p : Z -> bool) (R : text) : Prop := R = [] \/ exists c R', R = c :: R' /\ p c = false.
Lemma span (p : Z -> bool) (l : text) : exists A R, l = A ++ R /\ Forall (fun c => p c = true) A /\ stops p R.
Proof.
  induction l as [|c l IH]; [exists [], []; repeat split; [constructor|left; reflexivity]|].
  destruct (p c) eqn:E.
  - destruct IH as (A & R & -> & HA & HR). exists (c :: A), R. repeat split; [constructor; assumption|exact HR].
  - exists [], (c :: l). repeat split; [constructor|right; exists c, l; auto].
Qed.
Lemma stops_hd (p : Z -> bool) R : p 0 = false -> stops p R -> p (hd 0 R) = false.
Proof. intros H0 [->|(c & R' & -> & Hc)]; assumption. Qed.

(* Spalten_Spaltmenge_Text: the maximal runs of letters outside the set *)
Section Spaltmenge.
  Variable m : list Z.
  Definition inm (c : Z) : bool := existsb (fun x => x =? c) m.
  Hypothesis Hm0 : inm 0 = false.          (* the iterator reports the letter 0 at the end of the text: with 0 in the set skip_in would stay there *)

  Lemma menge_enthaelt_inm c : menge_enthaelt m c = inm c.
  Proof. unfold menge_enthaelt. now rewrite enthaelt_spec. Qed.

  Lemma skip_in_inv A : forall pre R fuel, Forall (fun c => inm c = true) A -> stops inm R -> (length A < fuel)%nat ->
    skip_in fuel (pre ++ A ++ R) m (len pre + 1) = Ok (len (pre ++ A) + 1).
  Proof.
    induction A as [|a A IH]; intros pre R [|f] HA HR Hf; try (exfalso; apply (Nat.nlt_0_r _ Hf)); cbn [skip_in app];
      rewrite menge_enthaelt_inm.
    - destruct (it_on pre R) as (_ & -> & _). now rewrite (stops_hd inm R Hm0 HR), app_nil_r.
    - destruct (it_on pre (a :: A ++ R)) as (_ & -> & ->). cbn [hd]. rewrite (Forall_inv HA).
      rewrite (app_snoc pre a (A ++ R)), <- (len_snoc pre a), IH, <- app_snoc; [reflexivity|now apply Forall_inv_tail in HA|exact HR|].
      now apply Nat.succ_lt_mono.
  Qed.
  Lemma skip_out_inv B : forall pre R fuel, Forall (fun c => negb (inm c) = true) B -> stops (fun c => negb (inm c)) R -> (length B < fuel)%nat ->
    skip_out fuel (pre ++ B ++ R) m (len pre + 1) = Ok (len (pre ++ B) + 1).
  Proof.
    induction B as [|b B IH]; intros pre R [|f] HB HR Hf; try (exfalso; apply (Nat.nlt_0_r _ Hf)); cbn [skip_out app].
    - destruct (it_on pre R) as (Hz & Hb & _). rewrite Hz, Hb, menge_enthaelt_inm, app_nil_r.
      destruct HR as [->|(c & R' & -> & Hc)]; [|cbn [hd]; rewrite Hc]; reflexivity.
    - destruct (it_on pre (b :: B ++ R)) as (-> & -> & ->). cbn [hd]. rewrite menge_enthaelt_inm, (Forall_inv HB). cbn [negb andb].
      rewrite (app_snoc pre b (B ++ R)), <- (len_snoc pre b), IH, <- app_snoc; [reflexivity|now apply Forall_inv_tail in HB|exact HR|].
      now apply Nat.succ_lt_mono.
  Qed.

  Lemma fields_in A : forall R, Forall (fun c => inm c = true) A -> fields_ref m (A ++ R) [] = fields_ref m R [].
  Proof.
    induction A as [|a A IH]; intros R HA; [reflexivity|]. inversion HA; subst. cbn [app fields_ref]. fold (inm a).
    replace (inm a) with true by auto. cbn [len length Z.of_nat Z.eqb app]. now apply IH.
  Qed.
  Lemma fields_out B : forall R cur, Forall (fun c => negb (inm c) = true) B -> fields_ref m (B ++ R) cur = fields_ref m R (rev B ++ cur).
  Proof.
    induction B as [|b B IH]; intros R cur HB; [reflexivity|]. inversion HB as [|b' B' Hb HB']; subst. cbn [app fields_ref]. fold (inm b).
    apply negb_true_iff in Hb. rewrite Hb. rewrite IH by assumption. cbn [rev]. now rewrite <- app_assoc.
  Qed.
  (* a run B of letters outside the set, up to the next letter of the set or the end, is one field *)
  Lemma fields_run B R : B <> [] -> Forall (fun c => negb (inm c) = true) B -> stops (fun c => negb (inm c)) R ->
    fields_ref m (B ++ R) [] = B :: fields_ref m (tl R) [].
  Proof.
    intros HB Hout HR. rewrite fields_out, app_nil_r by assumption.
    assert (Hne : (len (rev B) =? 0) = false) by (rewrite len_eqb0; destruct (rev B) eqn:E; [apply (f_equal (@rev Z)) in E; rewrite rev_involutive in E; now subst|reflexivity]).
    destruct HR as [->|(d & R' & -> & Hd)]; cbn [fields_ref tl].
    - now rewrite Hne, rev_involutive.
    - fold (inm d). apply negb_false_iff in Hd. now rewrite Hd, Hne, rev_involutive.
  Qed.

  Lemma spaltmenge_loop_inv fuel : forall suf pre endl, (length suf < fuel)%nat ->
    spaltmenge_loop fuel (pre ++ suf) m (len pre + 1) endl = Ok (endl ++ fields_ref m suf []).
  Proof.
    induction fuel as [|f IH]; intros suf pre endl Hf; [lia|]. cbn [spaltmenge_loop].
    destruct (it_on pre suf) as (-> & _ & _). destruct suf as [|c0 suf0]; [cbn; now rewrite app_nil_r|]. cbn [negb].
    (* the letters of the set in front, then a run of other letters *)
    destruct (span inm (c0 :: suf0)) as (A & R & Hdec & HA & HR). rewrite Hdec in *. rewrite app_length in Hf.
    rewrite skip_in_inv, fields_in by (assumption || (rewrite !app_length; lia)). cbn [bind].
    rewrite app_assoc. destruct (it_on (pre ++ A) R) as (-> & _ & _).
    destruct R as [|c R']; [cbn; now rewrite app_nil_r|].
    destruct (span (fun x => negb (inm x)) (c :: R')) as (B & R2 & Hdec2 & HB & HR2). rewrite Hdec2 in *. rewrite app_length in Hf.
    assert (HBne : B <> []).
    { intros ->. cbn [app] in *. destruct HR as [E|(d & R3 & E & Hd)]; [rewrite E in Hdec2; discriminate|].
      destruct HR2 as [E2|(d' & R3' & E2 & Hd')]; [congruence|]. rewrite E in E2. injection E2 as <- _. now rewrite Hd in Hd'. }
    rewrite skip_out_inv by (assumption || (rewrite !app_length; lia)). cbn [bind].
    rewrite Z.add_simpl_r, slice_app_mid by exact HBne. cbn [bind]. unfold Hinzufuegen_Liste, efficient_list_append.
    rewrite (fields_run B R2 HBne HB HR2).
    (* the iterator steps over the letter that ended the run, if there is one *)
    rewrite app_assoc. destruct (it_on ((pre ++ A) ++ B) R2) as (_ & _ & ->).
    destruct R2 as [|d R3]; cbn [tl].
    - rewrite Z.add_0_r, IH by (destruct B; [congruence|cbn [length] in *; lia]). now rewrite <- app_assoc.
    - rewrite (app_snoc _ d R3), <- (len_snoc ((pre ++ A) ++ B) d), IH by (cbn [length] in Hf; lia). now rewrite <- app_assoc.
  Qed.

  Theorem spaltmenge_spec t : Spalten_Spaltmenge_Text_Ref t m = Ok (fields_ref m t []).
  Proof.
    unfold Spalten_Spaltmenge_Text_Ref. rewrite (len_eqb0 t). destruct t as [|c t']; [reflexivity|]. set (t := c :: t').
    destruct (Z.eqb_spec (len m) 0) as [Em|_].
    - (* an empty set splits nowhere *)
      apply len_zero_nil in Em.
      assert (Hall : Forall (fun c => negb (inm c) = true) t) by (apply Forall_forall; intros c0 _; unfold inm; rewrite Em; reflexivity).
      rewrite <- (app_nil_r t) at 2. now rewrite (fields_run t [] ltac:(discriminate) Hall (or_introl eq_refl)).
    - exact (spaltmenge_loop_inv (length t + 2) t [] [] ltac:(lia)).
  Qed.
End Spaltmenge.
