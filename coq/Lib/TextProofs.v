(* C17 — the text functions of Texte.ddp against the Coq list library *)
From Coq Require Import List ZArith Bool Lia ZifyBool.
From DDP Require Import Lib.Base Lib.BaseProofs Lib.ListProofs Lib.NumFns Lib.NumProofs Lib.TextFns.
Import ListNotations.
Open Scope Z_scope.

Lemma text_eqb_spec a b : text_eqb a b = true <-> a = b.
Proof.
  revert b. induction a as [|x a IH]; intros [|y b]; cbn [text_eqb]; try (split; congruence).
  rewrite andb_true_iff, Z.eqb_eq, IH. split; [intros [-> ->]; reflexivity|intros H; injection H; auto].
Qed.
Lemma text_eqbP a b : reflect (a = b) (text_eqb a b).
Proof. apply iff_reflect. symmetry. apply text_eqb_spec. Qed.
Lemma text_eqb_refl a : text_eqb a a = true.
Proof. now apply text_eqb_spec. Qed.

Fixpoint drop_z (z : Z) (t : text) : text :=
  match t with [] => [] | c :: r => if c =? z then drop_z z r else t end.
Definition all_z (z : Z) (t : text) : Prop := Forall (fun c => c = z) t.

(* t is a run of z followed by drop_z z t, which does not begin with z *)
Lemma drop_z_split z t : exists A, t = A ++ drop_z z t /\ all_z z A.
Proof.
  induction t as [|c r IH]; [exists []; split; [reflexivity|constructor]|].
  cbn [drop_z]. destruct (Z.eqb_spec c z) as [->|E].
  - destruct IH as (A & HA & Hz). exists (z :: A). split; [cbn; now rewrite <- HA|now constructor].
  - exists []. split; [reflexivity|constructor].
Qed.
Lemma drop_z_head z t c r : drop_z z t = c :: r -> c <> z.
Proof.
  induction t as [|x t IH]; cbn [drop_z]; [discriminate|].
  destruct (Z.eqb_spec x z) as [_|E]; [exact IH|]. now intros [= <- _].
Qed.
Lemma drop_z_all z a b : all_z z a -> drop_z z (a ++ b) = drop_z z b.
Proof.
  induction 1 as [|c a Hc Ha IH]; [reflexivity|]. subst c. cbn [app drop_z]. now rewrite Z.eqb_refl.
Qed.
Lemma drop_z_stop z c r : c <> z -> drop_z z (c :: r) = c :: r.
Proof. intros H. cbn [drop_z]. now destruct (Z.eqb_spec c z). Qed.

Lemma trim_anfang_loop_inv z suf : forall pre fuel, suf <> [] -> (length suf < fuel)%nat ->
  trim_anfang_loop fuel (pre ++ suf) z (len pre + 1) = Ok (drop_z z suf).
Proof.
  induction suf as [|c r IH]; intros pre fuel Hne Hf; [congruence|].
  destruct fuel as [|f]; [lia|]. cbn [trim_anfang_loop]. rewrite rd_mid. cbn [bind drop_z].
  destruct (c =? z).
  - cbv zeta. rewrite len_app, len_cons. destruct (Z.gtb_spec (len pre + 1 + 1) (len pre + (len r + 1))) as [E|E].
    + rewrite (len_zero_nil r) by (pose proof (len_nonneg r); lia). reflexivity.
    + rewrite (app_snoc pre c r), <- (len_snoc pre c). apply IH; [intros ->; cbn in E|cbn [length] in Hf]; lia.
  - rewrite slice_from_in by (split; [pose proof (len_nonneg pre); lia|apply in_range_mid]).
    replace (Z.to_nat (len pre + 1 - 1)) with (length pre) by (unfold len; lia). now rewrite skipn_app_len.
Qed.

Lemma trim_ende_loop_inv z pre : forall suf fuel, pre <> [] -> (length pre < fuel)%nat ->
  trim_ende_loop fuel (pre ++ suf) z (len pre) = Ok (rev (drop_z z (rev pre))).
Proof.
  induction pre as [|c p IH] using rev_ind; intros suf fuel Hne Hf; [congruence|].
  destruct fuel as [|f]; [lia|]. cbn [trim_ende_loop].
  rewrite <- app_assoc. cbn [app]. erewrite (rd_at _ p) by (reflexivity || apply len_snoc). cbn [bind].
  rewrite rev_unit. cbn [drop_z]. destruct (c =? z).
  - cbv zeta. rewrite len_snoc. replace (len p + 1 - 1) with (len p) by lia.
    destruct (Z.ltb_spec (len p) 1) as [E|E].
    + rewrite (len_zero_nil p) by (pose proof (len_nonneg p); lia). reflexivity.
    + apply IH; [intros ->; cbn in E; lia|]. rewrite app_length in Hf. cbn [length] in Hf. lia.
  - rewrite slice_to_in by (rewrite len_snoc, len_app, len_cons; pose proof (len_nonneg p); pose proof (len_nonneg suf); lia).
    rewrite to_nat_len, (app_snoc p c suf), firstn_app_len. cbn [rev]. now rewrite rev_involutive.
Qed.

Definition strip_ref (z : Z) (t : text) : text := rev (drop_z z (rev (drop_z z t))).

(* t = A ++ strip_ref z t ++ B with runs A, B of z; unless t is such a run itself, strip_ref z t begins and ends with other letters *)
Lemma strip_split z t : exists B, drop_z z t = strip_ref z t ++ B /\ all_z z B.
Proof.
  unfold strip_ref. destruct (drop_z_split z (rev (drop_z z t))) as (B & E & HB).
  exists (rev B). split; [|now apply Forall_rev]. rewrite <- rev_app_distr, <- E. now rewrite rev_involutive.
Qed.
Lemma strip_head z t : drop_z z t <> [] -> exists c S, strip_ref z t = c :: S /\ c <> z.
Proof.
  intros Hne. destruct (strip_split z t) as (B & E & HB). destruct (drop_z z t) as [|d D] eqn:ED; [congruence|].
  pose proof (drop_z_head z t d D ED) as Hd. destruct (strip_ref z t) as [|c S]; cbn [app] in E.
  - subst B. now inversion HB.
  - injection E as -> _. eauto.
Qed.
Lemma drop_z_rev z t A : drop_z z t <> [] -> t = A ++ drop_z z t -> drop_z z (rev t) = rev (strip_ref z t) ++ rev A.
Proof.
  intros Hne HA. destruct (strip_split z t) as (B & E & HB). destruct (strip_head z t Hne) as (c & S & ES & Hc).
  rewrite HA at 1. rewrite E, !rev_app_distr, <- app_assoc, drop_z_all by (now apply Forall_rev).
  unfold strip_ref in *. rewrite rev_involutive in *.
  destruct (drop_z z (rev (drop_z z t))) as [|x X] eqn:EX; [destruct S; discriminate|].
  cbn [app]. apply drop_z_stop. apply (drop_z_head z _ x X EX).
Qed.

(* the first position whose letter is not z, but at most the last position *)
Lemma trim_start_loop_inv z suf : forall pre fuel, suf <> [] -> (length suf < fuel)%nat ->
  trim_start_loop fuel (pre ++ suf) z (len pre + 1) =
    Ok (Z.min (len (pre ++ suf)) (len (pre ++ suf) - len (drop_z z suf) + 1)).
Proof.
  induction suf as [|c r IH]; intros pre fuel Hne Hf; [congruence|].
  destruct fuel as [|f]; [lia|]. cbn [trim_start_loop]. rewrite rd_mid. cbn [bind drop_z].
  pose proof (len_nonneg r). rewrite len_app, len_cons. destruct (c =? z); cbn [andb].
  - destruct (Z.ltb_spec (len pre + 1) (len pre + (len r + 1))) as [E|E].
    + rewrite (app_snoc pre c r), <- (len_snoc pre c), IH by (try (intros ->; cbn in E); cbn [length] in Hf; lia).
      rewrite len_app, len_snoc. f_equal. lia.
    + rewrite (len_zero_nil r) by lia. cbn [drop_z]. rewrite len_nil. f_equal. lia.
  - rewrite len_cons. f_equal. lia.
Qed.
(* the last position whose letter is not z, but at least the first position *)
Lemma trim_stop_loop_inv z pre : forall suf fuel, pre <> [] -> (length pre < fuel)%nat ->
  trim_stop_loop fuel (pre ++ suf) z (len pre) = Ok (Z.max 1 (len (drop_z z (rev pre)))).
Proof.
  induction pre as [|c p IH] using rev_ind; intros suf fuel Hne Hf; [congruence|].
  destruct fuel as [|f]; [lia|]. cbn [trim_stop_loop].
  rewrite <- app_assoc. cbn [app]. erewrite (rd_at _ p) by (reflexivity || apply len_snoc). cbn [bind].
  rewrite rev_unit, len_snoc. cbn [drop_z]. pose proof (len_nonneg p). destruct (c =? z); cbn [andb].
  - destruct (Z.eqb_spec (len p + 1) 1) as [E|E]; cbn [negb].
    + rewrite (len_zero_nil p) by lia. reflexivity.
    + replace (len p + 1 - 1) with (len p) by lia.
      apply IH; [intros ->; cbn in E; lia|]. rewrite app_length in Hf. cbn [length] in Hf. lia.
  - rewrite len_cons, len_rev. f_equal. lia.
Qed.

Lemma trim_spec t z : Trim t z = Ok (strip_ref z t).
Proof.
  unfold Trim. rewrite len_eqb0. destruct t as [|x t'] eqn:Et; [reflexivity|]. cbv iota. rewrite <- Et.
  assert (Ht0 : t <> []) by (rewrite Et; discriminate).
  rewrite (trim_start_loop_inv z t [] (length t + 1) Ht0 ltac:(lia) : trim_start_loop _ t z 1 = _).
  pose proof (trim_stop_loop_inv z t [] (length t + 1) Ht0 ltac:(lia)) as He.
  rewrite app_nil_r in He. rewrite He. cbn [bind app].
  destruct (drop_z_split z t) as (A & HA & HzA).
  destruct (drop_z z t) as [|d D] eqn:ED.
  - (* the whole text consists of the trimmed letter *)
    rewrite app_nil_r in HA. rewrite <- HA in HzA.
    rewrite <- (app_nil_r (rev t)), drop_z_all by (now apply Forall_rev). cbn [drop_z].
    rewrite len_nil, Z.sub_0_r, Z.min_l, Z.eqb_refl by lia. change (Z.max 1 0 =? 1) with true. cbn [andb].
    replace (rd t 1) with (Ok x : res Z) by (rewrite Et; symmetry; apply rd_cons_1). cbn [bind].
    rewrite Et in HzA. apply Forall_inv in HzA. rewrite HzA, Z.eqb_refl. unfold strip_ref. now rewrite ED.
  - assert (Hne : drop_z z t <> []) by (rewrite ED; discriminate).
    rewrite (drop_z_rev z t A Hne) by (now rewrite ED). rewrite <- ED in *.
    destruct (strip_split z t) as (B & E & HB). destruct (strip_head z t Hne) as (c & S & ES & Hc).
    set (M := strip_ref z t) in *.
    assert (Ht : t = A ++ M ++ B) by (rewrite HA at 1; now rewrite E).
    assert (HlM : 1 <= len M) by (rewrite ES, len_cons; pose proof (len_nonneg S); lia).
    pose proof (len_nonneg A). pose proof (len_nonneg B).
    assert (Hlt : len t = len A + (len M + len B)) by (rewrite Ht at 1; now rewrite !len_app).
    rewrite E, !len_app, !len_rev, Hlt.
    replace (Z.min _ _) with (len A + 1) by lia. replace (Z.max _ _) with (len (A ++ M)) by (rewrite len_app; lia).
    assert (Halles : (if (len A + 1 =? len A + (len M + len B)) && (len (A ++ M) =? 1) then do c0 <- rd t 1;; Ok (c0 =? z) else Ok false) = Ok false).
    { rewrite len_app. destruct (Z.eqb_spec (len A + len M) 1) as [E1|]; [|now rewrite andb_false_r]. rewrite andb_true_r.
      destruct (Z.eqb_spec (len A + 1) (len A + (len M + len B))); [|reflexivity].
      (* then A is empty and the text begins with the first letter of M *)
      rewrite Ht, (len_zero_nil A), ES by lia. cbn [app]. rewrite rd_cons_1. cbn [bind]. now destruct (Z.eqb_spec c z). }
    rewrite Halles. cbn [bind]. rewrite Ht. apply slice_app_mid. now rewrite ES.
Qed.

Lemma anzahl_buchstabe_count t z : forall anz, anzahl_buchstabe_loop t z anz = count_loop (fun b => b =? z) t anz.
Proof. induction t as [|b r IH]; intros anz; cbn [anzahl_buchstabe_loop count_loop]; [reflexivity|apply IH]. Qed.
Lemma text_anzahl_buchstabe_spec t z : Text_Anzahl_Buchstabe t z = Z.of_nat (count_occ Z.eq_dec t z).
Proof. unfold Text_Anzahl_Buchstabe. now rewrite anzahl_buchstabe_count, count_loop_spec, count_eqb_occ. Qed.

Definition occ_b (t s : text) (k : nat) : bool := text_eqb (firstn (length s) (skipn k t)) s.
Definition positions (t s : text) : list nat := seq 0 (Z.to_nat (len t - len s + 1)).

Lemma positions_nat (t s : text) : positions t s = seq 0 (length t + 1 - length s).
Proof. unfold positions, len. f_equal. lia. Qed.
Lemma occ_b_full t s : length s = length t -> occ_b t s 0 = text_eqb t s.
Proof. intros H. unfold occ_b. cbn [skipn]. now rewrite H, firstn_all. Qed.
Lemma occ_length t s k : s <> [] -> occ_b t s k = true -> (k + length s <= length t)%nat.
Proof.
  intros Hs H. assert (0 < length s)%nat by (destruct s; [congruence|cbn; lia]).
  apply text_eqb_spec, (f_equal (@length Z)) in H. rewrite firstn_length, skipn_length in H. lia.
Qed.
(* the window the searching loops compare with s: the k-th position (0-based) *)
Lemma slice_occ (t s : text) k : s <> [] -> Z.of_nat k + len s <= len t ->
  slice t (Z.of_nat k + 1) (Z.of_nat k + len s) = Ok (firstn (length s) (skipn k t)).
Proof.
  intros Hs H. pose proof (len_pos s Hs). rewrite slice_window by lia. now rewrite to_nat_len, Nat2Z.id.
Qed.
(* the loops run over the start positions k < P, i.e. as long as the window fits *)
Definition fits (t s : text) (P : nat) : Prop := forall k, (k < P)%nat <-> Z.of_nat k + len s <= len t.
Lemma fits_positions (t s : text) : fits t s (length t + 1 - length s).
Proof. intros k. unfold len. lia. Qed.

Lemma enthaelt_text_loop_inv t s P fuel : s <> [] -> fits t s P -> forall m k, (k + m = P)%nat -> (m < fuel)%nat ->
  enthaelt_text_loop fuel t s (len t) (len s) (Z.of_nat k + 1) (Z.of_nat k + len s) = Ok (existsb (occ_b t s) (seq k m)).
Proof.
  intros Hs HP. induction fuel as [|f IH]; intros m k Hkm Hf; [lia|]. cbn [enthaelt_text_loop].
  destruct (Z.leb_spec (Z.of_nat k + len s) (len t)) as [E|E].
  - rewrite slice_occ by assumption. cbn [bind]. fold (occ_b t s k). apply HP in E.
    destruct m as [|m]; [lia|]. cbn [seq existsb]. destruct (occ_b t s k); [reflexivity|]. rewrite of_nat_S. apply IH; lia.
  - destruct m as [|m]; [reflexivity|]. assert (Hk : (k < P)%nat) by lia. apply HP in Hk. lia.
Qed.

Lemma anzahl_text_loop_inv t s P fuel : s <> [] -> fits t s P -> forall m k anz, (k + m = P)%nat -> (m < fuel)%nat ->
  anzahl_text_loop fuel t s (len t) (len s) (Z.of_nat k + 1) (Z.of_nat k + len s) anz = Ok (anz + len (filter (occ_b t s) (seq k m))).
Proof.
  intros Hs HP. induction fuel as [|f IH]; intros m k anz Hkm Hf; [lia|]. cbn [anzahl_text_loop].
  destruct (Z.leb_spec (Z.of_nat k + len s) (len t)) as [E|E].
  - rewrite slice_occ by assumption. cbn [bind]. cbv zeta. fold (occ_b t s k). apply HP in E.
    destruct m as [|m]; [lia|]. cbn [seq filter]. rewrite of_nat_S, (IH m) by lia.
    destruct (occ_b t s k); [rewrite len_cons|]; f_equal; lia.
  - destruct m as [|m]; [cbn [seq filter]; now rewrite len_nil, Z.add_0_r|]. assert (Hk : (k < P)%nat) by lia. apply HP in Hk. lia.
Qed.

(* insertion in front of position p = index clamped into 1 .. Länge + 1 *)
Lemma text_einfuegen_spec t i e :
  Text_In_Text_Einfuegen t i e =
    Ok (firstn (Z.to_nat (clampZ i 1 (len t + 1) - 1)) t ++ e ++ skipn (Z.to_nat (clampZ i 1 (len t + 1) - 1)) t).
Proof.
  pose proof (len_nonneg t) as Hl. unfold Text_In_Text_Einfuegen.
  destruct (Z.leb_spec i 1) as [E1|E1]; [now rewrite clampZ_low by lia|].
  destruct (Z.gtb_spec i (len t)) as [E2|E2].
  - rewrite clampZ_high by lia. replace (Z.to_nat (len t + 1 - 1)) with (length t) by (unfold len; lia).
    rewrite firstn_all, skipn_all. now rewrite app_nil_r.
  - rewrite clampZ_id, slice_to_in, slice_from_in by lia. cbn [bind]. now rewrite <- app_assoc.
Qed.

Lemma buchstaben_loop_inv {B} (f : Z -> B) (d : B) t : forall pre,
  buchstaben_loop f t (len pre + 1) (pre ++ repeat d (length t)) = Ok (pre ++ map f t).
Proof.
  induction t as [|b r IH]; intros pre; cbn [buchstaben_loop length repeat map]; [reflexivity|].
  rewrite wr_mid. cbn [bind]. rewrite app_snoc, <- (len_snoc pre (f b)), IH. now rewrite <- app_snoc.
Qed.
Lemma buchstaben_liste_spec t : Buchstaben_TextRef_BuchstabenListe t = Ok t.
Proof.
  unfold Buchstaben_TextRef_BuchstabenListe. rewrite mal_len. cbn [bind].
  rewrite <- (map_id t) at 3. exact (buchstaben_loop_inv (fun b => b) 0 t []).
Qed.

Lemma index_buchstabe_loop_inv t z : forall i,
  (index_buchstabe_loop t z i = -1 /\ ~ In z t) \/
  (exists pre suf, t = pre ++ z :: suf /\ ~ In z pre /\ index_buchstabe_loop t z i = i + len pre).
Proof.
  induction t as [|b r IH]; intros i; cbn [index_buchstabe_loop].
  - left. split; [reflexivity|intros []].
  - destruct (Z.eqb_spec b z) as [->|E].
    + right. exists [], r. rewrite len_nil. repeat split; auto. lia.
    + destruct (IH (i + 1)) as [[H1 H2]|(pre & suf & -> & Hn & Hi)].
      * left. split; [exact H1|]. intros [H|H]; [congruence|contradiction].
      * right. exists (b :: pre), suf. split; [reflexivity|]. split.
        -- intros [H|H]; [congruence|contradiction].
        -- rewrite Hi, len_cons. lia.
Qed.
Lemma text_index_von_buchstabe_spec t z :
  (Text_Index_Von_Buchstabe_Ref t z = -1 /\ ~ In z t) \/
  (exists pre suf, t = pre ++ z :: suf /\ ~ In z pre /\ Text_Index_Von_Buchstabe_Ref t z = len pre + 1).
Proof.
  unfold Text_Index_Von_Buchstabe_Ref. rewrite len_eqb0. destruct t as [|c r]; [left; split; [reflexivity|intros []]|].
  destruct (index_buchstabe_loop_inv (c :: r) z 1) as [H|(pre & suf & H1 & H2 & H3)]; [left; exact H|].
  right. exists pre, suf. repeat split; auto. lia.
Qed.

Lemma schreiben_loop_inv f t : forall acc, schreiben_loop f t acc = acc ++ map f t.
Proof.
  induction t as [|b r IH]; intros acc; cbn [schreiben_loop map]; [now rewrite app_nil_r|].
  rewrite IH. unfold Buchstabe_An_Text_Fuegen. now rewrite <- app_assoc.
Qed.

(* the doc comment of Zeichen.Großgeschrieben: the German lower-case letters a-z, ä, ö, ü map to their
   upper-case variant (32 code points below), everything else is returned unchanged *)
Definition de_klein (c : Z) : bool := ((97 <=? c) && (c <=? 122)) || (c =? 228) || (c =? 246) || (c =? 252).
Definition de_gross (c : Z) : bool := ((65 <=? c) && (c <=? 90)) || (c =? 196) || (c =? 214) || (c =? 220).
Definition gross_ref (c : Z) : Z := if de_klein c then c - 32 else c.
Definition klein_ref (c : Z) : Z := if de_gross c then c + 32 else c.

(* all letters concerned lie in 65 .. 252; there the definitions are compared value by value, in one sweep for both directions *)
Lemma nicht_deutsch c : c < 65 \/ 252 < c -> Ist_Deutscher_Buchstabe c = false /\ de_klein c = false /\ de_gross c = false.
Proof. intros H. unfold Ist_Deutscher_Buchstabe, de_klein, de_gross. lia. Qed.
Fixpoint alle_ab (f : Z -> bool) (n : nat) (c : Z) : bool :=
  match n with O => true | S n' => f c && alle_ab f n' (c + 1) end.
Lemma alle_ab_spec f n : forall c, alle_ab f n c = true -> forall x, c <= x < c + Z.of_nat n -> f x = true.
Proof.
  induction n as [|n IH]; intros c H x Hx; [lia|]. cbn [alle_ab] in H. apply andb_true_iff in H.
  destruct (Z.eq_dec x c) as [->|]; [apply H|]. apply (IH (c + 1)); [apply H|lia].
Qed.
Lemma schreibung_65_252 :
  alle_ab (fun c => (Grossgeschrieben c =? gross_ref c) && (Kleingeschrieben c =? klein_ref c)) 188 65 = true.
Proof. vm_compute. reflexivity. Qed.
Lemma schreibung_spec c : Grossgeschrieben c = gross_ref c /\ Kleingeschrieben c = klein_ref c.
Proof.
  destruct (Z_lt_dec c 65) as [H|H]; [|destruct (Z_lt_dec 252 c) as [H'|H']].
  1, 2: destruct (nicht_deutsch c ltac:(lia)) as (A & B & C);
    unfold Grossgeschrieben, gross_ref, Kleingeschrieben, klein_ref; now rewrite A, B, C.
  pose proof (alle_ab_spec _ _ _ schreibung_65_252 c ltac:(lia)) as S. apply andb_true_iff in S. now rewrite !Z.eqb_eq in S.
Qed.

Lemma wiederhole_vor n z : forall t, wiederhole n (fun t => Buchstabe_Vor_Text_Stellen t z) t = repeat z n ++ t.
Proof.
  induction n as [|n IH]; intros t; cbn [wiederhole repeat]; [reflexivity|].
  rewrite IH, repeat_cons. unfold Buchstabe_Vor_Text_Stellen. now rewrite <- app_assoc.
Qed.
Lemma wiederhole_an n z : forall t, wiederhole n (fun t => Buchstabe_An_Text_Fuegen t z) t = t ++ repeat z n.
Proof.
  induction n as [|n IH]; intros t; cbn [wiederhole repeat]; [now rewrite app_nil_r|].
  rewrite IH. unfold Buchstabe_An_Text_Fuegen. now rewrite <- app_assoc.
Qed.

Fixpoint join {E} (show : E -> text) (z : Z) (l : list E) : text :=
  match l with
  | [] => []
  | [x] => show x
  | x :: r => show x ++ z :: join show z r
  end.
Lemma verbinden_loop_inv {E} (show : E -> text) z (suf : list E) : forall pre acc,
  verbinden_loop show (length suf) (len pre + 1) (pre ++ suf) z acc = Ok (acc ++ join show z suf).
Proof.
  induction suf as [|x r IH]; intros pre acc; cbn [verbinden_loop length join]; [now rewrite app_nil_r|].
  rewrite rd_mid. cbn [bind]. rewrite len_app, len_cons.
  set (ret := if _ <? _ then _ else _). rewrite (app_snoc pre x r), <- (len_snoc pre x), IH. f_equal. subst ret.
  destruct (Z.ltb_spec (len pre + 1) (len pre + (len r + 1))) as [E0|E0].
  - destruct r; [rewrite len_nil in E0; lia|]. now rewrite <- !app_assoc.
  - rewrite (len_zero_nil r) by (pose proof (len_nonneg r); lia). apply app_nil_r.
Qed.

Definition mismatches (a b : text) : Z := len (filter (fun p => negb (fst p =? snd p)) (combine a b)).
Lemma hamming_loop_inv (s1 s2 : text) : forall p1 p2 summe, length s1 = length s2 -> len p2 = len p1 ->
  hamming_loop (length s1) (len p1 + 1) (p1 ++ s1) (p2 ++ s2) summe = Ok (summe + mismatches s1 s2).
Proof.
  revert s2. induction s1 as [|a s1 IH]; intros [|b s2] p1 p2 summe Hl Hp; try discriminate Hl; cbn [hamming_loop length].
  - unfold mismatches. cbn. now rewrite Z.add_0_r.
  - rewrite rd_mid. cbn [bind]. erewrite (rd_at _ p2) by (reflexivity || lia). cbn [bind].
    rewrite (app_snoc p1 a s1), (app_snoc p2 b s2), <- (len_snoc p1 a).
    rewrite IH by (try (now injection Hl); now rewrite !len_snoc, Hp).
    f_equal. unfold mismatches. cbn [combine filter fst snd]. destruct (a =? b); cbn [negb]; [|rewrite len_cons]; lia.
Qed.

(* what the loop computes on two texts: the difference at the first mismatch, -1 / 1 when text1 / text2 ends first
   (text1 also "ends first" when both end together, which Vergleiche_Text excludes beforehand) *)
Fixpoint vgl (t1 t2 : text) : Z :=
  match t1, t2 with
  | [], _ => -1
  | _ :: _, [] => 1
  | a :: r1, b :: r2 => if a =? b then vgl r1 r2 else a - b
  end.
Lemma vergleiche_loop_inv s1 : forall p s2 fuel, s1 <> [] -> s2 <> [] -> (length s1 < fuel)%nat ->
  vergleiche_loop fuel (p ++ s1) (p ++ s2) (len p + 1) = Ok (vgl s1 s2).
Proof.
  induction s1 as [|a s1 IH]; intros p [|b s2] fuel H1 H2 Hf; try congruence.
  destruct fuel as [|f]; [lia|]. cbn [vergleiche_loop vgl]. rewrite !rd_mid. cbn [bind].
  destruct (Z.eqb_spec a b) as [<-|E]; [|reflexivity]. cbv zeta. rewrite !len_app, !len_cons.
  pose proof (len_nonneg s1). pose proof (len_nonneg s2).
  destruct (Z.gtb_spec (len p + 1 + 1) (len p + (len s1 + 1))).
  { now rewrite (len_zero_nil s1) by lia. }
  destruct (Z.gtb_spec (len p + 1 + 1) (len p + (len s2 + 1))).
  { rewrite (len_zero_nil s2) by lia. destruct s1; [cbn in *; lia|reflexivity]. }
  rewrite (app_snoc p a s1), (app_snoc p a s2), <- (len_snoc p a).
  apply IH; [intros ->|intros ->|]; cbn [length] in *; cbn in *; lia.
Qed.
Lemma vgl_diff q a b r1 r2 : a <> b -> vgl (q ++ a :: r1) (q ++ b :: r2) = a - b.
Proof.
  intros H. induction q as [|c q IH]; cbn [app vgl]; [now destruct (Z.eqb_spec a b)|]. now rewrite Z.eqb_refl.
Qed.
Lemma vgl_prefix t c r : vgl t (t ++ c :: r) = -1.
Proof. induction t as [|a t IH]; cbn [app vgl]; [reflexivity|]. now rewrite Z.eqb_refl. Qed.
Lemma vgl_extends t c r : vgl (t ++ c :: r) t = 1.
Proof. induction t as [|a t IH]; cbn [app vgl]; [reflexivity|]. now rewrite Z.eqb_refl. Qed.

(* Text_Anzahl_Text_Nicht_Überlappend: leftmost, non-overlapping occurrences *)
Fixpoint nonoverlap_ref (fuel : nat) (s t : text) : Z :=
  match fuel with
  | O => 0
  | S f =>
      if (length t <? length s)%nat then 0
      else if text_eqb (firstn (length s) t) s then 1 + nonoverlap_ref f s (skipn (length s) t)
      else nonoverlap_ref f s (tl t)
  end.

Lemma nicht_ueberlappend_loop_inv t s fuel : s <> [] -> forall k anz, (k <= length t)%nat -> (length t - k < fuel)%nat ->
  nicht_ueberlappend_loop fuel t s (len t) (len s) (Z.of_nat k + 1) (Z.of_nat k + len s) anz =
    Ok (anz + nonoverlap_ref fuel s (skipn k t)).
Proof.
  intros Hs. assert (Hls : (0 < length s)%nat) by (destruct s; [congruence|cbn; lia]).
  induction fuel as [|f IH]; intros k anz Hkt Hf; [lia|].
  cbn [nicht_ueberlappend_loop nonoverlap_ref]. rewrite skipn_length.
  destruct (Z.leb_spec (Z.of_nat k + len s) (len t)) as [E|E].
  - rewrite slice_occ by assumption. cbn [bind]. unfold len in E.
    destruct (Nat.ltb_spec (length t - k) (length s)); [lia|].
    destruct (text_eqb (firstn (length s) (skipn k t)) s).
    + replace (Z.of_nat k + 1 + len s) with (Z.of_nat (k + length s) + 1) by (unfold len; lia).
      replace (Z.of_nat k + len s + len s) with (Z.of_nat (k + length s) + len s) by (unfold len; lia).
      rewrite IH by lia. rewrite skipn_add. f_equal. lia.
    + rewrite of_nat_S. replace (Z.of_nat k + len s + 1) with (Z.of_nat (S k) + len s) by lia.
      rewrite IH by lia. now rewrite tl_skipn.
  - unfold len in E. destruct (Nat.ltb_spec (length t - k) (length s)); [|lia]. now rewrite Z.add_0_r.
Qed.
Lemma nicht_ueberlappend_spec t s : s <> [] ->
  Text_Anzahl_Text_Nicht_Ueberlappend t s = Ok (nonoverlap_ref (length t + 1) s t).
Proof.
  intros Hs. unfold Text_Anzahl_Text_Nicht_Ueberlappend. cbv zeta. rewrite !len_eqb0.
  destruct t as [|c t']; [now destruct s|]. destruct s as [|x s']; [congruence|].
  exact (nicht_ueberlappend_loop_inv (c :: t') (x :: s') (length (c :: t') + 1) Hs 0 0 ltac:(lia) ltac:(lia)).
Qed.

Fixpoint split_ref (z : Z) (t : text) : list text :=
  match t with
  | [] => [[]]
  | c :: r => if c =? z then [] :: split_ref z r
              else match split_ref z r with h :: tl => (c :: h) :: tl | [] => [[c]] end
  end.
Lemma split_ref_notin z t : ~ In z t -> split_ref z t = [t].
Proof.
  induction t as [|c r IH]; intros H; [reflexivity|]. cbn [split_ref].
  destruct (Z.eqb_spec c z) as [->|_]; [destruct H; now left|]. rewrite IH; [reflexivity|]. intros Hin. apply H. now right.
Qed.
Lemma split_ref_app z pre suf : ~ In z pre -> split_ref z (pre ++ z :: suf) = pre :: split_ref z suf.
Proof.
  induction pre as [|c r IH]; intros H; cbn [app split_ref].
  - now rewrite Z.eqb_refl.
  - destruct (Z.eqb_spec c z) as [->|_]; [destruct H; now left|]. rewrite IH; [reflexivity|]. intros Hin. apply H. now right.
Qed.
Lemma anzahl_app z pre suf : ~ In z pre ->
  Text_Anzahl_Buchstabe (pre ++ z :: suf) z = Text_Anzahl_Buchstabe suf z + 1.
Proof.
  intros H. rewrite !text_anzahl_buchstabe_spec, count_occ_app. cbn [count_occ].
  destruct (Z.eq_dec z z) as [_|N]; [|congruence].
  rewrite (proj1 (count_occ_not_In Z.eq_dec pre z) H). lia.
Qed.
Lemma anzahl_nonneg t z : 0 <= Text_Anzahl_Buchstabe t z.
Proof. rewrite text_anzahl_buchstabe_spec. lia. Qed.

(* one round of the loop of Spalte / Spalte_Text on t = pre ++ sep ++ suf, found at endIndex = len pre + 1 *)
Lemma spalte_piece (pre rest : text) : (if len pre + 1 =? 1 then Ok [] else slice_to (pre ++ rest) (len pre + 1 - 1)) = Ok pre.
Proof.
  pose proof (len_nonneg pre). destruct (Z.eqb_spec (len pre + 1) 1) as [E|E]; [now rewrite (len_zero_nil pre) by lia|].
  rewrite slice_to_in by (rewrite len_app; pose proof (len_nonneg rest); lia).
  replace (len pre + 1 - 1) with (len pre) by lia. now rewrite to_nat_len, firstn_app_len.
Qed.
Lemma spalte_rest (pre sep suf : text) (am_ende : bool) : sep <> [] -> am_ende = (len suf =? 0) ->
  (if am_ende then Ok [] else slice_from (pre ++ sep ++ suf) (len pre + 1 + len sep)) = Ok suf.
Proof.
  intros Hs ->. pose proof (len_nonneg pre). pose proof (len_pos sep Hs). rewrite len_eqb0. destruct suf as [|c suf']; [reflexivity|].
  rewrite app_assoc, slice_from_in by (rewrite !len_app, len_cons; pose proof (len_nonneg suf'); lia).
  replace (len pre + 1 + len sep - 1) with (len (pre ++ sep)) by (rewrite len_app; lia).
  now rewrite to_nat_len, skipn_app_len.
Qed.

(* the loop of Spalte / Spalte_Text for a searcher that finds the first separator sep or reports -1; split is what the
   pieces should be, cnt the number of separators the caller has counted beforehand (the loop makes at most n rounds) *)
Section SpalteLoop.
  Variables (sep : text) (index_of : text -> res Z) (am_ende : Z -> text -> bool) (split : text -> list text) (cnt : text -> Z).
  Hypothesis Hsep : sep <> [].
  Hypothesis Hcnt : forall t, 0 <= cnt t.
  Hypothesis Hstep : forall t,
    (index_of t = Ok (-1) /\ split t = [t]) \/
    (exists pre suf, t = pre ++ sep ++ suf /\ index_of t = Ok (len pre + 1) /\ am_ende (len pre + 1) t = (len suf =? 0) /\
       split t = pre :: split suf /\ cnt t = cnt suf + 1).

  Lemma spalte_loop_inv fuel : forall t endl i n, i = len endl + 1 -> cnt t <= n - i -> (length t < fuel)%nat ->
    exists t' endl' i', spalte_loop fuel index_of am_ende (len sep) t endl i n = Ok (t', endl', i') /\
      endl' ++ [t'] = endl ++ split t /\ i' = len (endl' ++ [t']).
  Proof.
    induction fuel as [|f IH]; intros t endl i n Hi Hc Hf; [lia|]. cbn [spalte_loop]. pose proof (Hcnt t).
    destruct (Z.leb_spec i n); [|lia].
    destruct (Hstep t) as [[-> ->]|(pre & suf & -> & -> & Ham & -> & Hc1)]; cbn [bind].
    - exists t, endl, i. split; [reflexivity|]. split; [reflexivity|]. rewrite len_snoc. lia.
    - pose proof (len_nonneg pre). destruct (Z.ltb_spec (len pre + 1) 0); [lia|].
      rewrite spalte_piece. cbn [bind]. rewrite (spalte_rest pre sep suf _ Hsep Ham). cbn [bind].
      pose proof (Hcnt suf). rewrite !app_length in Hf. assert (0 < length sep)%nat by (destruct sep; [congruence|cbn; lia]).
      destruct (IH suf (endl ++ [pre]) (i + 1) n) as (t' & endl' & i' & E & Hs & Hi'); [rewrite len_snoc; lia|lia|lia|].
      exists t', endl', i'. split; [exact E|]. split; [|exact Hi']. now rewrite Hs, <- app_assoc.
  Qed.
  (* both functions then cut the collected list at the index the loop stopped at *)
  Lemma spalte_loop_spec t n fuel : cnt t + 1 <= n -> (length t < fuel)%nat ->
    (do r <- spalte_loop fuel index_of am_ende (len sep) t [] 1 n;; let '(t', endliste, i) := r in slice_to (endliste ++ [t']) i) = Ok (split t).
  Proof.
    intros Hn Hf. destruct (spalte_loop_inv fuel t [] 1 n eq_refl ltac:(lia) Hf) as (t' & endl' & i' & -> & Hs & ->). cbn [bind].
    rewrite slice_to_in by (rewrite len_snoc; pose proof (len_nonneg endl'); lia). now rewrite to_nat_len, firstn_all, Hs.
  Qed.
End SpalteLoop.

(* reference functions (list library only) for the theorems of Lib/TextSearchProofs.v *)
(* 1-based position of the first occurrence of s in t, -1 if there is none *)
Definition ref_index (t s : text) : Z :=
  match find (occ_b t s) (positions t s) with Some k => Z.of_nat k + 1 | None => -1 end.
(* the maximal runs of letters that are not in the set m *)
Fixpoint fields_ref (m : list Z) (t : text) (cur : text) : list text :=
  match t with
  | [] => if len cur =? 0 then [] else [rev cur]
  | c :: r => if existsb (fun x => x =? c) m
              then (if len cur =? 0 then [] else [rev cur]) ++ fields_ref m r []
              else fields_ref m r (c :: cur)
  end.
