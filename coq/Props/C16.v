(* C16 — compilation is repeatable: nothing observable depends on map iteration order or sort instability.
   Each theorem is followed by Print Assumptions; the lemmas are in Det/*Proofs.v.
   A Go map is the list of its entries in the order one `range` delivers them; another iteration delivers a
   Permutation. Names:  site_invariant_<s> (full), site_<s>_partial (what holds although the full statement
   is false), site_<s>_refuted (two concrete orders with different observables — defects of the pinned tree),
   site_<s>_fixed (the repaired site is invariant). Pinned tree: the revision of /repo the models were first
   written against. Non-vacuity examples: Det/NonVacuity.v (imported so that coqchk over the Props modules
   reaches them). *)
From Coq Require Import List NArith Permutation Lia.
Import ListNotations.
From DDP Require Import Det.Sorting Det.SortingProofs Det.Sites Det.SitesProofs Det.C16Model Det.C16ModelProofs
  Det.ExprTree Det.ExprTreeProofs Det.AliasSort Det.AliasSortProofs Det.SiteIndex Gen.Sites Det.SiteIndexProofs Det.NonVacuity.

(* Go's small-slice insertion sort returns a sorted permutation for every strict weak order *)
Theorem C16_insertion_sort_sorts :
  forall (A : Type) (less : A -> A -> bool), asym less -> negtrans less ->
    forall l, Permutation l (isort less l) /\ sorted less (isort less l).
Proof. exact (fun A less Ha Ht l => conj (isort_perm A less l) (isort_sorted A less Ha Ht l)). Qed.
Print Assumptions C16_insertion_sort_sorts.

(* for a comparator that is total on the elements, two sorted arrangements of the same elements coincide *)
Theorem C16_sorted_unique :
  forall (A : Type) (less : A -> A -> bool) (l l' : list A),
    Permutation l l' -> total_on less l -> sorted less l -> sorted less l' -> l = l'.
Proof. exact sorted_unique. Qed.
Print Assumptions C16_sorted_unique.

(* hence sort.Slice (insertion sort up to 12 elements, any sorting routine beyond) is order-insensitive *)
Theorem C16_go_sort_invariant :
  forall (A : Type) (less : A -> A -> bool), asym less -> negtrans less ->
    forall big, sorts less big -> forall l l', total_on less l -> Permutation l l' ->
      go_sort less big l = go_sort less big l'.
Proof. exact go_sort_invariant. Qed.
Print Assumptions C16_go_sort_invariant.

(* the lexicographic (line, column) comparator is a strict total order on positions *)
Theorem C16_lex_strict_total_order :
  (forall p, lex_lt p p = false) /\
  (forall p q r, lex_lt p q = true -> lex_lt q r = true -> lex_lt p r = true) /\
  (forall p q, p <> q -> lex_lt p q = true \/ lex_lt q p = true).
Proof.
  split; [exact lex_irrefl|]. split; [exact lex_trans|].
  intros p q Hne. destruct (lex_lt p q) eqn:E1; [left; reflexivity|].
  destruct (lex_lt q p) eqn:E2; [right; reflexivity|].
  exfalso. apply Hne. apply lex_total; assumption.
Qed.
Print Assumptions C16_lex_strict_total_order.

Theorem C16_lex_meets_sort_contract : asym lex_lt /\ negtrans lex_lt /\ (forall p q, lex_lt p q = false -> lex_lt q p = false -> p = q).
Proof. exact (conj lex_asym (conj lex_negtrans lex_total)). Qed.
Print Assumptions C16_lex_meets_sort_contract.

(* the comparator IterateImportedDecls had on the pinned tree (`line< || col<`; /repo now uses IsBefore, which
   is lex_lt) is not a strict weak order *)
Theorem C16_comparator_not_strict_weak :
  (exists p q, code_lt p q = true /\ code_lt q p = true) /\ ~ asym code_lt.
Proof.
  split; [exact code_lt_not_asym|]. intros H.
  destruct code_lt_not_asym as (p & q & H1 & H2). rewrite (H p q H1) in H2. discriminate H2.
Qed.
Print Assumptions C16_comparator_not_strict_weak.

(* parser.sortAliases: the comparator is a strict weak order whose ties are the equal (tokens, generics, references)
   triples; the result is a sorted permutation of the trie-search result and, up to 12 candidates (Go's stable insertion
   sort), tied candidates keep their trie-search order: which of several maximal candidates is tried first is a function
   of the (map-free) search result *)
Theorem C16_site_sort_aliases :
  asym alias_less /\ negtrans alias_less /\
  (forall a b, alias_less a b = false -> alias_less b a = false -> same_rank a b = true) /\
  forall big l, (forall l0, Permutation l0 (big l0)) ->
    Permutation l (sort_aliases big l) /\
    (length l <= 12 -> sorted alias_less (sort_aliases big l) /\
       forall c, filter (same_rank c) (sort_aliases big l) = filter (same_rank c) l).
Proof. exact (conj alias_asym (conj alias_negtrans (conj alias_incomparable sort_aliases_spec))). Qed.
Print Assumptions C16_site_sort_aliases.

Theorem C16_site_imported_decls_refuted :
  (exists l l', Permutation l l' /\ forall big, imported_decls big l <> imported_decls big l') /\
  (exists existing l l', Permutation l l' /\ length l <= 12 /\
     forall big, import_site big existing l <> import_site big existing l').
Proof. exact (conj imported_decls_refuted import_site_refuted). Qed.
Print Assumptions C16_site_imported_decls_refuted.

(* what does hold on the pinned tree: verdict, and the delivered diagnostic is one of a fixed multiset *)
Theorem C16_site_imported_decls_partial :
  forall big, (forall l, Permutation l (big l)) ->
    forall existing l l', Permutation l l' ->
      snd (import_site big existing l) = snd (import_site big existing l') /\
      (forall d, fst (import_site big existing l') = Some d -> In d (import_diags existing l)) /\
      Permutation (imported_symbols big l) (imported_symbols big l').
Proof.
  intros big Hb existing l l' Hp. unfold import_site. split; [|split].
  - apply report_faulty_perm. apply import_diags_perm. apply imported_decls_perm; assumption.
  - intros d H. eapply report_delivered_perm; [|exact H].
    apply import_diags_perm. eapply Permutation_trans; [exact Hp|]. apply go_sort_perm. exact Hb.
  - unfold imported_symbols. apply Permutation_map. apply imported_decls_perm; assumption.
Qed.
Print Assumptions C16_site_imported_decls_partial.

(* the usual layout — every public declaration starts in the same column, on its own line — is safe *)
Theorem C16_site_imported_decls_same_column :
  forall big existing l l',
    length l <= 12 ->
    (forall a b, In a l -> In b l -> col (d_pos a) = col (d_pos b)) ->
    (forall a b, In a l -> In b l -> d_pos a = d_pos b -> a = b) ->
    Permutation l l' -> import_site big existing l = import_site big existing l'.
Proof.
  intros big existing l l' Hlen Hcol Hinj Hp. unfold import_site, imported_decls.
  rewrite !go_sort_small by (rewrite <- ?(Permutation_length Hp); exact Hlen). do 2 f_equal.
  (* on one column the comparator of the pinned tree is the lexicographic one *)
  assert (E : forall m, (forall x, In x m -> In x l) -> isort decl_code_lt m = isort decl_lex_lt m).
  { intros m Hm. apply isort_ext. intros x y Hx Hy. apply code_eq_lex_same_col, Hcol; apply Hm; assumption. }
  rewrite (E l), (E l') by (auto || intros x; apply (Permutation_in x (Permutation_sym Hp))).
  apply isort_invariant; [exact decl_lex_asym|exact decl_lex_negtrans|apply decl_lex_total_on, Hinj|exact Hp].
Qed.
Print Assumptions C16_site_imported_decls_same_column.

(* the repaired comparator: full invariance, whatever sort routine runs on long slices *)
Theorem C16_site_imported_decls_fixed :
  forall big, sorts decl_lex_lt big ->
    forall existing l l',
      (forall a b, In a l -> In b l -> d_pos a = d_pos b -> a = b) ->
      Permutation l l' ->
      imported_decls_fixed big l = imported_decls_fixed big l' /\
      import_site_fixed big existing l = import_site_fixed big existing l'.
Proof.
  intros big Hb existing l l' Hinj Hp.
  assert (E : imported_decls_fixed big l = imported_decls_fixed big l').
  { apply go_sort_invariant; [exact decl_lex_asym|exact decl_lex_negtrans|exact Hb|apply decl_lex_total_on, Hinj|exact Hp]. }
  split; [exact E|]. unfold import_site_fixed. rewrite E. reflexivity.
Qed.
Print Assumptions C16_site_imported_decls_fixed.

Theorem C16_site_check_call_args_refuted :
  exists m m', Permutation m m' /\ NoDup (map a_name m) /\ report (check_call_args m) <> report (check_call_args m').
Proof. exact check_call_args_refuted. Qed.
Print Assumptions C16_site_check_call_args_refuted.

Theorem C16_site_resolve_call_args_refuted :
  exists m m', Permutation m m' /\ NoDup (map a_name m) /\ report (resolve_call_args m) <> report (resolve_call_args m').
Proof. exact resolve_call_args_refuted. Qed.
Print Assumptions C16_site_resolve_call_args_refuted.

Theorem C16_site_struct_args_refuted :
  (exists m m', Permutation m m' /\ NoDup (map a_name m) /\ report (check_struct_args m) <> report (check_struct_args m')) /\
  (exists m m', Permutation m m' /\ NoDup (map a_name m) /\ report (resolve_struct_args m) <> report (resolve_struct_args m')).
Proof. exact (conj check_call_args_refuted resolve_call_args_refuted). Qed.
Print Assumptions C16_site_struct_args_refuted.

Theorem C16_call_stmt_partial :
  forall mr mr' mt mt', Permutation mr mr' -> Permutation mt mt' ->
    snd (call_stmt mr mt) = snd (call_stmt mr' mt') /\
    (forall d, fst (call_stmt mr' mt') = Some d -> In d (resolve_call_args mr ++ check_call_args mt)) /\
    ((forall a b, In a mr -> In b mr -> a_rdiags a <> [] -> a_rdiags b <> [] -> a = b) ->
     (forall a b, In a mt -> In b mt -> a_tdiags a <> [] -> a_tdiags b <> [] -> a = b) ->
     call_stmt mr mt = call_stmt mr' mt').
Proof.
  intros mr mr' mt mt' Hr Ht. unfold call_stmt.
  assert (P : Permutation (resolve_call_args mr ++ check_call_args mt) (resolve_call_args mr' ++ check_call_args mt')).
  { apply Permutation_app; apply Permutation_flat_map; assumption. }
  split; [apply report_faulty_perm; exact P|]. split.
  - intros d H. eapply report_delivered_perm; [exact P|exact H].
  - intros H1 H2. unfold resolve_call_args, check_call_args.
    rewrite (flat_map_perm_one _ _ a_rdiags mr mr' H1 Hr), (flat_map_perm_one _ _ a_tdiags mt mt' H2 Ht). reflexivity.
Qed.
Print Assumptions C16_call_stmt_partial.

Theorem C16_site_call_args_fixed :
  forall params mr mr' mt mt',
    NoDup (map a_name mr) -> NoDup (map a_name mt) -> Permutation mr mr' -> Permutation mt mt' ->
    call_stmt_fixed params mr mt = call_stmt_fixed params mr' mt'.
Proof. exact call_stmt_fixed_invariant. Qed.
Print Assumptions C16_site_call_args_fixed.

(* whole statements with nested calls: every node whose children live in a map is walked in some order, the
   resolver pass and the typechecker pass independently *)
Theorem C16_stmt_report_refuted :
  exists e e1 e2, reorder e e1 /\ reorder e e2 /\ stmt_report2 e1 e1 <> stmt_report2 e2 e2.
Proof. exact stmt_report_refuted. Qed.
Print Assumptions C16_stmt_report_refuted.

(* whatever orders the two passes take: same verdict, and the delivered diagnostic is one of a fixed multiset *)
Theorem C16_stmt_report_partial :
  forall e er et, reorder e er -> reorder e et ->
    snd (stmt_report2 er et) = snd (stmt_report e) /\
    (forall d, fst (stmt_report2 er et) = Some d -> In d (rdiags e ++ tdiags e)).
Proof.
  intros e er et Hr Ht. destruct (reorder_diags_perm e er Hr) as [Pr _]. destruct (reorder_diags_perm e et Ht) as [_ Pt].
  assert (P : Permutation (rdiags e ++ tdiags e) (rdiags er ++ tdiags et)) by (apply Permutation_app; assumption).
  unfold stmt_report2, stmt_report. split.
  - symmetry. apply report_faulty_perm. exact P.
  - intros d H. eapply report_delivered_perm; [exact P|exact H].
Qed.
Print Assumptions C16_stmt_report_partial.

Theorem C16_stmt_report_fixed :
  forall e er et, all_ordered e = true -> reorder e er -> reorder e et -> stmt_report2 er et = stmt_report e.
Proof.
  intros e er et Ho Hr Ht. rewrite (reorder_all_ordered e er Ho Hr), (reorder_all_ordered e et Ho Ht). reflexivity.
Qed.
Print Assumptions C16_stmt_report_fixed.

Theorem C16_site_unify_report_refuted :
  exists m m', Permutation m m' /\ NoDup (map fst m) /\ unify_report m <> unify_report m'.
Proof.
  exists [(1%N, false); (2%N, false)], [(2%N, false); (1%N, false)]. split; [apply perm_swap|]. split.
  - constructor; [intros [H|[]]; discriminate H|]. constructor; [intros []|constructor].
  - vm_compute. intros H. discriminate H.
Qed.
Print Assumptions C16_site_unify_report_refuted.

Theorem C16_site_unify_report_partial :
  forall m m', Permutation m m' ->
    snd (unify_report m) = snd (unify_report m') /\
    (forall k, fst (unify_report m') = Some k -> In (k, false) m).
Proof.
  intros m m' Hp. unfold unify_report. split.
  - apply report_faulty_perm. apply Permutation_map. apply filter_perm. exact Hp.
  - intros k H. apply report_delivered_in in H. apply in_map_iff in H. destruct H as [[k' b] [E Hin]].
    cbn [fst] in E. subst k'. apply filter_In in Hin. destruct Hin as [Hin Hb]. cbn [snd] in Hb.
    destruct b; [discriminate Hb|]. apply (Permutation_in _ (Permutation_sym Hp)). exact Hin.
Qed.
Print Assumptions C16_site_unify_report_partial.

Theorem C16_site_unify_report_fixed :
  forall m m', NoDup (map fst m) -> Permutation m m' -> unify_report_fixed m = unify_report_fixed m'.
Proof.
  intros m m' Hnd Hp. unfold unify_report_fixed. f_equal. apply isort_invariant.
  - intros a b H. apply N.ltb_lt in H. apply N.ltb_ge. lia.
  - intros a b c H1 H2. apply N.ltb_ge in H1, H2. apply N.ltb_ge. lia.
  - intros [k1 b1] [k2 b2] Ha Hb H1 H2. cbn [fst] in H1, H2. apply N.ltb_ge in H1, H2.
    assert (k1 = k2) by lia. subst k2. apply (nodup_keys_inj m); assumption.
  - exact Hp.
Qed.
Print Assumptions C16_site_unify_report_fixed.

Theorem C16_site_invariant_scope_frees :
  forall vars vars' h, Permutation vars vars' ->
    run_frees (scope_frees vars) h = run_frees (scope_frees vars') h /\
    Permutation (scope_frees vars) (scope_frees vars').
Proof.
  intros vars vars' h Hp.
  assert (P : Permutation (scope_frees vars) (scope_frees vars')) by (apply Permutation_flat_map; exact Hp).
  split; [apply run_frees_perm; exact P|exact P].
Qed.
Print Assumptions C16_site_invariant_scope_frees.

Theorem C16_site_invariant_return_frees :
  forall scopes scopes' h, Forall2 (@Permutation var) scopes scopes' ->
    run_frees (return_frees scopes) h = run_frees (return_frees scopes') h.
Proof.
  intros scopes scopes' h HF. apply run_frees_perm. unfold return_frees.
  induction HF as [|s s' l l' Hs HF IH]; cbn [flat_map]; [apply Permutation_refl|].
  apply Permutation_app; [apply Permutation_flat_map; exact Hs|exact IH].
Qed.
Print Assumptions C16_site_invariant_return_frees.

Theorem C16_site_invariant_dispose :
  forall mods mods' h, Permutation mods mods' ->
    run_frees (dispose_frees mods) h = run_frees (dispose_frees mods') h.
Proof. intros mods mods' h Hp. apply run_frees_perm. apply Permutation_flat_map. exact Hp. Qed.
Print Assumptions C16_site_invariant_dispose.

Theorem C16_site_invariant_ll_link :
  forall main mods mods', Permutation mods mods' ->
    fst (ll_link main mods) = fst (ll_link main mods') /\
    forall s, memN s (snd (ll_link main mods)) = memN s (snd (ll_link main mods')).
Proof.
  intros main mods mods' Hp. unfold ll_link. cbn [fst snd].
  assert (P : Permutation (main ++ flat_map (fun m => m) mods) (main ++ flat_map (fun m => m) mods')).
  { apply Permutation_app_head. apply Permutation_flat_map. exact Hp. }
  split.
  - destruct (nodupb (main ++ flat_map (fun m => m) mods)) eqn:E1, (nodupb (main ++ flat_map (fun m => m) mods')) eqn:E2; try reflexivity.
    + apply nodupb_spec in E1. apply (Permutation_NoDup P) in E1. apply nodupb_spec in E1. congruence.
    + apply nodupb_spec in E2. apply (Permutation_NoDup (Permutation_sym P)) in E2. apply nodupb_spec in E2. congruence.
  - intros s. apply memN_perm. exact P.
Qed.
Print Assumptions C16_site_invariant_ll_link.

Theorem C16_site_ll_parse_partial :
  forall mods mods', Permutation mods mods' ->
    snd (ll_parse mods) = snd (ll_parse mods') /\
    (length (filter (fun m => negb (snd m)) mods) <= 1 -> ll_parse mods = ll_parse mods').
Proof.
  intros mods mods' Hp. unfold ll_parse.
  assert (P : Permutation (filter (fun m : N * bool => negb (snd m)) mods) (filter (fun m : N * bool => negb (snd m)) mods'))
    by (apply filter_perm; exact Hp).
  split; [apply report_faulty_perm; apply Permutation_map; exact P|].
  intros Hlen. f_equal.
  destruct (filter (fun m : N * bool => negb (snd m)) mods) as [|x [|y t]] eqn:E.
  - apply Permutation_nil in P. rewrite P. reflexivity.
  - apply Permutation_length_1_inv in P. rewrite P. reflexivity.
  - cbn in Hlen. lia.
Qed.
Print Assumptions C16_site_ll_parse_partial.

Theorem C16_site_link_cmdline_refuted :
  exists deps deps', Permutation deps deps' /\
    link_cmdline deps (group_libs deps) (group_libs deps) <> link_cmdline deps' (group_libs deps') (group_libs deps').
Proof.
  exists [Lib 1 1; Lib 1 2], [Lib 1 2; Lib 1 1]. split; [apply perm_swap|]. vm_compute. intros H. discriminate H.
Qed.
Print Assumptions C16_site_link_cmdline_refuted.

(* what does hold: gcc always receives the same multiset of arguments *)
Theorem C16_site_link_cmdline_partial :
  forall deps deps' e1 e2 e1' e2',
    Permutation deps deps' ->
    Permutation e1 (group_libs deps) -> Permutation e2 (group_libs deps) ->
    Permutation e1' (group_libs deps') -> Permutation e2' (group_libs deps') ->
    Permutation (link_cmdline deps e1 e2) (link_cmdline deps' e1' e2').
Proof.
  intros deps deps' e1 e2 e1' e2' Hp H1 H2 H1' H2'. unfold link_cmdline.
  apply Permutation_app; [|apply Permutation_app]; apply Permutation_map.
  - rewrite H1, H1'. destruct (group_libs_dirs deps) as [N1 K1], (group_libs_dirs deps') as [N2 K2].
    apply NoDup_Permutation; [exact N1|exact N2|]. intros x. rewrite K1, K2.
    split; apply Permutation_in; [|symmetry]; apply Permutation_flat_map, Hp.
  - apply Permutation_flat_map, Hp.
  - rewrite H2, H2', !group_libs_files. apply Permutation_flat_map, Hp.
Qed.
Print Assumptions C16_site_link_cmdline_partial.

Theorem C16_prediction_is_all_orders :
  (forall existing l o, In o (predict_import existing l) <-> exists l', Permutation l l' /\ o = import_site no_big existing l') /\
  (forall m o, In o (predict_call m) <-> exists mr mt, Permutation m mr /\ Permutation m mt /\ o = call_stmt mr mt) /\
  (forall m o, In o (predict_unify m) <-> exists m', Permutation m m' /\ o = unify_report m').
Proof. exact (conj predict_import_spec (conj predict_call_spec predict_unify_spec)). Qed.
Print Assumptions C16_prediction_is_all_orders.

Theorem C16_fixed_prediction_is_singleton :
  (forall params m o o', NoDup (map a_name m) ->
     In o (predict_call_fixed params m) -> In o' (predict_call_fixed params m) -> o = o') /\
  (forall existing l o o', length l <= 12 ->
     (forall a b, In a l -> In b l -> d_pos a = d_pos b -> a = b) ->
     In o (predict_import_fixed existing l) -> In o' (predict_import_fixed existing l) -> o = o').
Proof. exact (conj predict_call_fixed_singleton predict_import_fixed_singleton). Qed.
Print Assumptions C16_fixed_prediction_is_singleton.

(* every order-dependent construct found in /repo by the translator (the list is regenerated on every run)
   carries a classification, and the name a "modelled" one gives is among the strings of
   SiteIndex.known_models; nothing in Coq ties such a string to a definition of Det/Sites.v *)
Theorem C16_every_site_classified : forall s, In s sites -> site_ok s = true.
Proof. apply forallb_forall. exact all_sites_classified. Qed.
Print Assumptions C16_every_site_classified.
