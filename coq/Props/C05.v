(* C05 — compiled programs release every heap block exactly once.
   Statements, each followed by Print Assumptions.  The proofs are lemmas of the proof files below, a few lines from
   such lemmas, or evaluation of the checker on the closed terms a statement names.

   Model:   Rt/Heap.v      ledger of ddp_reallocate calls, `balanced` (spec), `balancedb` (extracted checker)
            Lower/Own.v    skeleton -> ownership actions (the code generator's discipline) -> ledger
            Lower/OwnCheck.v  static ownership discipline on the actions (extracted)
            Lower/RtFns.v  runtime / generated list functions as actions
   Proofs:  Rt/HeapProofs.v  the checker decides the spec; counting creations and releases
            Lower/OwnProofs.v  accepted actions keep the run-time invariant on every exit (own_check_sound, program_ok_balanced)
            Lower/CompileOk.v  the code compiled for the fragment is accepted (compile_ok)
            Lower/CompileBounded.v  the enumerated family and its evaluation
   FULL      C05_balancedb_correct, C05_balanced_released_once, C05_actions_balanced_on_every_exit,
             C05_runtime_fns_balanced, C05_concat_callers_balanced, C05_former_witnesses_balanced,
             C05_compile_ok + C05_program_balanced (the decidable fragment fprogram of Lower/CompileOk.v),
             C05_program_balanced_bounded (bound = the enumerated family, a list of 36064 entries),
             C05_derived_reference_needs_owner, C05_element_of_temporary_in_falls
   PARTIAL   C05_program_balanced_partial (all skeleton programs whose compiled actions pass the static
             discipline — decidable, evaluated on every generated program by the check); the unbounded
             cases of cexpr_ok / cstmt_ok outside the fragment (listed in Lower/CompileOk.v) are not proved
   C05_old_concat_functions_refuted: the function bodies /repo had before c2054d3 / 39a39c6 (definitions *_old) are rejected *)
From Coq Require Import List NArith Bool.
Import ListNotations.
From DDP Require Import Rt.Heap Rt.HeapProofs Lower.Own Lower.OwnCheck Lower.OwnProofs Lower.RtFns Lower.CompileBounded Lower.CompileOk.
Local Open Scope nat_scope.

(* the extracted checker decides the property: every release/resize names a live block with its
   true size, nothing is live at the end *)
Theorem C05_balancedb_correct : forall L : ledger, balancedb L = true <-> balanced L.
Proof. exact balancedb_correct. Qed.
Print Assumptions C05_balancedb_correct.

Example C05_balancedb_correct_nonvacuous :
  balanced [Ev 0 0 6 100; Ev 100 6 9 200; Ev 200 9 0 0] /\ ~ balanced [Ev 0 0 6 100; Ev 100 6 0 0; Ev 100 6 0 0] /\
  ~ balanced [Ev 0 0 6 100] /\ ~ balanced [Ev 0 0 6 100; Ev 100 5 0 0].
Proof.
  repeat split.
  - apply balancedb_correct. vm_compute. reflexivity.
  - intro H. apply balancedb_correct in H. vm_compute in H. discriminate H.
  - intro H. apply balancedb_correct in H. vm_compute in H. discriminate H.
  - intro H. apply balancedb_correct in H. vm_compute in H. discriminate H.
Qed.

(* "exactly once": in a balanced ledger every block is obtained exactly as often as it is released *)
Theorem C05_balanced_released_once :
  forall L : ledger, balanced L -> forall p, p <> 0%N -> count (creates p) L = count (consumes p) L.
Proof.
  intros L [h [S Hall]] p Hp.
  assert (Hpos : forall q n, hempty q = Some n -> n <> 0%N) by (intros q n H; discriminate H).
  pose proof (steps_counts L hempty h p Hp Hpos S) as C. unfold live01 in C. rewrite Hall in C. exact C.
Qed.
Print Assumptions C05_balanced_released_once.

(* Any sequence of ownership actions accepted by the static discipline keeps "exactly the owning slots
   hold disjoint live resources and the ledger is replayable" on EVERY exit: fallthrough reaches the
   computed state; a break / continue arrives, after the frees emitted for it, at the loop's exit /
   head state; a return arrives at the state the inlined call expects.  For every oracle and fuel. *)
Theorem C05_actions_balanced_on_every_exit :
  forall (i : instr) (K : ctx) (G : ost) (R : option ost) (fuel : nat) (st : rstate) (o : outcome) (st' : rstate),
    own_check K i G = Some R -> Inv G st -> run fuel i st = (o, st') ->
    match o with
    | ONormal => exists G', R = Some G' /\ Inv G' st'
    | OBreak => exists code Gt Gk Gk', k_brk K = Some (code, Gt) /\ Inv Gk st' /\ check_simple code Gk = Some Gk' /\ sub Gk' Gt = true
    | OContinue => exists code Gt Gk Gk', k_cont K = Some (code, Gt) /\ Inv Gk st' /\ check_simple code Gk = Some Gk' /\ sub Gk' Gt = true
    | ORet => exists Rr Gr, k_ret K = Some Rr /\ Inv Gr st' /\ sub Gr Rr = true
    | OFuel => True
    end.
Proof. exact own_check_sound. Qed.
Print Assumptions C05_actions_balanced_on_every_exit.

Example C05_actions_nonvacuous :
  (* a loop with a concatenation, an inlined call, break and continue from inner scopes is accepted *)
  program_ok (mkProg [mkFun [(10, MVal, true)] true (SReturn (Some (EVar 10)))]
                     (SSeq (SDecl 0 (EConcat (ELit 6%N) (ELit 2%N)))
                           (SWhile EPrim (SBlock (SSeq (SDecl 1 (EConcat (EVar 0) (ECall 0 (AVal (ELit 3%N) ANil))))
                                                       (SIf EPrim (SBlock SBreak) (SBlock SContinue))))))) = true.
Proof. vm_compute. reflexivity. Qed.

(* PARTIAL: every skeleton program whose compiled actions pass the static discipline yields a
   balanced ledger whenever it terminates normally — for every oracle (control-flow path) and fuel *)
Theorem C05_program_balanced_partial :
  forall (P : program) (fuel : nat) (oracle : list bool) (L : ledger),
    program_ok P = true -> run_program fuel oracle P = Some L -> balanced L.
Proof. exact program_ok_balanced. Qed.
Print Assumptions C05_program_balanced_partial.

(* FULL for the fragment `fprogram` (decidable): expressions literal / variable / element read / unused temporaries
   (Länge, gleich) / slice / element of a temporary or a variable / Text concatenation with temporary or variable left operand / short-circuit `und`, `oder`;
   statements declaration, assignment to a variable and to an element/field (copy before free), expression statement
   (discarded result), block, `Wenn` with both arms, `Solange` and `Mache ... Solange` loops (condition temporaries in
   their own scope) with `Verlasse die Schleife` / `Fahre mit der Schleife fort` from inner scopes.  Every program of the
   fragment that the model compiles passes the static discipline, so every normally terminating run — any oracle, any
   fuel — has a balanced ledger.  (`falls`, list/struct literals, calls and return, `Wiederhole`, counting and for-each
   loops are NOT in this fragment: see C05_program_balanced_bounded / _partial and the list in Lower/CompileOk.v.) *)
Theorem C05_compile_ok :
  forall P, fprogram P = true -> compile P <> None -> program_ok P = true.
Proof. exact compile_ok. Qed.
Print Assumptions C05_compile_ok.

Theorem C05_program_balanced :
  forall P fuel oracle L, fprogram P = true -> run_program fuel oracle P = Some L -> balanced L.
Proof. exact program_balanced_fragment. Qed.
Print Assumptions C05_program_balanced.

Example C05_program_balanced_nonvacuous :
  let P := mkProg [] (SSeq (SDecl 0 (EConcat (ELit 6%N) (ELit 3%N)))
                     (SSeq (SWhile (EUse1 (EConcat (EVar 0) (ELit 2%N)))
                              (SBlock (SSeq (SDecl 1 (EConcat (EVar 0) (EVar 0)))
                                      (SSeq (SIf (EAnd (EUse1 (EVar 1)) (EUse2 (EVar 0) (EDerive (EVar 1) 2%N)))
                                                 (SBlock (SSeq (SAssign 0 (EVar 1)) SContinue))
                                                 (SBlock (SIf EPrim (SBlock SBreak) (SBlock SSkip))))
                                            (SAssign 0 (EVar 0))))))
                           (SSeq (SExpr (EPart 0 1)) (SDecl 2 (EConcat (EElem (EDerive (EVar 0) 4%N) 1) (EElem (EVar 0) 1)))))) in
  fprogram P = true /\ exists L, run_program 9 [true; true; true; true; true; false; true] P = Some L /\ L <> [] /\ balanced L.
Proof.
  cbn zeta. split; [reflexivity|]. eexists. split; [vm_compute; reflexivity|]. split; [discriminate|].
  apply balancedb_correct. vm_compute. reflexivity.
Qed.

(* FULL for the explicitly enumerated family of Lower/CompileBounded.v (its header says what is enumerated): the code
   Own.compile emits for each of its programs passes the discipline, so every normally terminating run, for every oracle
   (control-flow path) and fuel, has a balanced ledger *)
Theorem C05_program_balanced_bounded :
  forall P, In P family ->
    program_ok P = true /\ forall fuel oracle L, run_program fuel oracle P = Some L -> balanced L.
Proof. exact (fun P H => conj (family_ok P H) (family_balanced P H)). Qed.
Print Assumptions C05_program_balanced_bounded.

Example C05_family_size : N.of_nat (length family) = 36064%N.
Proof. exact family_size. Qed.

(* the cases /repo repaired in 6711de1 2f9971e bf84b8a 597753d (self-assignment; Solange condition, `bis` bound and loop
   header with temporaries; continue; return out of such a loop) are accepted, hence balanced on every path *)
Theorem C05_former_witnesses_balanced :
  forall P, In P [wit_self_assign; wit_while_cond; wit_for_bound; wit_continue_header; wit_continue_foreach; wit_return_in_while] ->
  forall fuel oracle L, run_program fuel oracle P = Some L -> balanced L.
Proof.
  intros P HP fuel oracle L. apply program_ok_balanced.
  repeat (destruct HP as [<-|HP]; [vm_compute; reflexivity|]). destruct HP.
Qed.
Print Assumptions C05_former_witnesses_balanced.

(* the discipline has no action that reads a place whose owner is not owned: a read in place (IUse: Länge,
   gleich, the source of a slice) and every deep copy out of a place (declaration/assignment/argument copy, list-literal
   component, right operand of a concatenation, element assignment) is rejected once the owner slot was released or
   claimed away.  A reference derived from a temporary must therefore
   be copied before the scope of that temporary ends. *)
Theorem C05_derived_reference_needs_owner :
  forall K G p, mem (root p) (o_own G) = false ->
  own_check K (IUse p) G = None /\
  (forall d, own_check K (ICopy d p) G = None) /\
  (forall d, own_check K (IAbsorbCopy d p) G = None) /\
  (forall d a, own_check K (IConcat d a p) G = None) /\
  (forall s k, own_check K (IAssignPartCopy s k p) G = None).
Proof.
  intros K G p H. repeat split; intros; cbn [own_check]; rewrite H; rewrite ?andb_false_r; reflexivity.
Qed.
Print Assumptions C05_derived_reference_needs_owner.

(* `(f an der Stelle 2), falls c, ansonsten v`, `v, falls c, ansonsten (<list literal> an der Stelle 1)` and a Solange
   condition comparing `(f an der Stelle 1)` (f returns a list: the indexed list is a temporary): BIN_INDEX copies the
   element inside the arm / the condition scope while the list is owned, the program is accepted and balanced on every
   path; the emission that hands a plain reference into the temporary list out of the arm (copy, or a mere comparison,
   after the arm's scope released the list) is rejected by the discipline *)
Theorem C05_element_of_temporary_in_falls :
  (forall fuel oracle L, run_program fuel oracle wit_elem_of_temp = Some L -> balanced L) /\
  own_check ctx0 arm_copy_then_release (mkO [] []) = Some (Some (mkO [] [])) /\
  own_check ctx0 arm_release_then_copy (mkO [] []) = None /\
  own_check ctx0 arm_release_then_read (mkO [] []) = None.
Proof.
  split; [intros fuel oracle L; apply program_ok_balanced|repeat split]; vm_compute; reflexivity.
Qed.
Print Assumptions C05_element_of_temporary_in_falls.

(* each function transfers ownership as documented, for all argument values (state of /repo after c2054d3, 39a39c6) *)
Theorem C05_runtime_fns_balanced :
  triple (own [1]) fn_free (own []) /\
  triple (own [1]) fn_deep_copy (own [0; 1]) /\
  triple (own [1; 2]) fn_string_string_concat (mkO [0; 2] [1]) /\
  (forall n, triple (own [1]) (fn_string_char_concat n) (mkO [0] [1])) /\
  (forall n, triple (own [1; 2]) (fn_list_list_concat n) (mkO [0; 2] [1])) /\
  (forall n, triple (own [1; 2]) (fn_list_scalar_concat n) (mkO [0; 2] [1])) /\
  (forall n, triple (own [1; 2]) (fn_scalar_list_concat n) (mkO [0; 1] [2])) /\
  (forall n, triple (own []) (fn_scalar_scalar_concat_prim n) (own [0])) /\
  (forall n, triple (own [1; 2]) (fn_scalar_scalar_concat n) (own [0; 1; 2])) /\
  triple (own [1; 2]) fn_string_string_concat_nul_left (own [0; 1; 2]).
Proof. repeat split; try intro n; apply triple_by_check; reflexivity. Qed.
Print Assumptions C05_runtime_fns_balanced.

(* a caller that frees the result and both operands of a concatenation ends with a balanced ledger (scalar (+) scalar of
   non-primitive elements; Text whose claimed operand is empty for the runtime but owns a buffer) *)
Theorem C05_concat_callers_balanced :
  balanced (ledger_of (caller_of (fn_scalar_scalar_concat 128%N) 5%N 5%N)) /\
  balanced (ledger_of (caller_of fn_string_string_concat_nul_left 2%N 4%N)) /\
  balanced (ledger_of (caller_of fn_string_string_concat 2%N 4%N)) /\
  own_check ctx0 (caller_of (fn_scalar_scalar_concat 128%N) 5%N 5%N) (own []) = Some (Some (own [])) /\
  own_check ctx0 (caller_of fn_string_string_concat_nul_left 2%N 4%N) (own []) = Some (Some (own [])).
Proof. repeat split; try (apply balancedb_correct; vm_compute; reflexivity); reflexivity. Qed.
Print Assumptions C05_concat_callers_balanced.

(* the function bodies /repo generated before c2054d3 / 39a39c6 (definitions *_old) are rejected by the discipline and
   leave the same caller unbalanced *)
Theorem C05_old_concat_functions_refuted :
  own_check ctx0 (fn_scalar_scalar_concat_old 128%N) (own [1; 2]) = None /\
  ~ balanced (ledger_of (caller_of (fn_scalar_scalar_concat_old 128%N) 5%N 5%N)) /\
  own_check ctx0 (caller_of fn_string_string_concat_nul_left_old 2%N 4%N) (own []) = None /\
  ~ balanced (ledger_of (caller_of fn_string_string_concat_nul_left_old 2%N 4%N)).
Proof.
  split; [reflexivity|]. split; [|split; [reflexivity|]]; intro H; apply balancedb_correct in H; vm_compute in H; discriminate H.
Qed.
Print Assumptions C05_old_concat_functions_refuted.
