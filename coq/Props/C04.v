(* C04 — statically ill-formed programs are never accepted.
   The statements, each followed by Print Assumptions; the proofs are in coq/Lang/Mini*Proofs.v, but for a few
   corollaries and evaluated facts that are proved here.

   wf             the declarative static semantics of the core (Lang/MiniTyping.v): the specification
   check          parser + resolver + typechecker of /repo as a function from programs to diagnostics
                  (Lang/MiniCheck.v, setting `current`)
   check_pinned   the same with the switches of the pinned tree on.  Four of them are defects that accepted ill-formed
                  programs: gleich / ungleich on operands without a type; return of an expression without a type; the
                  typechecker resolving names again by name, with loop bounds resolved in the loop body; private
                  fields of a Kombination that is not itself imported (repaired in /repo by ec4b99d, 328cc02, 4309fac,
                  581329c).  A fifth defect, a list built from elements without a type (d293d7b), has no switch:
                  the model has the repaired behaviour only.
   check_patched  all switches off, also q_field_name_lookup, which is on in `current`: assigneable() looks the field
                  name of a field assignment up as a variable and so rejects a well-formed program
                  (C04_check_complete_refuted); a false rejection, which is not a C04 matter
                  (models/c04_fix_6_*.patch).
   inject         the fault injector the harness runs (Lang/MiniMutate.v)
   The witnesses of the defects are facts about check_pinned; checks/c04.py replays them on the real frontend. *)
From Coq Require Import List Arith.
Import ListNotations.
From DDP Require Import Lang.MiniSyntax Lang.MiniTyping Lang.MiniTypingProofs Lang.MiniCheck Lang.MiniGuard Lang.MiniCheckProofs
                        Lang.MiniShadowFree Lang.MiniCompleteProofs Lang.MiniMutate Lang.MiniMutateProofs.

(* wfb is the oracle of the harness *)
Theorem C04_wfb_decides_wf : forall p, wfb p = true <-> wf p.
Proof. exact wfb_iff. Qed.
Print Assumptions C04_wfb_decides_wf.

Theorem C04_check_sound : forall p, check p = [] -> wf p.
Proof. exact check_sound. Qed.
Print Assumptions C04_check_sound.

Theorem C04_illformed_rejected : forall p, ~ wf p -> check p <> [].
Proof. exact (fun p H E => H (check_sound p E)). Qed.
Print Assumptions C04_illformed_rejected.

(* the other direction: with all switches off (also the field-name lookup of assigneable()) the frontend accepts
   exactly the well-formed core programs ... *)
Theorem C04_check_patched_complete : forall p, wf p -> check_patched p = [].
Proof. intros p; apply check_with_complete_full; reflexivity. Qed.
Print Assumptions C04_check_patched_complete.

Theorem C04_check_patched_iff_wf : forall p, check_patched p = [] <-> wf p.
Proof. intros p; split; [apply check_patched_sound | apply C04_check_patched_complete]. Qed.
Print Assumptions C04_check_patched_iff_wf.

(* ... while the frontend as it is rejects a well-formed program (Konstante called like a field that is assigned) *)
Theorem C04_check_complete_refuted : exists p, wf p /\ check p <> [] /\ check_patched p = [].
Proof. exact check_complete_refuted. Qed.
Print Assumptions C04_check_complete_refuted.

(* For every setting Q of the switches: sound on the programs on which the switched-on quirks do not
   matter (`guard Q`, a syntactic predicate that is `true` everywhere for `current` and `patched`); complete on
   shadow-free programs, and complete everywhere once the typechecker uses the resolver's bindings and fields are
   protected by type (both provided the field name of a field assignment is not looked up as a variable).
   The check identifies on every run which setting the frontend in /repo is. *)
Theorem C04_check_with_sound : forall Q p, check_with Q p = [] -> guard Q p = true -> wf p.
Proof. exact check_with_sound. Qed.
Print Assumptions C04_check_with_sound.

Theorem C04_check_with_complete : forall Q p, q_field_name_lookup Q = false -> wf p -> shadow_free p = true -> check_with Q p = [].
Proof. exact check_with_complete. Qed.
Print Assumptions C04_check_with_complete.

Theorem C04_check_with_complete_full : forall Q p, q_tc_by_name Q = false -> q_field_unimported Q = false ->
  q_field_name_lookup Q = false -> wf p -> check_with Q p = [].
Proof. exact check_with_complete_full. Qed.
Print Assumptions C04_check_with_complete_full.

(* every mutant of every fault class is ill-formed: the negative corpus of the harness really is negative *)
Theorem C04_inject_breaks_wf : forall fc s p, wf p -> site_ok fc s p -> ~ wf (inject fc s p).
Proof. exact inject_breaks_wf. Qed.
Print Assumptions C04_inject_breaks_wf.

Theorem C04_mutants_illformed : forall fc p p', In p' (mutants fc p) -> ~ wf p'.
Proof. exact mutants_illformed. Qed.
Print Assumptions C04_mutants_illformed.

Theorem C04_injected_fault_rejected : forall fc s p, wf p -> site_ok fc s p -> check (inject fc s p) <> [].
Proof. exact (fun fc s p Hwf Hs E => inject_breaks_wf fc s p Hwf Hs (check_sound _ E)). Qed.
Print Assumptions C04_injected_fault_rejected.

(* the pinned tree accepted ill-formed programs: five witnesses, each ill-formed, accepted by check_pinned,
   rejected by check *)
Theorem C04_pinned_witnesses :
  Forall (fun p => check_pinned p = [] /\ wfb p = false /\ check p <> [])
         [w_void_eq; w_void_ret; w_init_self; w_priv_field; w_for_scope].
Proof. exact witnesses_accepted_illformed. Qed.
Print Assumptions C04_pinned_witnesses.

(* each of the four switches alone makes the frontend accept an ill-formed program (the loop-bound witness needs two) *)
Theorem C04_each_quirk_unsound :
  check_with (only 0) w_void_eq = [] /\ check_with (only 1) w_void_ret = [] /\
  check_with (only 2) w_init_self = [] /\ check_with (only 3) w_priv_field = [] /\
  check_with void_eq_and_by_name w_for_scope = [] /\
  Forall (fun p => check_patched p <> []) [w_void_eq; w_void_ret; w_init_self; w_priv_field; w_for_scope].
Proof. exact each_quirk_unsound. Qed.
Print Assumptions C04_each_quirk_unsound.

(* it was sound only where the defects do not matter, and rejected a well-formed program (late shadowing) that
   check accepts *)
Theorem C04_pinned_sound_partial : forall p, check_pinned p = [] -> quirk_free p = true -> wf p.
Proof. intros p H Hq; apply (check_with_sound pinned); auto. Qed.
Print Assumptions C04_pinned_sound_partial.

Theorem C04_pinned_complete_refuted : exists p, wf p /\ check_pinned p <> [] /\ check p = [].
Proof. exact check_pinned_complete_refuted. Qed.
Print Assumptions C04_pinned_complete_refuted.

Example C04_ex_hypotheses :
  wf ex_ok /\ check ex_ok = [] /\ check_pinned ex_ok = [] /\ quirk_free ex_ok = true /\ shadow_free ex_ok = true.
Proof. destruct ex_ok_facts as (H1 & H2 & H3 & H4 & H5). apply wfb_iff in H1. auto. Qed.

(* a well-formed program outside the shadow-free class (accepted by check, rejected by check_pinned) *)
Example C04_ex_shadowing : wf w_late_shadow /\ shadow_free w_late_shadow = false /\ check w_late_shadow = [].
Proof. split; [apply wfb_iff |]; repeat split; vm_compute; reflexivity. Qed.

Example C04_ex_sites : forallb (fun fc => Nat.ltb 0 (length (mutants fc ex_ok))) all_faults = true.
Proof. vm_compute. reflexivity. Qed.

Example C04_ex_inject : site_ok FBreakOutside 0 ex_ok /\ wfb (inject FBreakOutside 0 ex_ok) = false /\
                        check (inject FBreakOutside 0 ex_ok) = [DBreak].
Proof.
  split; [unfold site_ok; apply Nat.ltb_lt; vm_compute; reflexivity |].
  split; vm_compute; reflexivity.
Qed.

Example C04_ex_illformed_rejected : ~ wf (inject FUndeclared 0 ex_ok) /\ check (inject FUndeclared 0 ex_ok) <> [].
Proof.
  split.
  - intros H; apply wfb_iff in H; vm_compute in H; discriminate H.
  - vm_compute; discriminate.
Qed.
