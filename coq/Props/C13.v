(* C13 — the token stream is a faithful, positioned partition of the source.
   Model: Lex/ScanModel.v (scanner.go on code points), Lex/Utf8.v (gate, decoding, encoding), Lex/ScanRun.v.
   Specification vocabulary (Lex/ScanSpec.v): pos_of (positions by counting), sub, blank, tiles (partition),
   positioned, class_ok (lexical rules), first_token (a rule instance, maximal), indents (indentation rule);
   outside ScanSpec: special_types (ScanProofs), gapd (ScanIndent), capitalise / capitalised_type (ScanFacts).
   Statements, each followed by Print Assumptions; the proofs are in Lex/Scan*.v and Lex/Utf8Proofs.v, short ones here.
   Every theorem holds for both modes (Scan and ScanAlias); a line feed inside an alias parameter counts as a
   line break like any other (aliasParameter calls increaseLineBeforeAdvance). *)
From Coq Require Import List NArith Bool.
Import ListNotations.
From DDP Require Import Gen.Tokens Lex.Utf8 Lex.Utf8Proofs Lex.ScanModel Lex.ScanSpec Lex.ScanRun
  Lex.ScanProofs Lex.ScanIndent Lex.ScanComplete Lex.ScanFacts.
Open Scope N_scope.

(* never out of fuel: every NextToken consumes at least one code point or returns EOF, so
      length+1 rounds of ScanAll (and of every inner loop) suffice — for every source, valid or not *)
Theorem C13_fuel :
  forall (m : mode) (l0 c0 i0 : N) (src : list N), scan_from m l0 c0 i0 src <> None.
Proof. exact scan_fuel. Qed.
Print Assumptions C13_fuel.

Theorem C13_one_eof :
  forall m l0 c0 i0 src ts, scan_from m l0 c0 i0 src = Some ts ->
    exists body e, ts = body ++ [e] /\ ty e = tt_EOF /\ Forall (fun t => ty t <> tt_EOF) body.
Proof. exact scan_one_eof. Qed.
Print Assumptions C13_one_eof.

(* partition: the spans are ordered, disjoint, non-empty (but EOF), separated by blanks only, they
      reach the end of the source, and the literal of every non-ILLEGAL token is the source substring *)
Theorem C13_partition :
  forall m l0 c0 i0 src ts, scan_from m l0 c0 i0 src = Some ts -> tiles src 0 ts.
Proof. exact scan_partition. Qed.
Print Assumptions C13_partition.

(* positions: Range.Start / Range.End are the line/column of the span's first code point / of the
      code point behind it, counted independently (pos_of; 1-based when scanning starts at 1:1) *)
Theorem C13_positions :
  forall m l0 c0 i0 src ts, scan_from m l0 c0 i0 src = Some ts -> Forall (positioned l0 c0 src) ts.
Proof. exact scan_positions. Qed.
Print Assumptions C13_positions.

(*    in particular scanner.Scan (normal mode, base 1:1): 1-based lines and columns *)
Theorem C13_positions_normal :
  forall src ts, scan Normal src = Some ts -> Forall (positioned 1 1 src) ts.
Proof. exact (fun src ts H => scan_positions Normal 1 1 0 src ts H). Qed.
Print Assumptions C13_positions_normal.

(* the UTF-8 gate accepts exactly the encodings of code-point lists; it is the only way to be
      refused; behind it the model scans the decoded source, and decoding inverts encoding *)
Theorem C13_utf8_gate :
  forall bs : list N, valid bs = true <-> exists cps, encode cps = bs.
Proof. exact utf8_gate. Qed.
Print Assumptions C13_utf8_gate.

Theorem C13_utf8_roundtrip :
  (forall bs, valid bs = true -> encode (decode bs) = bs) /\
  (forall cps, forallb scalar cps = true -> decode (encode cps) = cps).
Proof. exact (conj valid_encode_decode decode_encode). Qed.
Print Assumptions C13_utf8_roundtrip.

Theorem C13_invalid_refused :
  forall m l0 c0 i0 bs,
    (valid bs = false -> scan_bytes m l0 c0 i0 bs = Refused) /\
    (valid bs = true -> exists ts, scan_bytes m l0 c0 i0 bs = Toks ts /\ scan_from m l0 c0 i0 (decode bs) = Some ts).
Proof.
  intros m l0 c0 i0 bs. unfold scan_bytes. split; intros ->; [reflexivity|].
  destruct (scan_from m l0 c0 i0 (decode bs)) as [ts|] eqn:E; [eauto|]. destruct (scan_fuel _ _ _ _ _ E).
Qed.
Print Assumptions C13_invalid_refused.

(* kinds: every token is an instance of a lexical rule (class_ok), read per type below *)
Theorem C13_kinds :
  forall m l0 c0 i0 src ts, scan_from m l0 c0 i0 src = Some ts ->
    Forall (fun t => class_ok m (tend t = len src) (ty t) (sub src (tstart t) (tend t))) ts.
Proof. exact scan_kinds. Qed.
Print Assumptions C13_kinds.

Theorem C13_kind_readings :
  forall m (P : Prop) l,
    (class_ok m P tt_INT l -> digits l) /\
    (class_ok m P tt_FLOAT l -> exists a b, l = a ++ 44 :: b /\ digits a /\ digits b) /\
    (class_ok m P tt_IDENTIFIER l -> word l /\ keyword_type l = None) /\
    (class_ok m P tt_STRING l -> quoted_lit 34 l) /\
    (class_ok m P tt_CHAR l -> quoted_lit 39 l) /\
    (class_ok m P tt_COMMENT l -> exists b d, l = 91 :: b /\ depth_after 1 b = Some d /\ (d = 0 \/ P)) /\
    (forall t, ~ In t special_types -> class_ok m P t l -> word l /\ keyword_type l = Some t) /\
    (forall t, word l -> class_ok m P t l ->
       match keyword_type l with Some v => t = v | None => t = tt_IDENTIFIER end).
Proof.
  intros m P l. destruct (class_readings m P l) as (H1 & H2 & H3 & H4 & H5 & H6). repeat (split; [assumption|]).
  split; [intros t; apply class_keyword|intros t; apply class_word].
Qed.
Print Assumptions C13_kind_readings.

Theorem C13_normal_mode_has_no_alias_parameter :
  forall l0 c0 i0 src ts, scan_from Normal l0 c0 i0 src = Some ts -> forall t, In t ts -> ty t <> tt_ALIAS_PARAMETER.
Proof.
  intros l0 c0 i0 src ts H t I E. pose proof (scan_kinds _ _ _ _ _ _ H) as K. rewrite Forall_forall in K. specialize (K t I).
  unfold kind_ok in K. rewrite E in K. inversion K; subst; try discriminate; no_kw.
Qed.
Print Assumptions C13_normal_mode_has_no_alias_parameter.

(*    words and numbers are maximal: behind an identifier/keyword there is no alphanumeric code point,
      behind a number no digit *)
Theorem C13_maximal_munch :
  forall m l0 c0 i0 src ts, scan_from m l0 c0 i0 src = Some ts ->
    Forall (fun t => forall c r d,
              sub src (tstart t) (tend t) = c :: r -> nth_error src (N.to_nat (tend t)) = Some d ->
              (isAlpha c = true -> isAlphaNumeric d = false) /\ (isDigit c = true -> isDigit d = false)) ts.
Proof. exact scan_munch. Qed.
Print Assumptions C13_maximal_munch.

(*    every spelling of the regenerated keyword table (incl. the listed ASCII transliterations) scans to its
      keyword; so does its capitalised form unless that is a table entry of its own (mal / Mal) — a finite
      statement about the table, proved by computation over the whole table *)
Theorem C13_keywords_scan :
  forall k v, In (k, v) keyword_table ->
    (exists a e, scan Normal k = Some [a; e] /\ ty a = v /\ lit a = k /\ ty e = tt_EOF) /\
    (exists a e, scan Normal (capitalise k) = Some [a; e] /\ ty a = capitalised_type k v /\ lit a = capitalise k /\ ty e = tt_EOF).
Proof. exact keywords_scan. Qed.
Print Assumptions C13_keywords_scan.

(*    kind COMPLETENESS. first_token m rest k l (ScanSpec) = "l is a prefix of rest, (k, l) is an instance of a
      lexical rule (class_ok) and l is maximal". For every token of the stream, the (type, literal) pairs the rules
      allow at its start are exactly the scanned one: with C13_kinds this is the iff between scanner and rules. *)
Theorem C13_kind_complete :
  forall m l0 c0 i0 src ts, scan_from m l0 c0 i0 src = Some ts ->
    Forall (fun t => forall k l, first_token m (skipn (N.to_nat (tstart t)) src) k l <->
                                (k = ty t /\ l = sub src (tstart t) (tend t))) ts.
Proof. exact scan_kind_complete. Qed.
Print Assumptions C13_kind_complete.

(*    the rules read forwards, shape of the source suffix => first_token (hence, by C13_kind_complete, the scanned token):
      (a) numbers  (b) words: keyword by spelling or lower-casing (Ä/Ö/Ü included), else IDENTIFIER
      (c) text / character literals with the escape rule, comments, unterminated forms to the end of the source
      (d) alias parameters in alias mode  (e) punctuation and SYMBOL *)
Theorem C13_kind_complete_rules :
  forall m tail,
    (forall a b, digits a -> digits b -> hd_sat tail isDigit = false ->
       first_token m (a ++ 44 :: b ++ tail) tt_FLOAT (a ++ 44 :: b)) /\
    (forall l, digits l -> hd_sat tail isDigit = false -> (forall d t', tail = 44 :: d :: t' -> isDigit d = false) ->
       first_token m (l ++ tail) tt_INT l) /\
    (forall l, word l -> hd_sat tail isAlphaNumeric = false ->
       first_token m (l ++ tail) (match keyword_type l with Some v => v | None => tt_IDENTIFIER end) l) /\
    (forall b, qbody 34 b -> first_token m (34 :: b ++ 34 :: tail) tt_STRING (34 :: b ++ [34])) /\
    (forall b, qbody 39 b -> first_token m (39 :: b ++ 39 :: tail) tt_CHAR (39 :: b ++ [39])) /\
    (forall q b, q = 34 \/ q = 39 -> qopen q b -> first_token m (q :: b) tt_ILLEGAL (q :: b)) /\
    (forall b, depth_after 1 b = Some 0 -> first_token m (91 :: b ++ tail) tt_COMMENT (91 :: b)) /\
    (forall b d, depth_after 1 b = Some d -> first_token m (91 :: b) tt_COMMENT (91 :: b)) /\
    (forall b, ~ In 62 b -> first_token Alias (60 :: b ++ 62 :: tail) tt_ALIAS_PARAMETER (60 :: b ++ [62])) /\
    (forall b, ~ In 62 b -> first_token Alias (60 :: b) tt_ALIAS_PARAMETER (60 :: b)) /\
    (first_token m (45 :: tail) tt_NEGATE [45] /\ first_token m (44 :: tail) tt_COMMA [44] /\
     first_token m (58 :: tail) tt_COLON [58] /\ first_token m (40 :: tail) tt_LPAREN [40] /\
     first_token m (41 :: tail) tt_RPAREN [41] /\ first_token m (46 :: 46 :: 46 :: tail) tt_ELIPSIS [46; 46; 46] /\
     ((forall t', tail <> 46 :: 46 :: t') -> first_token m (46 :: tail) tt_DOT [46])) /\
    (forall c, isAlpha c = false -> isDigit c = false -> ~ blank c ->
       ~ In c [45; 46; 44; 58; 40; 41; 34; 39; 91] -> (c = 60 -> m = Normal) -> first_token m (c :: tail) tt_SYMBOL [c]).
Proof.
  exact (fun m tail =>
    conj (fun a b => ft_float m a b tail) (conj (fun l => ft_int m l tail) (conj (fun l => ft_word m l tail)
    (conj (fun b => ft_quoted m 34 tt_STRING b tail (or_introl (conj eq_refl eq_refl)))
    (conj (fun b => ft_quoted m 39 tt_CHAR b tail (or_intror (conj eq_refl eq_refl)))
    (conj (ft_illegal m) (conj (fun b => ft_comment m b tail) (conj (ft_comment_open m)
    (conj (fun b => ft_apar b tail) (conj ft_apar_open (conj (ft_punct m tail) (fun c => ft_symbol m c tail)))))))))))).
Qed.
Print Assumptions C13_kind_complete_rules.

(* indentation rule *)
Theorem C13_indent :
  forall m l0 c0 i0 src ts, scan_from m l0 c0 i0 src = Some ts -> indents src true 0 i0 ts.
Proof. exact scan_indents. Qed.
Print Assumptions C13_indent.

(* the depth computed by skipWhitespace over a gap is the declarative rule *)
Theorem C13_gap_depth_rule :
  forall ws sh d run, Forall blank ws ->
    gapd sh d run ws = if has_lf ws then indent_run 0 (after_last_lf ws)
                       else if sh then d + indent_run run ws else d.
Proof. exact gapd_spec. Qed.
Print Assumptions C13_gap_depth_rule.

(* non-vacuity: a source with keywords, identifier, decimal-comma number, text with escape, nested comment
   and an indented second line; an alias with a base position; a line feed inside an alias parameter; gate samples *)
Example C13_sample_tokens :
  option_map (map (fun t => (length (lit t), tindent t, (sl t, sc t), (el t, ec t)))) (scan Normal sample) =
  Some [(4%nat, 0, (1,1), (1,5)); (1%nat, 0, (1,6), (1,7)); (6%nat, 0, (1,8), (1,14)); (3%nat, 0, (1,15), (1,18));
        (3%nat, 0, (1,19), (1,22)); (3%nat, 0, (1,23), (1,26)); (1%nat, 0, (1,26), (1,27));
        (8%nat, 1, (2,2), (2,10)); (5%nat, 1, (2,11), (2,16)); (7%nat, 1, (2,17), (2,24)); (1%nat, 1, (2,24), (2,25));
        (0%nat, 1, (2,25), (2,25))].
Proof. exact sample_tokens. Qed.
Example C13_sample_alias :
  exists ts, scan_from Alias 3 7 2 sample_alias = Some ts /\
    exists t, In t ts /\ ty t = tt_ALIAS_PARAMETER /\ (sl t, sc t) = (3, 11) /\ tindent t = 2.
Proof. exact sample_alias_ok. Qed.
(* tab, `<`, LF, `>`, x in alias mode: the parameter ends at 2:2, x sits at 2:2-2:3, depth 0 from the parameter on *)
Example C13_sample_lf_in_alias_parameter :
  option_map (map (fun t => (length (lit t), tindent t, (sl t, sc t), (el t, ec t)))) (scan_from Alias 1 1 0 lf_alias) =
  Some [(3%nat, 0, (1,2), (2,2)); (1%nat, 0, (2,2), (2,3)); (0%nat, 0, (2,3), (2,3))].
Proof. exact lf_alias_tokens. Qed.
(* capitalised umlaut keywords: Überlädt / Öffentliche are looked up as überlädt / öffentliche *)
Example C13_sample_umlaut_keywords :
  keyword_type [220;98;101;114;108;228;100;116] = lookup keyword_table [252;98;101;114;108;228;100;116] /\
  lookup keyword_table [252;98;101;114;108;228;100;116] <> None /\
  keyword_type [214;102;102;101;110;116;108;105;99;104;101] = lookup keyword_table [246;102;102;101;110;116;108;105;99;104;101] /\
  lookup keyword_table [246;102;102;101;110;116;108;105;99;104;101] <> None.
Proof. exact umlaut_keywords. Qed.
Example C13_sample_first_token :
  first_token Normal ([49] ++ 44 :: [53] ++ [32; 120]) tt_FLOAT ([49] ++ 44 :: [53]).
Proof. exact first_token_sample. Qed.
Example C13_sample_utf8 :
  valid [195; 164; 226; 130; 172; 240; 159; 152; 128] = true /\ valid [237; 160; 128] = false /\ valid [192; 128] = false.
Proof. exact sample_utf8. Qed.
