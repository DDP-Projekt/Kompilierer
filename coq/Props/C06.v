(* C06 — out-of-domain operations stop with a Laufzeitfehler, never silently. *)
From Coq Require Import List ZArith Bool Lia ZifyBool.
Import ListNotations.
From DDP Require Import Rt.Bounds Rt.BoundsProofs.
Open Scope Z_scope.

(* the emitted list bounds check accepts exactly 1..len for EVERY 64-bit index value (0, negatives,
   INT64_MIN where index-1 wraps) and every representable length *)
Theorem C06_list_index_check_domain :
  forall len i, 0 <= len < two63 -> in_i64 i -> (idx_ok len i = true <-> 1 <= i <= len).
Proof. intros len i Hlen Hi. rewrite idx_ok_spec by assumption. lia. Qed.
Print Assumptions C06_list_index_check_domain.

Theorem C06_list_index_domain :
  forall (A : Type) (l : list A) i, Z.of_nat (length l) < two63 -> in_i64 i ->
    ((exists x, list_index l i = Some x) <-> 1 <= i <= Z.of_nat (length l)).
Proof. exact @list_index_domain. Qed.
Print Assumptions C06_list_index_domain.

Theorem C06_list_index_value :
  forall (A : Type) (l : list A) i, Z.of_nat (length l) < two63 -> 1 <= i <= Z.of_nat (length l) ->
    list_index l i = nth_error l (Z.to_nat (i - 1)).
Proof. exact @list_index_value. Qed.
Print Assumptions C06_list_index_value.

(* assignment target / Referenz argument: fails exactly outside 1..len, otherwise writes exactly
   slot i and nothing else *)
Theorem C06_list_store_spec :
  forall (A : Type) (l : list A) i v, Z.of_nat (length l) < two63 -> in_i64 i ->
    match list_store l i v with
    | Some l' => 1 <= i <= Z.of_nat (length l) /\ length l' = length l /\
                 forall k, nth_error l' k = if Nat.eqb k (Z.to_nat (i - 1)) then Some v else nth_error l k
    | None => ~ (1 <= i <= Z.of_nat (length l))
    end.
Proof.
  intros A l i v Hl Hi. rewrite list_store_normal by assumption.
  destruct ((1 <=? i) && (i <=? Z.of_nat (length l))) eqn:G; [|lia].
  split; [lia|]. split; [apply length_set_nth|]. intros k. apply nth_set_nth. lia.
Qed.
Print Assumptions C06_list_store_spec.

(* slicing: clamping as documented, crossed bounds <-> Laufzeitfehler, empty list -> empty *)
Theorem C06_list_slice_spec :
  forall (A : Type) (l : list A) i1 i2, Z.of_nat (length l) < two63 ->
    let len := Z.of_nat (length l) in
    let a := clampZ i1 1 len in
    let b := clampZ i2 1 len in
    match list_slice l i1 i2 with
    | SliceError => len > 0 /\ b < a
    | SliceOk r =>
      (len = 0 /\ r = []) \/
      (len > 0 /\ a <= b /\ r = firstn (Z.to_nat (b - a + 1)) (skipn (Z.to_nat (a - 1)) l) /\
       Z.of_nat (length r) = b - a + 1)
    end.
Proof.
  intros A l i1 i2 Hl len a b. destruct (Z.eq_dec len 0) as [E0|N0].
  - unfold list_slice. fold len. rewrite E0. change (0 <=? 0) with true. left. split; reflexivity.
  - assert (Hlen : 0 < len < two63) by (unfold len in *; lia).
    pose proof (clampZ_range i1 1 len ltac:(lia)) as Ha. pose proof (clampZ_range i2 1 len ltac:(lia)) as Hb.
    fold a b in Ha, Hb. unfold a, b, len. rewrite list_slice_clamped by exact Hlen. fold len a b.
    destruct (b <? a) eqn:E1; [split; lia|]. right. rewrite firstn_length, skipn_length.
    assert (Elen : len = Z.of_nat (length l)) by reflexivity. clearbody a b len.
    split; [lia|]. split; [lia|]. split; [reflexivity|lia].
Qed.
Print Assumptions C06_list_slice_spec.

Theorem C06_clamp_documented :
  forall v lo hi, lo <= hi ->
    (lo <= v <= hi -> clampZ v lo hi = v) /\ (v < lo -> clampZ v lo hi = lo) /\ (hi < v -> clampZ v lo hi = hi).
Proof. intros v lo hi H. rewrite clampZ_minmax. lia. Qed.
Print Assumptions C06_clamp_documented.

Theorem C06_one_sided_slices_never_fail :
  forall (A : Type) (l : list A) i, Z.of_nat (length l) < two63 ->
    list_slice_from l i <> SliceError /\ list_slice_to l i <> SliceError.
Proof.
  intros A l i Hl. unfold list_slice_from, list_slice_to.
  destruct l as [|x l]; [split; discriminate|]. rewrite !list_slice_clamped by (split; [cbn [length]; lia|exact Hl]).
  set (len := Z.of_nat (length (x :: l))). assert (1 <= len) by (unfold len; cbn [length]; lia).
  pose proof (clampZ_range i 1 len ltac:(lia)). rewrite (clampZ_in len), (clampZ_in 1) by lia.
  split; (replace (_ <? _) with false by lia); discriminate.
Qed.
Print Assumptions C06_one_sided_slices_never_fail.

Theorem C06_one_sided_slices_value :
  forall (A : Type) (l : list A) i, Z.of_nat (length l) < two63 -> 1 <= i <= Z.of_nat (length l) ->
    list_slice_from l i = SliceOk (skipn (Z.to_nat (i - 1)) l) /\ list_slice_to l i = SliceOk (firstn (Z.to_nat i) l).
Proof.
  intros A l i Hl Hr. unfold list_slice_from, list_slice_to.
  rewrite !list_slice_clamped by lia. rewrite !clampZ_in by lia.
  split; (replace (_ <? _) with false by lia); f_equal.
  - rewrite firstn_all2; [reflexivity|]. rewrite skipn_length. lia.
  - replace (i - 1 + 1) with i by lia. reflexivity.
Qed.
Print Assumptions C06_one_sided_slices_value.

Theorem C06_text_index_domain :
  forall cap cps i, (cps <> [] -> Z.of_nat (length cps) + 1 <= cap) -> (cps = [] -> 0 <= cap <= 1) ->
    ((exists c, text_index cap cps i = Some c) <-> 1 <= i <= Z.of_nat (length cps)).
Proof. exact text_index_domain. Qed.
Print Assumptions C06_text_index_domain.

Theorem C06_text_index_value :
  forall cap cps i c, text_index cap cps i = Some c -> nth_error cps (Z.to_nat (i - 1)) = Some c.
Proof.
  intros cap cps i c. unfold text_index.
  destruct (i <? 1); [discriminate|]. destruct ((i >? cap) || (cap <=? 1)); [discriminate|auto].
Qed.
Print Assumptions C06_text_index_value.

Theorem C06_text_replace_domain :
  forall cap cps i c, (cps <> [] -> Z.of_nat (length cps) + 1 <= cap) -> (cps = [] -> 0 <= cap <= 1) ->
    ((exists r, text_replace cap cps i c = Some r) <-> 1 <= i <= Z.of_nat (length cps)).
Proof. exact text_replace_domain. Qed.
Print Assumptions C06_text_replace_domain.

Theorem C06_text_slice_spec :
  forall cps i1 i2,
    let len := Z.of_nat (length cps) in
    let a := clampZ i1 1 len in
    let b := clampZ i2 1 len in
    match text_slice cps i1 i2 with
    | SliceError => len > 0 /\ b < a
    | SliceOk r => (len = 0 /\ r = []) \/
                   (len > 0 /\ a <= b /\ r = firstn (Z.to_nat (b - a + 1)) (skipn (Z.to_nat (a - 1)) cps))
    end.
Proof.
  intros cps i1 i2 len a b. unfold text_slice. fold len a b.
  destruct (len <=? 0) eqn:E0; [left; split; [lia|reflexivity]|].
  destruct (b <? a) eqn:E1; [split; lia|]. right. repeat split; lia.
Qed.
Print Assumptions C06_text_slice_spec.

Theorem C06_any_cast_domain :
  forall (V : Type) held target (v : V),
    (any_cast held target v = None <-> held <> target) /\ (held = target -> any_cast held target v = Some v).
Proof. exact @any_cast_domain. Qed.
Print Assumptions C06_any_cast_domain.

Theorem C06_todo_stops : todo_stmt = Laufzeitfehler 1.
Proof. exact todo_stops. Qed.
Print Assumptions C06_todo_stops.
