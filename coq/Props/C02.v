(* C02 — every program the frontend accepts is compiled completely.
   Model: Lower/TcTable.v (the checker's operator tables), Lower/LowerTable.v (the code generator's switches, the
   instructions they emit with their operand types, llir's and LLVM's acceptance of each), Lower/Cells.v (the
   finite cell space: every operator of src/ast/operators.go x every tuple of the 19 operand type classes x
   every value context).  The domain of every theorem is the inductive type `cell` (resp. `ctx`, `ty`), which
   the enumerations all_cells / all_ctxs / all_tys cover completely (first theorem): statements decided by
   vm_compute on the enumeration are statements about all cells.
   The tables mirror /repo with the repairs that KNOWN_FINDINGS.jsonl records as `fixed: property=C02`. *)
From Coq Require Import List Bool.
Import ListNotations.
From DDP Require Import Gen.OperatorEnum Lower.TcTable Lower.LowerTable Lower.Cells Lower.CellsProofs.

(* the bound: the enumerations the finite-domain proofs run over contain every cell, context and type class *)
Theorem C02_enumeration_complete :
  (forall c : cell, In c all_cells) /\ (forall x : ctx, In x all_ctxs) /\ (forall t : ty, In t all_tys).
Proof. exact (conj all_cells_complete (conj all_ctxs_complete all_tys_complete)). Qed.
Print Assumptions C02_enumeration_complete.

(* every operator application that type-checks has a lowering that neither aborts nor emits ill-typed IR, and whose
   IR type is the one of the type the checker assigned — for every operator and every tuple of operand classes *)
Theorem C02_lowering_total :
  forall c t, tc c = Some t ->
    exists d v code, lower c = Ok d v code /\ ir_well_typed (Ok d v code) = true /\ d = ir t.
Proof. exact lowering_total. Qed.
Print Assumptions C02_lowering_total.

Example C02_lowering_total_nonvacuous :
  tc (CUn UN_NEGATE (TB BByte)) = Some (TB BZahl) /\
  lower (CUn UN_NEGATE (TB BByte)) = Ok (Sc I64) (Sc I64) [IConv ZExt (Sc I8) (Sc I64); IBinC (Sc I64)] /\
  tc (CBin BIN_LOGIC_AND (TB BZahl) (TB BByte)) = Some (TB BZahl) /\
  lower (CBin BIN_LOGIC_AND (TB BZahl) (TB BByte)) = Ok (Sc I64) (Sc I64) [IConv ZExt (Sc I8) (Sc I64); IBin (Sc I64) (Sc I64)].
Proof. repeat split; reflexivity. Qed.

(* value contexts (initialiser, assignment, argument, return value, condition, list element): whenever the checker
   admits an expression of type t in context x, the code generator serves it for a consistently lowered operand *)
Theorem C02_context_consistent :
  forall x t, ctx_admits x t = true ->
    exists d v code, lower_ctx x t (ir t) (ir t) = Ok d v code /\ code_verdict code = VOk.
Proof.
  intros x t Ha. pose proof (context_consistent x t Ha) as H. unfold ctx_ok in H.
  destruct (lower_ctx x t (ir t) (ir t)) as [ | d v code]; [discriminate H | ].
  exists d, v, code. split; [reflexivity | apply verdict_ok_true, H].
Qed.
Print Assumptions C02_context_consistent.

Example C02_context_consistent_nonvacuous :
  ctx_admits (CInit (TB BByte)) (TB BZahl) = true /\
  lower_ctx (CInit (TB BByte)) (TB BZahl) (Sc I64) (Sc I64) =
    Ok (Sc I8) (Sc I8) [IConv Trunc (Sc I64) (Sc I8); IStore (Sc I8) (Sc I8)] /\
  ctx_admits CElem (TL BZahl) = false.
Proof. repeat split; reflexivity. Qed.

(* end to end on the model: whatever the frontend admits — any cell, in any context its type is admitted in — is
   compiled (no internal error, IR accepted by llir and LLVM) *)
Theorem C02_admitted_cells_compile :
  forall c x t, tc c = Some t -> ctx_admits x t = true -> verdict_of c x = VOk.
Proof.
  (* the lowering hands the context exactly the operand C02_context_consistent speaks of (declared type and value type
     both ir t), and the verdict of the two pieces of code is the verdict of their concatenation *)
  intros c x t Ht Ha.
  destruct (C02_lowering_total c t Ht) as (d & v & code & El & Hw & ->).
  cbn [ir_well_typed] in Hw. apply andb_true_iff in Hw. destruct Hw as [Hv Hc].
  apply irty_eqb_eq in Hv. subst v. apply verdict_ok_true in Hc.
  destruct (C02_context_consistent x t Ha) as (d' & v' & code' & Ec & Hc').
  unfold verdict_of. rewrite Ht. cbn [negb]. rewrite Ha, El. cbn [negb]. rewrite Ec.
  apply code_verdict_app; assumption.
Qed.
Print Assumptions C02_admitted_cells_compile.

Example C02_admitted_cells_compile_nonvacuous :
  let c := CTer TER_FALLS (TL BText) (TB BBool) (TL BText) in
  tc c = Some (TL BText) /\ ctx_admits (CReturn (TL BText)) (TL BText) = true /\
  verdict_of c (CReturn (TL BText)) = VOk.
Proof. repeat split; reflexivity. Qed.

(* cell_ok is exactly lowering_total at the cell, and the frontend verdict of the model is exactly the checker table *)
Theorem C02_cell_ok_spec :
  forall c, cell_ok c = true <->
    (forall t, tc c = Some t ->
       exists d v code, lower c = Ok d v code /\ ir_well_typed (Ok d v code) = true /\ d = ir t).
Proof. exact cell_ok_spec. Qed.
Print Assumptions C02_cell_ok_spec.

Theorem C02_verdict_reject_iff :
  forall c x, verdict_of c x = VReject <-> (tc c = None \/ exists t, tc c = Some t /\ ctx_admits x t = false).
Proof.
  intros c x. unfold verdict_of. destruct (tc c) as [t | ] eqn:Et.
  - destruct (ctx_admits x t) eqn:Ea; cbn [negb].
    + split.
      * intros H. exfalso. destruct (lower c) as [ | d v code]; [discriminate H | ].
        destruct (lower_ctx x t d v) as [ | d' v' code']; [discriminate H | ].
        exact (code_verdict_not_reject _ H).
      * intros [H | (t' & Ht' & Ha')]; [discriminate H | ]. injection Ht' as <-. rewrite Ea in Ha'. discriminate Ha'.
    + split; [intros _; right; exists t; split; [reflexivity | exact Ea] | reflexivity].
  - split; [intros _; left; reflexivity | reflexivity].
Qed.
Print Assumptions C02_verdict_reject_iff.

(* statement-level operand positions (repeat count, loop and branch conditions, both list literal forms, assignment to
   an indexed target, counting loops with every counter x start x end x step class, range loops): the enumeration
   all_stmts covers every statement cell, and whatever the checker admits is lowered to well-typed code *)
Theorem C02_stmt_enumeration_complete : forall s : stmt, In s all_stmts.
Proof. exact all_stmts_complete. Qed.
Print Assumptions C02_stmt_enumeration_complete.

Theorem C02_stmt_lowering_total :
  forall s, tc_stmt s = true ->
    exists code, lower_stmt s = SOk code /\ stmt_well_typed (SOk code) = true.
Proof. exact stmt_lowering_total. Qed.
Print Assumptions C02_stmt_lowering_total.

Example C02_stmt_lowering_total_nonvacuous :
  tc_stmt (SRepeat (TB BByte)) = true /\
  lower_stmt (SRepeat (TB BByte)) =
    SOk [IConv ZExt (Sc I8) (Sc I64); IStore (Sc I64) (Sc I64); IBinC (Sc I64); ICmpC (Sc I64); ICondBr (Sc I1)] /\
  tc_stmt (SForStep (TB BZahl) (TB BByte) (TB BKomma) (TB BKomma)) = true /\
  stmt_well_typed (lower_stmt (SForStep (TB BZahl) (TB BByte) (TB BKomma) (TB BKomma))) = true /\
  tc_stmt (SListLit (TL BZahl) (TL BZahl)) = false.
Proof. repeat split; reflexivity. Qed.
