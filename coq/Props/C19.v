(* C19 — every literal denotes its written value.
   Statements, each followed by Print Assumptions; the proofs are in Lex/Lit*.v, short ones here.
   Non-vacuity examples for every hypothesis: Lex/LitExamples.v (required below so that it is checked).
   Code points and bytes are N; 34 is the double quote, 39 the single quote, 92 the backslash, 44 the comma. *)
From Coq Require Import List NArith ZArith Bool Reals.
From Coq Require Import Floats.SpecFloat.
From Flocq Require Import Core.Core IEEE754.BinarySingleNaN.
Import ListNotations.
From DDP Require Import Lex.LitUtf8 Lex.LitUtf8Proofs Gen.LitEscapes Lex.Literals Lex.LiteralProofs
                        Lex.LitFloatProofs Lex.LitExamples.
Open Scope N_scope.

(* the escape tables regenerated from scanner.go / expressions.go are the specification's table:
   scanner and parser accept exactly \a \b \n \r \t \\ and the quote of the literal kind, with these values *)
Theorem C19_escape_tables_agree :
  (forall e, lookup e parse_string_escapes = esc_val 34 e) /\
  (forall e, lookup e parse_char_escapes = esc_val 39 e) /\
  (forall e, scan_is_escape 34 e = is_some (esc_val 34 e)) /\
  (forall e, scan_is_escape 39 e = is_some (esc_val 39 e)) /\
  scan_string_quote = 34 /\ scan_char_quote = 39.
Proof.
  exact (conj string_table_spec (conj char_table_spec (conj scan_escape_spec_string
        (conj scan_escape_spec_char (conj eq_refl eq_refl))))).
Qed.
Print Assumptions C19_escape_tables_agree.

(* UTF-8: decoding an encoded scalar value gives it back with its width (used for every index step) *)
Theorem C19_decode_encode :
  forall c rest, valid_cp c = true -> decode_rune (encode_rune c ++ rest) = (c, nlen (encode_rune c)).
Proof. exact decode_rune_encode_rune. Qed.
Print Assumptions C19_decode_encode.

(* the splice loop of parseString, for EVERY body of scalar values: it never slices out of range, never
   runs out of fuel, and returns the unit-wise translation together with the number of unknown escapes
   (translate keeps the backslash of an unknown escape and goes on behind it) *)
Theorem C19_parse_string_total :
  forall body, forallb valid_cp body = true ->
  parse_string (encode body) = POk (encode (fst (translate 34 body))) (snd (translate 34 body)).
Proof. exact parse_string_translate. Qed.
Print Assumptions C19_parse_string_total.

(* a body without unknown escape evaluates to exactly its written value, without diagnostic *)
Theorem C19_parse_string_denote :
  forall body d, forallb valid_cp body = true -> denote 34 body = Some d ->
  parse_string (encode body) = POk (encode d) 0.
Proof. exact parse_string_denote. Qed.
Print Assumptions C19_parse_string_denote.

(* scanner + parser: what the scanner delimits as a text literal is src up to the first unescaped quote; the
   scanner's diagnostic count k is the parser's; k = 0 exactly when the body has a written value, and then
   the parser returns that value *)
Theorem C19_string_literal_spec :
  forall src body rest k, forallb valid_cp src = true ->
  scan_string src = (Some (body, rest), k) ->
  src = body ++ 34 :: rest /\
  parse_string (encode body) = POk (encode (fst (translate 34 body))) k /\
  (k = 0 <-> denote 34 body <> None) /\
  (forall d, denote 34 body = Some d -> k = 0 /\ parse_string (encode body) = POk (encode d) 0).
Proof. exact string_literal_spec. Qed.
Print Assumptions C19_string_literal_spec.

(* an unknown escape sequence is diagnosed by the scanner and by the parser *)
Theorem C19_parse_string_reject :
  forall src body rest k, forallb valid_cp src = true ->
  scan_string src = (Some (body, rest), k) -> denote 34 body = None ->
  0 < k /\ exists s, parse_string (encode body) = POk s k.
Proof.
  intros src body rest k Hv H Hn. destruct (string_literal_spec src body rest k Hv H) as (_ & Hp & Hk & _).
  split; [|eexists; exact Hp]. apply N.neq_0_lt_0. intros K. apply Hk in K. contradiction.
Qed.
Print Assumptions C19_parse_string_reject.

(* every text (any code points, incl. quotes, backslashes, line breaks) can be written: escape s denotes s
   and is accepted by the scanner without diagnostic, for both literal kinds *)
Theorem C19_escape_roundtrip :
  forall q s rest, q = 34 \/ q = 39 ->
  denote q (escape q s) = Some s /\
  exists b, scan_lit q (escape q s ++ q :: rest) = (Some (escape q s, rest), 0, b).
Proof. exact (fun q s rest Hq => conj (denote_escape q s Hq) (escape_scans q s rest Hq)). Qed.
Print Assumptions C19_escape_roundtrip.

(* a character literal the scanner accepts without diagnostic denotes exactly one character, which parseChar
   returns; (contrapositive: everything else — empty, two characters, unknown escape — is diagnosed) *)
Theorem C19_parse_char_spec :
  forall src body rest k, forallb valid_cp src = true ->
  scan_char src = (Some (body, rest), k) ->
  src = body ++ 39 :: rest /\
  (k = 0 -> exists c, denote 39 body = Some [c] /\ parse_char (encode body) = (Z.of_N c, 0)).
Proof. exact char_literal_spec. Qed.
Print Assumptions C19_parse_char_spec.

(* parseChar on backslash + any character: the escape value, or a diagnostic of its own *)
Theorem C19_parse_char_escape :
  forall e, valid_cp e = true ->
  parse_char (encode [92; e]) = match esc_val 39 e with Some v => (Z.of_N v, 0) | None => (Z.of_N e, 1) end.
Proof. exact parse_char_escape. Qed.
Print Assumptions C19_parse_char_escape.

(* every single character other than ' and \ and every escape is accepted *)
Theorem C19_char_literal_complete :
  forall rest,
  (forall c, c <> 39 -> c <> 92 -> scan_char (c :: 39 :: rest) = (Some ([c], rest), 0)) /\
  (forall e v, esc_val 39 e = Some v -> scan_char (92 :: e :: 39 :: rest) = (Some ([92; e], rest), 0)).
Proof.
  intros rest. unfold scan_char. change scan_char_quote with 39. split.
  - intros c H1 H2. rewrite scan_lit_plain by assumption. cbn [scan_lit]. rewrite N.eqb_refl. reflexivity.
  - intros e v Ev. rewrite scan_lit_escape; [|discriminate|rewrite scan_escape_spec_char, Ev; reflexivity].
    cbn [scan_lit]. rewrite N.eqb_refl. reflexivity.
Qed.
Print Assumptions C19_char_literal_complete.

(* integer literals: the positional value, accepted exactly up to 2^63-1; above: diagnostic (value 0 is
   never used: the module is faulty) — in uint64 arithmetic with explicit wrap-around as in strconv *)
Theorem C19_parse_int_spec :
  forall ds, ds <> [] -> forallb is_digit ds = true ->
  parse_int ds = (if dec_value ds <? two63 then NumOk (dec_value ds) else NumRange) /\
  parse_int_lit ds = (if dec_value ds <? two63 then (dec_value ds, 0) else (0, 1)).
Proof. exact (fun ds Hne Hd => conj (parse_int_spec ds Hne Hd) (parse_int_lit_spec ds Hne Hd)). Qed.
Print Assumptions C19_parse_int_spec.

(* signed integer literals (negate() on a NEGATE INT pair; strconv.ParseInt("-" ++ digits) with its sign handling):
   every written value in [-2^63, 2^63-1] is obtained; -digits below -2^63 and unsigned digits from 2^63 on are
   rejected with a diagnostic (negate() takes math.MinInt64 from ParseInt("-" ++ digits) before it falls back
   to the negation of parseIntLit) *)
Theorem C19_signed_int_spec :
  forall ds, ds <> [] -> forallb is_digit ds = true ->
  parse_int_lit ds = (if dec_value ds <? two63 then (dec_value ds, 0) else (0, 1)) /\
  negate_int_lit ds = (if dec_value ds <=? two63 then ((- Z.of_N (dec_value ds))%Z, 0) else (0%Z, 1)).
Proof. exact (fun ds Hne Hd => conj (parse_int_lit_spec ds Hne Hd) (negate_int_lit_spec ds Hne Hd)). Qed.
Print Assumptions C19_signed_int_spec.

(* Kommazahl literals  ip , fp  of ANY length: the value is the decimal correctly rounded to binary64
   (round to nearest, ties to even, Flocq's generic rounding); a literal whose rounding is not finite is
   rejected.  dec_real ip fp = (digits ip++fp as an integer) / 10^|fp| as a real number. *)
Theorem C19_parse_float_correctly_rounded :
  forall ip fp, ip <> [] -> forallb is_digit ip = true -> forallb is_digit fp = true ->
  let x := dec_real ip fp in
  if Rlt_bool (Rabs (round radix2 (SpecFloat.fexp 53 1024) ZnearestE x)) (bpow radix2 1024) then
    exists f, parse_float (ip ++ 44 :: fp) = FOk f /\ valid_binary 53 1024 f = true /\
              SF2R radix2 f = round radix2 (SpecFloat.fexp 53 1024) ZnearestE x /\
              is_finite_SF f = true /\ sign_SF f = false
  else parse_float (ip ++ 44 :: fp) = FRange.
Proof. exact parse_float_correct. Qed.
Print Assumptions C19_parse_float_correctly_rounded.
