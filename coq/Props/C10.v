(* C10 — modules expose exactly their public names and initialise once, in order.
   The statements, proved from the lemmas of Mod/*Proofs.v and Mod/C10Top.v, each followed by Print Assumptions.
   All statements are full. *)
From Coq Require Import List NArith Bool Relations.
Import ListNotations.
From DDP Require Import Mod.Loader Mod.LoaderProofs Mod.InitOrder Mod.InitProofs Mod.VisibleProofs Mod.Mangle Mod.MangleProofs Mod.C10Top.

(* the recursive Parse terminates: the fuel of the model is never exhausted *)
Theorem C10_load_terminates : forall fs root, l_oof (fst (load fs root)) = false.
Proof. exact load_fuel_ok. Qed.
Print Assumptions C10_load_terminates.

(* the root is parsed first; no other call of Parse repeats a path *)
Theorem C10_load_once : forall fs root src,
  lookup root (fs_files fs) = Some src -> exists t, l_log (fst (load fs root)) = root :: t /\ NoDup t.
Proof. exact load_once. Qed.
Print Assumptions C10_load_once.

(* the module objects in the module map never refer to each other in a circle *)
Theorem C10_module_objects_acyclic : forall fs root q, ~ clos_trans _ (edge (l_map (fst (load fs root)))) q q.
Proof. intros fs root. apply wfmap_acyclic. apply (load_wf fs root). Qed.
Print Assumptions C10_module_objects_acyclic.

(* a cycle of any length >= 1 reachable from the root yields an include diagnostic and no executable *)
Theorem C10_cycle_rejected : forall fs root,
  lookup root (fs_files fs) <> None -> scycle fs root ->
  (exists d, In d (l_diags (fst (load fs root))) /\ include_class (dg_class d) = true) /\ outcome fs root = None.
Proof. exact cycle_rejected. Qed.
Print Assumptions C10_cycle_rejected.

(* an acyclic graph whose files exist is loaded without any diagnostic *)
Theorem C10_acyclic_not_diagnosed : forall fs root,
  closed fs root -> ~ scycle fs root -> lookup root (fs_files fs) <> None -> l_diags (fst (load fs root)) = [].
Proof. exact acyclic_no_diag. Qed.
Print Assumptions C10_acyclic_not_diagnosed.

(* an import never hands over a private declaration, nor one of a module it did not resolve to *)
Theorem C10_import_never_private : forall fs i ms n q d,
  In (n, Some (q, d)) (imported_decls fs i ms) ->
  d_public d = true /\ In d (top_decls (srcs fs q)) /\ In q ms /\ d_name d = n.
Proof. exact imported_never_private. Qed.
Print Assumptions C10_import_never_private.

(* a whole-module or directory import hands over every public declaration *)
Theorem C10_whole_import_all_public : forall fs i ms q d,
  (forall ns, i_form i <> INamed ns) -> In q ms -> In d (public_of fs q) ->
  In (d_name d, Some (q, d)) (imported_decls fs i ms).
Proof.
  intros fs i ms q d Hf Hq Hd. unfold imported_decls.
  assert (H : In (d_name d, Some (q, d)) (flat_map (fun q0 => map (fun d0 => (d_name d0, Some (q0, d0))) (public_of fs q0)) ms)).
  { apply in_flat_map. exists q. split; [exact Hq|]. apply in_map_iff. exists d. auto. }
  destruct (i_form i) as [|ns|r]; auto. exfalso. exact (Hf ns eq_refl).
Qed.
Print Assumptions C10_whole_import_all_public.

(* every public top-level declaration is in the public interface, if the top-level names are unique *)
Theorem C10_public_interface_complete : forall fs q d,
  NoDup (map d_name (top_decls (srcs fs q))) -> In d (top_decls (srcs fs q)) -> d_public d = true -> In d (public_of fs q).
Proof.
  intros fs q d. unfold public_of, srcs, src_of. destruct (lookup q (fs_files fs)) as [src|]; [|intros _ []].
  intros Hnd Hd Hp. apply publish_complete; auto.
Qed.
Print Assumptions C10_public_interface_complete.

(* a selective import hands over exactly the listed names *)
Theorem C10_named_import_exact : forall fs i q ms ns,
  i_form i = INamed ns ->
  imported_decls fs i (q :: ms) =
  map (fun n => (n, match find_decl n (public_of fs q) with Some d => Some (q, d) | None => None end)) ns.
Proof. exact named_import_exact. Qed.
Print Assumptions C10_named_import_exact.

(* ... and a listed name that is private or unknown is diagnosed at the statement *)
Theorem C10_unknown_name_diagnosed : forall fs p inst res ld i ns q ms n s,
  i_form i = INamed ns -> lookup (i_line i) res = Some (q :: ms) -> In n ns ->
  find_decl n (public_of fs q) = None ->
  has_diag_at inst (i_line i) ld = true \/
  has_diag_at inst (i_line i) (p_diags (fst (resolve_import fs inst p res ld i s))) = true.
Proof. exact named_import_unknown_diagnosed. Qed.
Print Assumptions C10_unknown_name_diagnosed.

(* for every program: a use only ever resolves to a declaration of the module itself or to a public one *)
Theorem C10_resolve_never_private : forall fs p inst res ld src,
  ruses_ok_l fs p (snd (resolve_module fs inst p res ld src)).
Proof. exact resolve_never_private. Qed.
Print Assumptions C10_resolve_never_private.

(* a variable, constant or type name that no declaration or import made visible cannot be used *)
Theorem C10_invisible_use_refused : forall fs p inst res ld line n k s,
  k <> KFunc -> lookup_scopes n (p_scopes s) = None ->
  has_diag_at inst line (p_diags (fst (resolve_stmt fs inst p res ld (SUse line n k) s))) = true /\
  snd (resolve_stmt fs inst p res ld (SUse line n k) s) = RUse line k None.
Proof. exact invisible_use_refused. Qed.
Print Assumptions C10_invisible_use_refused.

(* initialisation, for every program; main_targets holds the modules of ALL import statements of the root, those nested
   in loops, branches and function bodies included: each module's initialiser runs at most once, ... *)
Theorem C10_init_once : forall fs root tr, outcome fs root = Some tr -> NoDup (einits tr).
Proof. intros fs root tr Hout. rewrite (outcome_trace _ _ _ Hout). apply init_once. Qed.
Print Assumptions C10_init_once.

(* ... exactly the modules reachable from the root's import statements are initialised, ... *)
Theorem C10_init_covers : forall fs root tr,
  outcome fs root = Some tr -> forall q,
  In (EInit q) tr <-> exists m, In m (main_targets fs root) /\ reach (graph fs root) m q.
Proof. intros fs root tr Hout. rewrite (outcome_trace _ _ _ Hout). apply init_covers. Qed.
Print Assumptions C10_init_covers.

(* ... and each after every module it imports *)
Theorem C10_init_deps_first : forall fs root tr,
  outcome fs root = Some tr -> forall l1 q l2 q',
  tr = l1 ++ EInit q :: l2 -> In q' (graph fs root q) -> In (EInit q') l1.
Proof. intros fs root tr Hout. rewrite (outcome_trace _ _ _ Hout). apply init_deps_first. Qed.
Print Assumptions C10_init_deps_first.

(* when the statement after a TOP-LEVEL import statement starts, every module reachable through that import has been
   initialised *)
Theorem C10_init_before_following_code : forall fs root tr,
  outcome fs root = Some tr -> forall s1 i s2,
  src_of fs root = s1 ++ SImport i :: s2 ->
  (exists tr2, tr = prefix_trace fs root (s1 ++ [SImport i]) ++ tr2) /\
  forall m x, In m (match lookup (i_line i) (main_res fs root) with Some ms => ms | None => [] end) ->
              reach (graph fs root) m x -> In (EInit x) (prefix_trace fs root (s1 ++ [SImport i])).
Proof. intros fs root tr Hout. rewrite (outcome_trace _ _ _ Hout). apply init_before_following_code. Qed.
Print Assumptions C10_init_before_following_code.

(* imported modules compile declarations only: no top-level code is emitted for them *)
Theorem C10_no_toplevel_code_of_imports : forall fs root q rs,
  snd (compile_module (graph fs root) (dfs_fuel fs root) q false (fun _ _ => []) rs) = [].
Proof. intros fs root q rs. apply compile_top_nonmain_code. Qed.
Print Assumptions C10_no_toplevel_code_of_imports.

(* the flattening of module paths to symbol names is injective ... *)
Theorem C10_module_name_injective : forall p1 p2, hashable p1 = hashable p2 -> p1 = p2.
Proof. exact hashable_injective. Qed.
Print Assumptions C10_module_name_injective.

Theorem C10_init_name_injective : forall p1 p2, init_name p1 = init_name p2 -> p1 = p2.
Proof. intros p1 p2 E. apply app_inv_tail in E. apply hashable_injective. exact E. Qed.
Print Assumptions C10_init_name_injective.

(* ... so same-named declarations of two different modules get different symbols (hash: injective section variable) *)
Theorem C10_mangle_distinct : forall hash : str -> str,
  (forall a b, hash a = hash b -> a = b) ->
  forall n p1 p2, p1 <> p2 -> mangled hash n p1 <> mangled hash n p2.
Proof. exact mangled_distinct. Qed.
Print Assumptions C10_mangle_distinct.

(* the symbol of a generic instantiation determines function, parameter types (name and declaring module) and module *)
Theorem C10_instantiation_symbol_injective : forall hash : str -> str,
  (forall a b, hash a = hash b -> a = b) ->
  forall fn1 fn2 t1 t2 p1 p2, inst_symbol hash fn1 t1 p1 = inst_symbol hash fn2 t2 p2 -> fn1 = fn2 /\ t1 = t2 /\ p1 = p2.
Proof. exact inst_symbol_injective. Qed.
Print Assumptions C10_instantiation_symbol_injective.
