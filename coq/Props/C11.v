(* C11 — optimisation level and link mode do not change program behaviour.
   Level: other/partial.  What is PROVED here:
   * linking: model Lower/Opt2Link.v (modules = association lists symbol -> definition | declaration; the IR linker
     merging all modules into one LLVM module vs. separate objects resolved by the system linker; the list runtime
     functions defined in the program object or only declared and defined in ddp_list_types_defs.o).  Under injective
     symbol names (C10's mangling) and a prebuilt list object that holds the compiler's own list definitions, what a
     reference is bound to does not depend on the mode, both tools accept the program, and the order in which the
     modules reach the IR linker is irrelevant.  Both hypotheses are needed (refutations).
   * the compiler's own -O 2 transformation (parameter-copy elision) is C08's model Lower/Opt2.v: `run_copy` is what
     -O 0 and -O 1 emit, `run_elide` what -O 2 emits (with the call-site predicate mayElideArgCopy of 91b5d4a); their
     equality is proved for every program (C11_O2_elision_sound; C11_O2_elision_sound_partial is the same with an
     unused premise).
   NOT modelled (differentially tested by checks/c11.py): LLVM's pass pipeline, IR linker and code generator, gcc/ld.
   The statements; the proofs are lemmas of Lower/Opt2LinkProofs.v, Lower/Opt2Witness.v, Lower/Opt2Full.v and
   Lower/Opt2ElideThm.v, or stand here where they are a few lines over those lemmas. *)
From Coq Require Import List NArith Bool Permutation.
Import ListNotations.
From DDP Require Import Lower.Opt2Link Lower.Opt2LinkProofs.
From DDP Require Import Lower.Opt2 Lower.Opt2Witness Lower.Opt2Safe Lower.Opt2ElideThm Lower.Opt2Full.

(* link_mode_irrelevant: for every two configurations (modules linked into one LLVM module or kept as separate objects)
   x (list definitions linked in or taken from the prebuilt object), every well-formed program, every referencing
   module r and every symbol s: the reference is bound to the same definition (or stays undefined in both). *)
Theorem C11_link_mode_irrelevant :
  forall md1 md2 p r s, wf p -> In r (p_modules p) -> resolve md1 p r s = resolve md2 p r s.
Proof. exact link_mode_irrelevant. Qed.
Print Assumptions C11_link_mode_irrelevant.

(* ...namely to the definition of the one module (or the list runtime) that defines s *)
Theorem C11_resolve_is_the_definition :
  forall md p r s m b, wf p -> In r (p_modules p) -> In m (p_modules p ++ [p_lists_src p]) -> find_def m s = Some b ->
    resolve md p r s = Some b.
Proof. exact resolve_is_the_definition. Qed.
Print Assumptions C11_resolve_is_the_definition.

(* no undefined reference in any mode when every declared symbol is defined somewhere *)
Theorem C11_resolve_closed :
  forall md p r s, wf p -> closed p -> In r (p_modules p) -> declared r s -> resolve md p r s <> None.
Proof.
  intros md p r s Hwf Hc Hr Hd. destruct (Hc r s Hr Hd) as [m [Hm Hf]].
  destruct (find_def m s) as [b|] eqn:E; [|congruence].
  rewrite (resolve_is_the_definition md p r s m b Hwf Hr Hm E). discriminate.
Qed.
Print Assumptions C11_resolve_closed.

(* neither the IR linker nor the system linker sees a symbol defined twice, in any mode *)
Theorem C11_wf_link_ok : forall md p, wf p -> link_ok md p = true.
Proof.
  intros md p Hwf. unfold link_ok. apply nodupb_true. destruct md as [[|] [|]]; cbn [arrangement].
  - exact (wf_inj_src p Hwf).
  - exact (wf_inj_obj p Hwf).
  - eapply Permutation_NoDup; [| exact (wf_inj_src p Hwf)].
    apply Permutation_flat_map. apply perm_skip. apply Permutation_sym, Permutation_cons_append.
  - exact (wf_inj_obj p Hwf).
Qed.
Print Assumptions C11_wf_link_ok.

(* interface.go hands the modules to the IR linker in Go-map iteration order (llvmLinkAllModules over mapToSlice of a
   map): irrelevant *)
Theorem C11_link_order_irrelevant :
  forall ms ms' s, Permutation ms ms' -> NoDup (flat_map defs ms) -> first_def ms s = first_def ms' s.
Proof. exact link_order_irrelevant. Qed.
Print Assumptions C11_link_order_irrelevant.

(* the injectivity hypothesis of wf is what injective mangling of (module path, name) gives (C10: mangled_distinct) *)
Theorem C11_wf_of_injective_mangling :
  forall (P Nm : Type) (mangle : P -> Nm -> sym),
    (forall p n p' n', mangle p n = mangle p' n' -> p = p' /\ n = n') ->
    forall (m0 : smod P Nm) (ms : list (smod P Nm)) (lists : module),
      NoDup (map (s_path P Nm) (m0 :: ms)) -> (forall m, In m (m0 :: ms) -> NoDup (map fst (s_defs P Nm m))) ->
      NoDup (defs lists) -> (forall p n, ~ In (mangle p n) (defs lists)) ->
      wf {| p_main := compile_mod P Nm mangle m0; p_imports := map (compile_mod P Nm mangle) ms; p_lists_src := lists; p_lists_obj := lists |}.
Proof. exact wf_of_injective_mangling. Qed.
Print Assumptions C11_wf_of_injective_mangling.

(* non-vacuity: a concrete program of three modules (main imports A and B, A uses B) satisfies wf and closed *)
Theorem C11_example_wf : wf ex_prog /\ closed ex_prog.
Proof. exact (conj ex_prog_wf ex_prog_closed). Qed.
Print Assumptions C11_example_wf.

(* ...and its references are bound to A's function, the list runtime's function and B's global in all four modes *)
Theorem C11_example_resolves :
  forall md, resolve md ex_prog ex_main 10%N = Some 110%N /\ resolve md ex_prog ex_A 1%N = Some 50%N /\
             resolve md ex_prog ex_A 12%N = Some 112%N /\ link_ok md ex_prog = true.
Proof. exact ex_prog_resolves. Qed.
Print Assumptions C11_example_resolves.

(* honesty: without injective names the mode matters (two modules defining symbol 6 — the anonymous string constants
   `__unnamed_6` of two DDP objects compiled at -O 0 are exactly that), and the system linker rejects the program *)
Theorem C11_link_mode_relevant_without_injectivity :
  exists p r s, In r (p_modules p) /\ (forall x, find_def (p_lists_obj p) x = find_def (p_lists_src p) x) /\
                resolve (MLinked, LLinked) p r s <> resolve (MSeparate, LLinked) p r s /\
                link_ok (MSeparate, LLinked) p = false.
Proof.
  exists bad_prog, bad_M2, 6%N. split; [right; right; now left|]. split; [reflexivity|]. split; vm_compute; [discriminate | reflexivity].
Qed.
Print Assumptions C11_link_mode_relevant_without_injectivity.

(* honesty: with a prebuilt list object that differs from what the compiler links in, the list mode matters *)
Theorem C11_link_mode_relevant_without_same_lists :
  exists p r s, In r (p_modules p) /\ NoDup (flat_map defs (p_main p :: p_imports p ++ [p_lists_src p])) /\
                NoDup (flat_map defs (p_main p :: p_imports p ++ [p_lists_obj p])) /\
                resolve (MLinked, LLinked) p r s <> resolve (MLinked, LExternal) p r s.
Proof.
  exists stale_prog, [(1, Decl)]%N, 1%N. split; [now left|].
  split; [apply nodupb_true; vm_compute; reflexivity|]. split; [apply nodupb_true; vm_compute; reflexivity|].
  vm_compute. discriminate.
Qed.
Print Assumptions C11_link_mode_relevant_without_same_lists.

(* the optimisation level: run_copy is what -O 0 / -O 1 emit (every value parameter is a fresh copy), run_elide what
   -O 2 emits (copies of parameters the analysis judges constant are elided when the argument is a local variable
   nothing else can reach during the call, compiler.go VisitFuncCall/mayElideArgCopy, exitFuncScope).
   On the four programs on which -O 2 differed from -O 0/-O 1 without mayElideArgCopy (91b5d4a; checks/c11.py finds
   them as well as checks/c08.py) both modes agree ... *)
Theorem C11_O2_former_witnesses_agree :
  run_elide 50 w_same_var = run_copy 50 w_same_var /\
  run_elide 50 w_same_var_inplace = run_copy 50 w_same_var_inplace /\
  run_elide 50 w_global = run_copy 50 w_global /\
  run_elide 50 w_recursion = run_copy 50 w_recursion.
Proof. exact witnesses_agree. Qed.
Print Assumptions C11_O2_former_witnesses_agree.

(* ... the two modes agree for every program that passes the decidable check `elide_safe` of Lower/Opt2Safe.v (no
   elided argument can be the storage of a Referenz argument of the same call that the callee may write, nor a
   global the callee or its callees may write).  The premise is not used: see the next theorem. *)
Theorem C11_O2_elision_sound_partial :
  forall fuel p, elide_safe p = true -> run_elide fuel p = run_copy fuel p.
Proof. exact elision_sound_partial. Qed.
Print Assumptions C11_O2_elision_sound_partial.

(* ... and for every program: the compiler's own -O 2 transformation never changes the behaviour of -O 0 / -O 1,
   for every fuel (Lower/Opt2Full.v; see Props/C08.v). *)
Theorem C11_O2_elision_sound :
  forall fuel p, run_elide fuel p = run_copy fuel p.
Proof. exact elision_sound. Qed.
Print Assumptions C11_O2_elision_sound.
