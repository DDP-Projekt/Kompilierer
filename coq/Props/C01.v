(* C01 — compiled programs behave as DDP's evaluation rules prescribe.
   Specification: Lang/RefSem.v (exec_program).  Models of the implementation: Lang/Prec.v (precedence ladder of
   expressions.go), Lower/Ops.v (operator lowering of compiler.go), Lower/ListEq.v (generated list equality),
   Lower/ForLoop.v, Lower/Control.v (basic blocks of control flow), Lower/ExprCompile.v, Lower/StmtCompile.v
   (instruction trees of the scalar fragment).
   Against RefSem itself: the operator, conversion and list-equality theorems, C01_expr_preservation and
   C01_program_preservation_scalar.  The block-level theorems refine specifications of ForLoop.v / Control.v that
   transcribe RefSem's rules; no theorem connects them to RefSem, nor the blocks to the instruction trees.
   Not proved: preservation with functions, Text and list values (correspondence runs only). *)
From Coq Require Import ZArith List Lia String.
Import ListNotations.
From DDP Require Import Lang.Syntax Lang.F64 Lang.RefSem Lang.Prec Lang.PrecProofs Lang.OpsCover Gen.Operators
  Lower.Ops Lower.OpsProofs Lower.ListEq Lower.ForLoop Lower.Control Lower.ControlRules Lower.ExprCompile Lower.StmtCompile.
Open Scope Z_scope.

(* precedence and associativity as written: the ladder parser inverts the minimal-parentheses renderer
   on every expression of the binary-operator fragment (20 operators, 11 levels, parentheses) *)
Theorem C01_prec_roundtrip : forall e : pexpr, parse (render e) = Some e.
Proof. exact prec_roundtrip. Qed.
Print Assumptions C01_prec_roundtrip.

(* operator lowering: for every scalar binary operator, all operand types and ALL operand values:
   if RefSem defines the result (no guard) then the emitted LLVM operation computes exactly RefSem's value.
   (The model is that of /repo with 43c2135, 56bfc1a, 229b26f, 5ca8f5e: Byte operands converted with uitofp, mixed
   Zahl/Byte cells widened.) *)
Theorem C01_op_lowering_correct :
  forall (pow : Z -> Z -> Z) (log10 : Z -> Z) (op : binop) (a b v : value),
    wf a -> wf b -> scalar_binop op = true ->
    RefSem.bin_op pow log10 op a b = ROk v ->
    Ops.lower_bin pow log10 op (repr a) (repr b) = LOk (repr v).
Proof. exact bin_lowering_correct. Qed.
Print Assumptions C01_op_lowering_correct.

Example C01_op_lowering_nonvacuous :
  wf (VB 200) /\ wf (VK two_f) /\ scalar_binop BDiv = true /\
  RefSem.bin_op (fun _ _ => 0) (fun _ => 0) BDiv (VB 200) (VK two_f) = ROk (VK (f_of_Z 100)).
Proof. repeat split; try (unfold wf, min64, max64; lia); vm_compute; reflexivity. Qed.

(* x modulo 0 is a Laufzeitfehler in RefSem and in the emitted code (explicit zero test, 78c0539); with
   C01_op_lowering_correct every outcome of a scalar operator is covered (RefSem has no guard on them) *)
Theorem C01_modulo_zero_lowering_correct :
  forall (pow : Z -> Z -> Z) (log10 : Z -> Z) (a b : value),
    wf a -> wf b -> RefSem.bin_op pow log10 BMod a b = RErr ->
    Ops.lower_bin pow log10 BMod (repr a) (repr b) = LRtErr.
Proof. exact mod_zero_lowering_correct. Qed.
Print Assumptions C01_modulo_zero_lowering_correct.

Example C01_modulo_zero_nonvacuous :
  wf (VZ 7) /\ wf (VB 0) /\ RefSem.bin_op (fun _ _ => 0) (fun _ => 0) BMod (VZ 7) (VB 0) = RErr /\
  RefSem.bin_op (fun _ _ => 0) (fun _ => 0) BMod (VZ min64) (VZ (-1)) = ROk (VZ 0) /\
  RefSem.bin_op (fun _ _ => 0) (fun _ => 0) BShl (VZ 1) (VZ 64) = ROk (VZ 0).
Proof. repeat split; try (unfold wf, min64, max64; lia); vm_compute; reflexivity. Qed.

Theorem C01_unary_lowering_correct :
  forall (op : unop) (a v : value),
    wf a -> op <> ULen ->
    RefSem.un_op op a = ROk v ->
    lower_un op (repr a) = LOk (repr v).
Proof. exact un_lowering_correct. Qed.
Print Assumptions C01_unary_lowering_correct.

Example C01_unary_nonvacuous :
  wf (VB 200) /\ UNeg <> ULen /\ RefSem.un_op UNeg (VB 200) = ROk (VZ (-200)).
Proof. repeat split; try (unfold wf, min64, max64; lia); try discriminate; reflexivity. Qed.

(* `als` between scalar types; the implicit conversions of declarations/assignments are the same function *)
Theorem C01_conversion_lowering_correct :
  forall (fmt_float : Z -> list Z) (t : ty) (a v : value),
    wf a -> scalar_ty t = true ->
    cast_to fmt_float t a = ROk v ->
    lower_cast t (repr a) = LOk (repr v).
Proof. exact cast_lowering_correct. Qed.
Print Assumptions C01_conversion_lowering_correct.

Example C01_conversion_nonvacuous :
  wf (VZ 300) /\ scalar_ty TByte = true /\ cast_to (fun _ => []) TByte (VZ 300) = ROk (VB 44).
Proof. repeat split; try (unfold wf, min64, max64; lia); reflexivity. Qed.

Theorem C01_between_lowering_correct :
  forall (x a b v : value),
    wf x -> wf a -> wf b ->
    between x a b = ROk v ->
    lower_between (repr x) (repr a) (repr b) = LOk (repr v).
Proof. exact between_lowering_correct. Qed.
Print Assumptions C01_between_lowering_correct.

(* equality of Zahlen Listen: the generated code (length test + memcmp == 0 on the element bytes) answers wahr
   exactly for equal lists (memcmp bound with its C return type, 6fc9b92) *)
Theorem C01_list_equality_lowering_correct :
  forall a b, in_range a -> in_range b -> (lower_list_eq_zahl a b = true <-> a = b).
Proof. exact list_eq_lowering_correct. Qed.
Print Assumptions C01_list_equality_lowering_correct.

Example C01_list_equality_nonvacuous :
  in_range [1] /\ in_range [3] /\ lower_list_eq_zahl [1] [3] = false.
Proof. repeat split; try (repeat constructor; unfold min64, max64; lia); vm_compute; reflexivity. Qed.

(* equality of Kommazahlen Listen (element loop with fcmp une, f7e8a0b): the emitted code computes exactly
   RefSem's element-wise `gleich`, for all lists *)
Theorem C01_list_equality_kommazahl_lowering_correct :
  forall a b, value_eqb (VL TKomma (map VK a)) (VL TKomma (map VK b)) = Some (lower_list_eq_komma a b).
Proof.
  unfold lower_list_eq_komma.
  induction a as [|x a IH]; destruct b as [|y b]; try reflexivity.
  specialize (IH b). cbn [value_eqb ty_eqb map] in IH |- *.
  cbn [List.length Nat.eqb komma_loop]. unfold fcmp_une.
  destruct (f_eq x y); cbn [negb].
  - exact IH.
  - rewrite IH. destruct (negb (Nat.eqb (List.length a) (List.length b))); reflexivity.
Qed.
Print Assumptions C01_list_equality_kommazahl_lowering_correct.

(* counting loops: direction from the sign of the step, inclusive bound, hidden 64-bit index, Byte counter
   truncated from it - the lowered blocks refine ForLoop.for_spec for every iteration count *)
Theorem C01_for_lowering_correct :
  forall (St : Type) (eval_to : St -> option (Z * St)) (body : St -> option (signal * St))
         (set_var : St -> value -> St) (is_byte : bool) (stp : Z),
    (forall s lim s', eval_to s = Some (lim, s') -> in64 lim) ->
    forall (n : nat) (i : Z) (s : St) (r : fin St),
      in64 i -> in64 stp ->
      for_spec St eval_to body set_var is_byte stp n i s = Some r ->
      exists k idx, lsteps St eval_to body set_var is_byte stp k (PCond, i mod 2^64, s)
                    = (fst (final_of St r), idx, snd (final_of St r)).
Proof. exact for_lowering_correct. Qed.
Print Assumptions C01_for_lowering_correct.

(* a Byte counter from 254 to 257 in steps of 1 visits 254 255 0 1 and then leaves *)
Example C01_for_nonvacuous :
  for_spec (list Z) (fun s => Some (257, s)) (fun s => Some (SigNext, s))
           (fun s v => match v with VB b => (s ++ [b])%list | _ => s end) true 1 10 254 []
  = Some (ForLoop.XLeave (list Z) [255; 0; 1; 2]).
Proof. vm_compute. reflexivity. Qed.

(* RefSem's counting-loop rule, one unfolding (for_spec transcribes it) *)
Theorem C01_refsem_for_rule : forall pow log10 fmt ftab n genv en s t a i stp to body,
  loop_for_i pow log10 fmt ftab (S n) genv en s t a i stp to body =
  rbind (eval pow log10 fmt ftab n genv en s to) (fun tv s =>
  rbind (match tv with
         | VK _ => rbind (lift (cast_to fmt TZahl tv) s) (fun z s => match z with VZ k => Ok k s | _ => bad s end)
         | _ => match to_i tv with Some k => Ok k s | None => bad s end
         end) (fun lim s =>
  if (if stp <? 0 then i >=? lim else i <=? lim) then
    rbind (exec_block pow log10 fmt ftab n genv en s body) (fun fl s =>
    match fl with
    | FBreak => Ok FNext s
    | FRet v => Ok (FRet v) s
    | _ =>
        let i' := wrap64 (i + stp) in
        rbind (write_bind s (BLoc a) (match t with TByte => VB (wrap8 i') | _ => VZ i' end)) (fun _ s =>
        loop_for_i pow log10 fmt ftab n genv en s t a i' stp to body)
    end)
  else Ok FNext s)).
Proof. exact refsem_fori_rule. Qed.
Print Assumptions C01_refsem_for_rule.

(* the operators of the model are exactly the operator enums of src/ast/operators.go as regenerated on this
   run (Gen/Operators.v), in order, minus BIN_FIELD_ACCESS *)
Theorem C01_operator_enum_covered :
  map unop_name all_unops = gen_unary /\
  (map binop_name (firstn 23 all_binops) ++ ["BIN_FIELD_ACCESS"%string] ++ map binop_name (skipn 23 all_binops))%list = gen_binary /\
  map terop_name all_terops = gen_ternary.
Proof. exact operators_cover. Qed.
Print Assumptions C01_operator_enum_covered.

(* DESIGN stage 3: control flow over abstract sub-evaluators that may fail or diverge *)

(* und / oder: condbr + phi.  The right operand is evaluated exactly when sc_spec evaluates it (the count is part
   of the observation), result and state are sc_spec's; [is_and] selects und / oder *)
Theorem C01_shortcircuit_lowering_correct :
  forall (St : Type) (ev_l ev_r : St -> ores St bool) (is_and : bool) (s : St),
    sc_obs St (sc_step St ev_l ev_r is_and (sc_step St ev_l ev_r is_and (sc_step St ev_l ev_r is_and (sc_init St s))))
    = Some (sc_spec St ev_l ev_r is_and s).
Proof. exact shortcircuit_lowering_correct. Qed.
Print Assumptions C01_shortcircuit_lowering_correct.

(* falsch und <diverging operand> is falsch without touching the operand *)
Example C01_shortcircuit_nonvacuous :
  sc_spec nat (fun s => OVal false (S s)) (fun _ => ODiv) true 0%nat = (OVal false 1%nat, 0%nat) /\
  sc_spec nat (fun s => OVal true (S s)) (fun s => OErr s) true 0%nat = (OErr 1%nat, 1%nat).
Proof. split; reflexivity. Qed.

(* a, falls c, ansonsten b: the condition, then only the chosen side *)
Theorem C01_falls_lowering_correct :
  forall (St V : Type) (ev_c : St -> ores St bool) (ev_a ev_b : St -> ores St V) (s : St),
    fa_obs St V (fa_step St V ev_c ev_a ev_b (fa_step St V ev_c ev_a ev_b (fa_step St V ev_c ev_a ev_b (fa_init St V s))))
    = Some (falls_spec St V ev_c ev_a ev_b s).
Proof. exact falls_lowering_correct. Qed.
Print Assumptions C01_falls_lowering_correct.

Example C01_falls_nonvacuous :
  falls_spec nat Z (fun s => OVal false s) (fun _ => ODiv) (fun s => OVal 7 s) 0%nat = (OVal 7 0%nat, 0%nat, 1%nat).
Proof. reflexivity. Qed.

(* Solange c, mache: ...   for every iteration count; break -> leave, continue -> next test, return, failure *)
Theorem C01_while_lowering_correct :
  forall (St : Type) (ev_c : St -> ores St bool) (body : St -> ores St bsig) (n : nat) (s : St) (r : xres St),
    while_spec St ev_c body n s = Some r ->
    exists k, w_final St r (w_steps St ev_c body k (WCond, s)).
Proof. exact while_lowering_correct. Qed.
Print Assumptions C01_while_lowering_correct.

(* Mache: ... Solange c. *)
Theorem C01_dowhile_lowering_correct :
  forall (St : Type) (ev_c : St -> ores St bool) (body : St -> ores St bsig) (n : nat) (s : St) (r : xres St),
    dowhile_spec St ev_c body n s = Some r ->
    exists k, w_final St r (w_steps St ev_c body k (WBody, s)).
Proof. intros St ev_c body n s r H. exact (w_after_body St ev_c body s r _ H (fun s2 => while_lowering_correct St ev_c body n s2 r)). Qed.
Print Assumptions C01_dowhile_lowering_correct.

(* counts down from 3; `Fahre fort` at 2, `Verlasse` at 1 *)
Example C01_while_nonvacuous :
  while_spec Z (fun s => OVal (0 <? s) s)
    (fun s => if s =? 2 then OVal BCont (s - 1) else if s =? 1 then OVal BBreak 100 else OVal BNext (s - 1)) 10 3
  = Some (XLeave 100).
Proof. vm_compute. reflexivity. Qed.

(* Wiederhole: ... n Mal.   The counter is the widened count (a Byte count is zero-extended, f5edfd1) *)
Theorem C01_repeat_lowering_correct :
  forall (St : Type) (body : St -> ores St bsig) (n : nat) (k : Z) (s : St) (r : xres St),
    0 <= k <= max64 ->
    repeat_spec St body n k s = Some r ->
    exists j, r_final St r (r_steps St body j (RpCond, k mod 2^64, s)).
Proof. exact repeat_lowering_correct. Qed.
Print Assumptions C01_repeat_lowering_correct.

Theorem C01_repeat_counter_widening :
  forall v k, wf v -> to_i v = Some k -> repeat_counter v = Some (k mod 2^64).
Proof. intros v k W H. unfold repeat_counter. now rewrite (proj2 (to_i_repr v k W H)). Qed.
Print Assumptions C01_repeat_counter_widening.

Example C01_repeat_nonvacuous :
  0 <= 3 <= max64 /\ repeat_spec Z (fun s => OVal BNext (s + 1)) 10 3 0 = Some (XLeave 3) /\
  wf (VB 200) /\ to_i (VB 200) = Some 200.
Proof. repeat split; try (unfold wf, max64; lia); vm_compute; try reflexivity; intros C; discriminate C. Qed.

(* for-each over a copied container given as (element, width) cells: width = element size for a list, number of
   UTF-8 bytes for a Buchstabe of a Text.  The cursor walk visits exactly the elements in order; index variable,
   break/continue/return/failure as in each_spec.  (The range premise on get_idx is not used by the proof.) *)
Theorem C01_foreach_lowering_correct :
  forall (St : Type) (body : St -> ores St bsig) (set_var : St -> value -> St) (has_idx : bool)
         (get_idx : St -> Z) (set_idx : St -> Z -> St),
    (forall s, min64 <= get_idx s <= max64) ->
    forall (es : list (value * Z)) (s : St),
      widths_pos es ->
      exists k, e_final St (each_spec St body set_var has_idx get_idx set_idx es s)
                  (e_steps St body set_var has_idx get_idx set_idx es k (ECond, 0, s)).
Proof.
  intros St body set_var has_idx get_idx set_idx H es s W.
  apply (foreach_lowering_correct St body set_var has_idx get_idx set_idx es [] s); [constructor|exact W].
Qed.
Print Assumptions C01_foreach_lowering_correct.

Theorem C01_foreach_instances :
  (forall size vs, 0 < size -> widths_pos (list_cells size vs)) /\ (forall cs, widths_pos (text_cells cs)).
Proof.
  split.
  - intros size vs H. apply Forall_map, Forall_forall. intros v _. exact H.
  - intros cs. apply Forall_map, Forall_forall. intros c _. cbn [snd]. unfold utf8.
    destruct (c <? 128); [cbn; lia|]. destruct (c <? 2048); [cbn; lia|]. destruct (c <? 65536); cbn; lia.
Qed.
Print Assumptions C01_foreach_instances.

(* the Text "a€" (1 + 3 bytes) with an index variable: the body sees a@1, €@2 *)
Example C01_foreach_nonvacuous :
  each_spec (list (Z * Z) * Z) (fun s => OVal BNext s)
            (fun s v => match v with VC c => ((fst s ++ [(c, snd s)])%list, snd s) | _ => s end) true snd (fun s i => (fst s, i))
            (text_cells [97; 8364]) ([], 1)
  = XLeave ([(97, 1); (8364, 2)], 3).
Proof. vm_compute. reflexivity. Qed.

(* counting loop with a Kommazahl counter: the end value of any numeric type is cast to double in every round
   (37dd3f7).  The premises about [stp] are not used: the machine takes the converted step [stpf]. *)
Theorem C01_forkomma_lowering_correct :
  forall (St : Type) (eval_to : St -> ores St value) (body : St -> ores St bsig) (set_var : St -> value -> St)
         (stp : value),
    (forall s tv s1, eval_to s = OVal tv s1 -> numeric tv) ->
    forall stpf, as_f stp = Some stpf -> numeric stp ->
    forall (n : nat) (i : Z) (s : St) (r : xres St),
      fork_spec St eval_to body set_var n stpf i s = Some r ->
      exists k, k_final St r (k_steps St eval_to body set_var stpf k (KCond, i, s)).
Proof. intros St eval_to body set_var stp H stpf H1 H2 n i s r H3. eapply forkomma_lowering_correct; eauto. Qed.
Print Assumptions C01_forkomma_lowering_correct.

Example C01_forkomma_nonvacuous :
  numeric (VZ 2) /\ as_f (VZ 2) = Some (f_of_Z 2) /\
  fork_spec nat (fun s => OVal (VB 3) s) (fun s => OVal BNext (S s)) (fun s _ => s) 10 (f_of_Z 2) (f_of_Z 0) 0%nat
  = Some (XLeave 2%nat).
Proof. repeat split; try (unfold numeric, wf, min64, max64; lia); vm_compute; reflexivity. Qed.

(* RefSem's rules for und, falls and Wiederhole, one unfolding each (sc_spec, falls_spec, repeat_spec transcribe them) *)
Theorem C01_refsem_control_rules :
  forall pow log10 fmt ftab n genv en s,
  (forall a b, eval pow log10 fmt ftab (S n) genv en s (EBin BAnd a b) =
     rbind (eval pow log10 fmt ftab n genv en s a) (fun v s =>
       match v with
       | VW false => Ok (VW false) s
       | VW true => rbind (eval pow log10 fmt ftab n genv en s b) (fun w s => match w with VW _ => Ok w s | _ => bad s end)
       | _ => bad s
       end)) /\
  (forall a c b, eval pow log10 fmt ftab (S n) genv en s (ETer TFalls a c b) =
     rbind (eval pow log10 fmt ftab n genv en s c) (fun cv s =>
       match cv with
       | VW true => eval pow log10 fmt ftab n genv en s a
       | VW false => eval pow log10 fmt ftab n genv en s b
       | _ => bad s
       end)) /\
  (forall k body, loop_repeat pow log10 fmt ftab (S n) genv en s k body =
     if k <=? 0 then Ok FNext s else
     rbind (exec_block pow log10 fmt ftab n genv en s body) (fun fl s =>
       match fl with
       | FBreak => Ok FNext s
       | FRet v => Ok (FRet v) s
       | _ => loop_repeat pow log10 fmt ftab n genv en s (k - 1) body
       end)).
Proof.
  intros. split; [|split]; intros.
  - apply refsem_and_rule.
  - apply refsem_falls_rule.
  - apply refsem_repeat_rule.
Qed.
Print Assumptions C01_refsem_control_rules.

(* DESIGN stage 4 for the scalar fragment *)

(* Expressions.  For EVERY expression tree of the scalar fragment (typeof G e = Some t: literals, scalar variables,
   all scalar unary/binary/ternary operators incl. und/oder/falls, conversions), every environment whose variables
   hold well-formed values of their declared types, and every fuel that covers the depth of the tree: RefSem.eval
   yields a well-formed value of type t and the compiled instruction tree evaluates to its machine representation,
   or both sides raise a Laufzeitfehler (modulo 0); RefSem never gets stuck, never runs out of fuel, and leaves the
   state unchanged.  (agree False ...: see ExprCompile.agree.) *)
Theorem C01_expr_preservation :
  forall (pow : Z -> Z -> Z) (log10 : Z -> Z) (fmt_float : Z -> list Z) (ftab : list fdecl)
         (G : tenv) (genv en : env) (s : state) (ld : ident -> option mval) (e : expr) (t : ty),
    env_ok G en s ld ->
    typeof G e = Some t ->
    forall fuel, (depth e <= fuel)%nat ->
    agree False t s (eval pow log10 fmt_float ftab fuel genv en s e) (lir_eval pow log10 ld (compile_expr e)).
Proof. exact expr_preservation. Qed.
Print Assumptions C01_expr_preservation.

(* 7 modulo (3 minus 3) in a closed environment: both sides a Laufzeitfehler; (200 als Byte) durch 2,0 : 100 *)
Example C01_expr_nonvacuous :
  typeof (fun _ => None) (EBin BMod (EInt 7) (EBin BMinus (EInt 3) (EInt 3))) = Some TZahl /\
  lir_eval (fun _ _ => 0) (fun _ => 0) (fun _ => None) (compile_expr (EBin BMod (EInt 7) (EBin BMinus (EInt 3) (EInt 3)))) = MErr /\
  lir_eval (fun _ _ => 0) (fun _ => 0) (fun _ => None)
           (compile_expr (EBin BOr (EBool true) (EBin BEq (EBin BMod (EInt 7) (EInt 0)) (EInt 1)))) = MOk (MI1 true).
Proof. repeat split; vm_compute; reflexivity. Qed.

(* Statements.  For every fuel and every block of the scalar statement fragment (block_ok: scalar declarations and
   assignments with implicit numeric conversion, Wenn, all five loop forms - Solange, Mache..Solange, Wiederhole,
   the counting loop `Fuer jede Zahl/Byte/Kommazahl x von a bis b (mit Schrittgroesse s)` in both directions with its
   conversions, and for-each over a list literal of scalars or a Text literal (with the optional index variable) -,
   break/continue, blocks, expression statements, Schreibe of scalars): whenever RefSem ends (normally or with a
   Laufzeitfehler) within the fuel, the compiled block run with the same fuel ends the same way with the same
   output bytes.  The machine keeps the counter / step / element sequence of a counting or for-each loop outside
   the variable cells (parameters of mfor_i / mfor_k / meach), as the generated code keeps them in registers; only
   the loop variable and the index variable are cells.
   NOT covered (the full `program_preservation : wt p -> run (compile p) = exec p` stays open): user functions and
   Gib (a call inside an expression makes expressions effectful: eval_sim's "state unchanged" clause and the pure
   lir_eval would both have to become state-passing), Text and list VALUES in variables (for-each iterates over
   literals only), and the step from these structured instruction trees to basic blocks beyond the construct-level
   theorems above. *)
Theorem C01_program_preservation_scalar :
  forall (pow : Z -> Z -> Z) (log10 : Z -> Z) (fmt_float : Z -> list Z) (ftab : list fdecl)
         (fuel : nat) (ss : list stmt) (o : bool * list Z),
    block_ok (fun _ => None) false ss = true ->
    observe (exec_block pow log10 fmt_float ftab fuel [] [] init_state ss) = Some o ->
    m_observe (mblock pow log10 fmt_float fuel [] init_mstate (map compile_stmt ss)) = Some o.
Proof. exact program_preservation_scalar. Qed.
Print Assumptions C01_program_preservation_scalar.

(* Die Zahl x1 ist 0. Solange x1 kleiner als 3 ist, mache: Schreibe x1. Speichere x1 plus 1 in x1.  -> "012" *)
Example C01_program_nonvacuous :
  let p := [SDecl TZahl 1%N (EInt 0);
            SWhile (EBin BLt (EVar 1%N) (EInt 3))
                   [SPrint (EVar 1%N); SAssign (LVar 1%N) (EBin BPlus (EVar 1%N) (EInt 1))]] in
  block_ok (fun _ => None) false p = true /\
  observe (exec_block (fun _ _ => 0) (fun _ => 0) (fun _ => []) [] 40 [] [] init_state p) = Some (false, [48; 49; 50]) /\
  m_observe (mblock (fun _ _ => 0) (fun _ => 0) (fun _ => []) 40 [] init_mstate (map compile_stmt p)) = Some (false, [48; 49; 50]).
Proof. repeat split; vm_compute; reflexivity. Qed.

(* Fuer jede Zahl i von 3 bis 1 mit Schrittgroesse -1: Schreibe i.   Fuer jede Kommazahl k von 1 bis 2 (Byte-Grenze):
   Schreibe (k als Zahl).   Fuer jeden Buchstaben c (Index j) in "ab": Schreibe j.   Fuer jede Zahl e in [7; 8]: wenn e = 8 verlasse.
   -> "321" "12" "12" "" *)
Example C01_program_loops_nonvacuous :
  let p := [SFor TZahl 1%N (EInt 3) (EInt 1) (Some (EUn UNeg (EInt 1))) [SPrint (EVar 1%N)];
            SFor TKomma 2%N (EInt 1) (ECast (EInt 2) TByte) None [SPrint (ECast (EVar 2%N) TZahl)];
            SForEach TChar 3%N (Some 4%N) (EText [97; 98]) [SPrint (EVar 4%N)];
            SForEach TZahl 5%N None (EListLit [EInt 7; EInt 8])
                     [SIf (EBin BEq (EVar 5%N) (EInt 8)) [SBreak] []]] in
  block_ok (fun _ => None) false p = true /\
  observe (exec_block (fun _ _ => 0) (fun _ => 0) (fun _ => []) [] 40 [] [] init_state p) = Some (false, [51; 50; 49; 49; 50; 49; 50]) /\
  m_observe (mblock (fun _ _ => 0) (fun _ => 0) (fun _ => []) 40 [] init_mstate (map compile_stmt p)) = Some (false, [51; 50; 49; 49; 50; 49; 50]).
Proof. repeat split; vm_compute; reflexivity. Qed.
