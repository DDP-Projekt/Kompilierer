(* C07 — failure is reported faithfully: flag, exit status and source ranges.
   The statements, proved from the lemmas of Diag/FlagsProofs.v, Diag/FlagsRepaired.v, Diag/FlagsWarn.v and
   Diag/RenderProofs.v, each followed by Print Assumptions.

   `complete pinned tr s`: tr is a well-bracketed event trace of the frontend (every event admissible, the
   root's Parse returned) and s the final state. any_faulty = the root or some imported module has
   Ast.Faulty; delivered_error = the caller's handler received a LEVEL_ERROR diagnostic.

   The machine takes a configuration: `pinned` = the code as pinned, `repaired` = the code with the
   three repairs /repo has since 9334089, 89505cd and 4012465 (checks/c07.py determines on every run which one /repo is).
   For `pinned` the full equivalence does NOT hold (two refutations, both replayed on the real
   frontend by checks/c07.py); what holds is stated as *_partial under the hypotheses
   no_stale_flag / no_root_scanner_error, which are exactly the negations of the two defects.
   For `repaired` the equivalence, the exit status and the no-artefact statement hold for every
   well-bracketed trace without hypotheses (theorems ending in _repaired). *)
From Coq Require Import List NArith Bool.
Import ListNotations.
From DDP Require Import Diag.Flags Diag.FlagsProofs Diag.FlagsWarn Diag.FlagsRepaired Diag.Render Diag.RenderProofs.
Close Scope N_scope.

(* REFUTED, direction Faulty -> diagnostic: a discarded candidate instantiation of an imported
   generic leaves the declaring module flagged although nothing was delivered *)
Theorem C07_faulty_iff_delivered_refuted :
  exists tr s, complete pinned tr s /\ any_faulty s = true /\ root_faulty s = false /\ delivered_error s = false.
Proof. exact faulty_iff_delivered_refuted. Qed.
Print Assumptions C07_faulty_iff_delivered_refuted.

(* REFUTED, direction diagnostic -> Faulty: an error of the root module's scanner bypasses the
   wrapper that sets parser.errored *)
Theorem C07_delivered_imp_faulty_refuted :
  exists tr s, complete pinned tr s /\ delivered_error s = true /\ any_faulty s = false.
Proof. exact delivered_imp_faulty_refuted. Qed.
Print Assumptions C07_delivered_imp_faulty_refuted.

(* PARTIAL: for every complete run in which no resolver/typechecker flagged a module that was not
   being parsed and the root's scanner reported no error, (root or an imported module Faulty) <->
   an error-level diagnostic was delivered *)
Theorem C07_faulty_iff_delivered_partial :
  forall tr s, complete pinned tr s -> no_stale_flag s -> no_root_scanner_error s ->
    (any_faulty s = true <-> delivered_error s = true).
Proof. intros tr s C NS NR. exact (proj1 (faulty_iff_delivered_cfg pinned tr s C (or_intror NS) (or_intror NR))). Qed.
Print Assumptions C07_faulty_iff_delivered_partial.

(* any_faulty is literally "root Faulty or some other parsed module Faulty" *)
Theorem C07_any_faulty_is_root_or_imported :
  forall s, any_faulty s = true <->
    (In 0 (g_seen (s_g s)) /\ root_faulty s = true) \/
    (exists m, m <> 0 /\ In m (g_seen (s_g s)) /\ g_faulty (s_g s) m = true).
Proof. exact any_faulty_split. Qed.
Print Assumptions C07_any_faulty_is_root_or_imported.

(* the two directions need one hypothesis each *)
Theorem C07_faulty_imp_delivered_partial :
  forall tr s, complete pinned tr s -> no_stale_flag s -> any_faulty s = true -> delivered_error s = true.
Proof. intros tr s C NS. exact (faulty_imp_delivered_cfg pinned tr s C (or_intror NS)). Qed.
Print Assumptions C07_faulty_imp_delivered_partial.

Theorem C07_delivered_imp_root_faulty_partial :
  forall tr s, complete pinned tr s -> no_root_scanner_error s -> delivered_error s = true -> root_faulty s = true.
Proof. intros tr s C NR. exact (delivered_imp_root_faulty_cfg pinned tr s C (or_intror NR)). Qed.
Print Assumptions C07_delivered_imp_root_faulty_partial.

(* exit status of `kddp kompiliere` with the default options; cg = the code generator succeeds *)
Theorem C07_exit_nonzero_iff_partial :
  forall tr s cg, complete pinned tr s -> no_stale_flag s -> no_root_scanner_error s ->
    (exit_status (compile pinned true cg s) <> 0 <-> delivered_error s = true \/ cg = false).
Proof.
  intros tr s cg C NS NR. rewrite exit_status_compile, refused_pinned, (C07_faulty_iff_delivered_partial tr s C NS NR). tauto.
Qed.
Print Assumptions C07_exit_nonzero_iff_partial.

Theorem C07_exit_nonzero_iff_refuted :
  (exists tr s, complete pinned tr s /\ delivered_error s = true /\ exit_status (compile pinned true true s) = 0) /\
  (exists tr s, complete pinned tr s /\ delivered_error s = false /\ exit_status (compile pinned true true s) <> 0).
Proof.
  split.
  - destruct delivered_yet_compiled as [tr [s [C [D O]]]]. exists tr, s. rewrite O. auto.
  - destruct faulty_iff_delivered_refuted as [tr [s [C [A [R D]]]]]. exists tr, s. split; [exact C|]. split; [exact D|].
    apply exit_status_compile. left. rewrite refused_pinned. exact A.
Qed.
Print Assumptions C07_exit_nonzero_iff_refuted.

(* FULL (pinned and repaired code alike): runs whose events are all warning-level never flag a module,
   never fail, always yield the object *)
Theorem C07_warnings_never_fail :
  forall cfg tr s lm, complete cfg tr s -> forallb warn_only tr = true ->
    any_faulty s = false /\ delivered_error s = false /\
    exit_status (compile cfg lm true s) = 0 /\ artifact (compile cfg lm true s) = true.
Proof. exact warnings_never_fail. Qed.
Print Assumptions C07_warnings_never_fail.

(* FULL: with the default options a flagged module never yields an object *)
Theorem C07_no_artifact_when_faulty :
  forall s cg, any_faulty s = true -> artifact (compile pinned true cg s) = false.
Proof. intros s cg H. rewrite artifact_compile, refused_pinned, H. reflexivity. Qed.
Print Assumptions C07_no_artifact_when_faulty.

Theorem C07_no_artifact_on_failure_partial :
  forall tr s cg, complete pinned tr s -> no_root_scanner_error s -> delivered_error s = true ->
    artifact (compile pinned true cg s) = false.
Proof.
  intros tr s cg C NR DE. apply C07_no_artifact_when_faulty. apply (root_faulty_imp_any pinned tr s C).
  exact (C07_delivered_imp_root_faulty_partial tr s C NR DE).
Qed.
Print Assumptions C07_no_artifact_on_failure_partial.

(* REFUTED: an object despite a delivered error (root scanner error), and with --module-linken=false
   the Faulty flag is not consulted at all *)
Theorem C07_no_artifact_on_failure_refuted :
  (exists tr s, complete pinned tr s /\ delivered_error s = true /\ artifact (compile pinned true true s) = true) /\
  (forall s, artifact (compile pinned false true s) = true).
Proof.
  split; [|reflexivity]. destruct delivered_yet_compiled as [tr [s [C [D O]]]]. exists tr, s. rewrite O. auto.
Qed.
Print Assumptions C07_no_artifact_on_failure_refuted.

(* the repaired configuration: full statements *)
Theorem C07_faulty_iff_delivered_repaired :
  forall tr s, complete repaired tr s -> (any_faulty s = true <-> delivered_error s = true).
Proof. intros tr s C. exact (proj1 (iff_delivered_repaired tr s C)). Qed.
Print Assumptions C07_faulty_iff_delivered_repaired.

Theorem C07_exit_nonzero_iff_repaired :
  forall tr s lm cg, complete repaired tr s ->
    (exit_status (compile repaired lm cg s) <> 0 <-> delivered_error s = true \/ cg = false).
Proof. intros tr s lm cg C. rewrite exit_status_compile, (refused_repaired tr s lm C). tauto. Qed.
Print Assumptions C07_exit_nonzero_iff_repaired.

Theorem C07_no_artifact_on_failure_repaired :
  forall tr s lm cg, complete repaired tr s -> delivered_error s = true ->
    artifact (compile repaired lm cg s) = false.
Proof.
  intros tr s lm cg C DE. apply (refused_repaired tr s lm C) in DE. rewrite artifact_compile, DE. reflexivity.
Qed.
Print Assumptions C07_no_artifact_on_failure_repaired.

(* FULL (for the renderer): for every text, every 64-bit range with 1 <= Start.Line <= End.Line and
   every capacity policy of the runtime, the renderer's indexing is safe iff the range lies in the
   text with start <= end (End.Column may additionally reach into the slice's excess capacity) *)
Theorem C07_render_total_iff_in_text :
  forall slack lines r, wf_range r -> wf_lines slack lines -> (1 <= sl r)%N -> (sl r <= el r)%N ->
    (render_ok slack true lines r = true <-> in_text_slack slack lines r).
Proof. intros slack lines r _. apply render_total_iff_in_text_slack. Qed.
Print Assumptions C07_render_total_iff_in_text.

Theorem C07_render_total_iff_in_text_exact :
  forall lines r, wf_range r -> wf_lines (fun _ => 0%N) lines -> (1 <= sl r)%N -> (sl r <= el r)%N ->
    (render_ok (fun _ => 0%N) true lines r = true <-> in_text lines r).
Proof. exact render_total_iff_in_text. Qed.
Print Assumptions C07_render_total_iff_in_text_exact.

(* the property's direction: a range inside the text can always be printed *)
Theorem C07_render_total_if_in_text :
  forall slack sf lines r, wf_range r -> wf_lines slack lines -> in_text lines r -> render_ok slack sf lines r = true.
Proof.
  intros slack sf lines r W WL IT. destruct sf; [|reflexivity].
  destruct (in_text_lines_ordered lines r IT) as [S1 S2].
  apply render_total_iff_in_text_slack; try assumption. apply in_text_in_text_slack. exact IT.
Qed.
Print Assumptions C07_render_total_if_in_text.

(* the handler chain of cmd/kddp: ONE handler owning the text of the main file receives the diagnostics of
   all modules. File-selection rule: excerpt iff Clean(err.File) = Clean(file), else header only.
   Under it every diagnostic whose range lies in the text of the file IT NAMES is printed, whichever
   module it comes from (clean = filepath.Clean, text_of = file contents: parameters) *)
Theorem C07_handler_prints_every_in_text_diagnostic :
  forall (path : Type) (path_eqb : path -> path -> bool) (clean : path -> path) (text_of : path -> list N) slack,
    (forall a b, path_eqb a b = true -> a = b) -> (forall p, text_of (clean p) = text_of p) ->
    forall file errfile r, wf_range r -> wf_lines slack (text_of errfile) -> in_text (text_of errfile) r ->
      handler_ok path path_eqb clean text_of slack file errfile r = true.
Proof.
  intros path path_eqb clean text_of slack path_eqb_eq text_clean file errfile r W WL IT.
  unfold handler_ok. rewrite render_ok_fast_eq.
  destruct (handled path path_eqb clean (clean file) errfile) eqn:H; [|reflexivity].
  (* names that clean to the same path name the same text *)
  unfold handled in H. apply path_eqb_eq in H.
  assert (E : text_of file = text_of errfile) by (rewrite <- (text_clean file), <- H; apply text_clean).
  rewrite E. apply C07_render_total_if_in_text; assumption.
Qed.
Print Assumptions C07_handler_prints_every_in_text_diagnostic.

Theorem C07_unhandled_file_header_only :
  forall (path : Type) (path_eqb : path -> path -> bool) (clean : path -> path) (text_of : path -> list N) slack file errfile r,
    handled path path_eqb clean (clean file) errfile = false ->
    handler_ok path path_eqb clean text_of slack file errfile r = true /\
    shown_lines path path_eqb clean file errfile r = 0%N.
Proof.
  intros path path_eqb clean text_of slack file errfile r H. unfold handler_ok, shown_lines. rewrite H. split; reflexivity.
Qed.
Print Assumptions C07_unhandled_file_header_only.

(* the zero Range{} (and End.Line < Start.Line): Start.Line-1 underflows, the loop body never runs:
   no panic, but no excerpt either *)
Theorem C07_render_degenerate_prints_nothing :
  forall slack sf lines r, wf_range r -> (sl r = 0 \/ el r < sl r)%N ->
    render_ok slack sf lines r = true /\ excerpt_lines r = 0%N.
Proof. exact render_degenerate. Qed.
Print Assumptions C07_render_degenerate_prints_nothing.

(* token.NewRange of two in-text token ranges given in stream order is in the text with start <= end *)
Theorem C07_newrange_in_text :
  forall lines a b, in_text lines a -> in_text lines b -> pos_le (sl a) (sc a) (sl b) (sc b) ->
    in_text lines (new_range a b).
Proof. exact newrange_monotone. Qed.
Print Assumptions C07_newrange_in_text.
