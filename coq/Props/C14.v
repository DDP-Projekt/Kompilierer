(* C14 — type equivalence is lawful; aliases are transparent, definitions opaque; initialisation and
   assignment agree and accept exactly equivalent / numeric-for-numeric / anything-but-nothing-for-Variable;
   a definition converts only explicitly and only to and from its own base.
   The closed forms and the longer arguments are in Types/TyProofs.v and Types/AssignProofs.v. *)
From Coq Require Import List NArith Bool.
Import ListNotations.
From DDP Require Import Types.Ty Types.TyProofs Types.Assign Types.AssignProofs.
Open Scope N_scope.

(* ---- Equal (and DeepEqual) are equivalence relations, for all types ------------------------------ *)
Theorem C14_equal_equivalence :
  (forall t, equal t t = true) /\ (forall a b, equal a b = equal b a) /\
  (forall a b c, equal a b = true -> equal b c = true -> equal a c = true).
Proof. exact (kernel_equiv underlying). Qed.
Print Assumptions C14_equal_equivalence.

Theorem C14_deep_equal_equivalence :
  (forall t, deep_equal t t = true) /\ (forall a b, deep_equal a b = deep_equal b a) /\
  (forall a b c, deep_equal a b = true -> deep_equal b c = true -> deep_equal a c = true).
Proof. exact (kernel_equiv true_list_underlying). Qed.
Print Assumptions C14_deep_equal_equivalence.

(* ---- alias transparency: everywhere (inside list types, behind further aliases), any depth ------- *)
Theorem C14_alias_transparent_everywhere :
  forall (c : ctx) (i : N) (t : ty), equal (plug c (Alias i t)) (plug c t) = true.
Proof. intros c i t. rewrite equal_plug. apply equal_alias. Qed.
Print Assumptions C14_alias_transparent_everywhere.

Theorem C14_alias_chain_transparent :
  forall (ids : list N) (t : ty), equal (aliases ids t) t = true.
Proof. induction ids as [|i r IH]; intros t; cbn [aliases]; [apply equal_refl|rewrite equal_alias_l; apply IH]. Qed.
Print Assumptions C14_alias_chain_transparent.

(* an alias answers every equivalence question exactly as its target does *)
Theorem C14_alias_substitutable :
  forall i t x, equal (Alias i t) x = equal t x /\ equal x (Alias i t) = equal x t.
Proof. split; reflexivity. Qed.
Print Assumptions C14_alias_substitutable.

(* Equal is a congruence for those contexts *)
Theorem C14_equal_congruence : forall c a b, equal (plug c a) (plug c b) = equal a b.
Proof. exact equal_plug. Qed.
Print Assumptions C14_equal_congruence.

(* Equal is EXACTLY the least list-congruence identifying aliases with their targets, provided ids
   identify objects (the model's reading of pointer identity) *)
Theorem C14_equal_iff_declarative :
  forall a b, wf_types [a; b] = true -> (equal a b = true <-> teq a b).
Proof.
  intros a b Hwf; split; [|apply teq_sound].
  intros H. apply (equal_same_underlying a b Hwf) in H.
  eapply teq_trans; [apply teq_underlying|]. rewrite H. apply teq_sym, teq_underlying.
Qed.
Print Assumptions C14_equal_iff_declarative.
Example C14_equal_iff_declarative_nonvacuous :
  wf_types [ex_haus; ex_zeiger; ex_nummer; ex_db; List (Alias 6 (List ex_haus))] = true.
Proof. exact ex_wf. Qed.

Theorem C14_def_opaque_everywhere :
  forall c i u, wf_types [Def i u] = true -> equal (plug c (Def i u)) (plug c u) = false.
Proof. intros c i u H. rewrite equal_plug. apply def_opaque, H. Qed.
Print Assumptions C14_def_opaque_everywhere.
Example C14_def_opaque_nonvacuous : wf_types [ex_db] = true /\ equal ex_db (Alias 5 ex_zeiger) = false.
Proof. exact ex_def_opaque_hyp. Qed.

Theorem C14_def_equal_iff_same_id : forall i u j v, equal (Def i u) (Def j v) = (i =? j).
Proof. exact def_equal_iff_same_id. Qed.
Print Assumptions C14_def_equal_iff_same_id.

Theorem C14_def_equal_iff_same_object :
  forall i u j v, wf_types [Def i u; Def j v] = true -> (equal (Def i u) (Def j v) = true <-> Def i u = Def j v).
Proof.
  intros i u j v Hwf; split; intros H; [|rewrite H; apply equal_refl].
  exact (equal_same_underlying _ _ Hwf H).
Qed.
Print Assumptions C14_def_equal_iff_same_object.
Example C14_def_equal_iff_same_object_nonvacuous : wf_types [ex_haus; ex_zeiger] = true /\ equal ex_haus ex_zeiger = false.
Proof. exact ex_same_object_hyp. Qed.

Theorem C14_def_distinct_same_base : forall i j u, i <> j -> equal (Def i u) (Def j u) = false.
Proof. intros i j u H. rewrite def_equal_iff_same_id. apply N.eqb_neq, H. Qed.
Print Assumptions C14_def_distinct_same_base.

Theorem C14_init_assign_agree : forall t v, is_generic t = false -> init_ok t v = assign_ok t v.
Proof. exact init_assign_agree. Qed.
Print Assumptions C14_init_assign_agree.
Example C14_init_assign_agree_nonvacuous :
  is_generic ex_nummer = false /\ init_ok ex_nummer (Prim PByte) = true /\ init_ok ex_nummer (Prim PText) = false.
Proof. exact ex_agree_hyp. Qed.

Theorem C14_assign_char :
  forall t v, assign_ok t v = true <->
    equal t v = true \/ (is_numeric t = true /\ is_numeric v = true) \/ (equal t Any = true /\ equal v Void = false).
Proof. exact assign_char. Qed.
Print Assumptions C14_assign_char.

Theorem C14_init_char :
  forall t v, is_generic t = false ->
    (init_ok t v = true <->
     equal t v = true \/ (is_numeric t = true /\ is_numeric v = true) \/ (equal t Any = true /\ equal v Void = false)).
Proof. intros t v H. rewrite (init_assign_agree t v H). apply assign_char. Qed.
Print Assumptions C14_init_char.

Theorem C14_def_no_implicit_conversion :
  forall i u, wf_types [Def i u] = true -> is_any u = false ->
    assign_ok (Def i u) u = false /\ assign_ok u (Def i u) = false /\
    init_ok (Def i u) u = false /\ init_ok u (Def i u) = is_generic u.
Proof.
  intros i u Hwf Hany.
  assert (E1 : equal (Def i u) u = false) by (apply def_opaque; exact Hwf).
  assert (E2 : equal u (Def i u) = false) by (rewrite equal_sym; exact E1).
  assert (E3 : equal u Any = false) by (rewrite <- is_any_equal; exact Hany).
  unfold assign_ok, init_ok. rewrite E1, E2, E3.
  change (is_numeric (Def i u)) with false. change (equal (Def i u) Any) with false.
  change (is_generic (Def i u)) with false. cbn. rewrite !andb_false_r. cbn.
  repeat split; try reflexivity. destruct (is_generic u); reflexivity.
Qed.
Print Assumptions C14_def_no_implicit_conversion.
Example C14_def_no_implicit_conversion_nonvacuous : wf_types [ex_haus] = true /\ is_any ex_zahl = false.
Proof. exact ex_no_implicit_hyp. Qed.

(* ---- explicit conversion of definitions (value context: `e als T`) -------------------------------- *)
Theorem C14_cast_def_rule :
  forall lhs target,
    is_any lhs = false -> is_any target = false -> is_type_def lhs || is_type_def target = true ->
    (cast_ok lhs target = true <->
     (exists b, cast_type_def lhs = Some b /\ equal b target = true) \/
     (exists b, cast_type_def target = Some b /\ equal b lhs = true)).
Proof. intros lhs target Hl Ht Hd. rewrite cast_ok_def by assumption. apply def_ruleb_spec. Qed.
Print Assumptions C14_cast_def_rule.
Example C14_cast_def_rule_nonvacuous :
  is_any ex_db = false /\ is_any ex_zeiger = false /\ is_type_def ex_db || is_type_def ex_zeiger = true /\
  cast_ok ex_db ex_zeiger = true /\ cast_ok ex_db ex_zahl = false /\ cast_ok ex_haus ex_zeiger = false.
Proof. exact ex_cast_rule_hyp. Qed.

Theorem C14_cast_def_base_ok : forall i u, cast_ok (Def i u) u = true /\ cast_ok u (Def i u) = true.
Proof.
  intros i u. unfold cast_ok. change (is_any (Def i u)) with false. change (is_void (Def i u)) with false.
  change (cast_type_def (Def i u)) with (Some u). cbn [orb andb negb]. rewrite andb_true_r, orb_false_r.
  destruct (is_any u); [split; reflexivity|].
  destruct (cast_type_def u); rewrite ?equal_refl, ?orb_true_r; split; reflexivity.
Qed.
Print Assumptions C14_cast_def_base_ok.

Theorem C14_cast_def_to_plain :
  forall i u t, is_type_def t = false -> is_any t = false ->
    cast_ok (Def i u) t = equal t u /\ cast_ok t (Def i u) = equal t u.
Proof.
  intros i u t Hd Ha. rewrite is_type_def_cast in Hd. unfold cast_ok. rewrite Ha.
  change (is_any (Def i u)) with false. change (cast_type_def (Def i u)) with (Some u). cbn [orb andb].
  destruct (cast_type_def t); [discriminate Hd|]. split; reflexivity.
Qed.
Print Assumptions C14_cast_def_to_plain.
Example C14_cast_def_to_plain_nonvacuous : is_type_def (List ex_nummer) = false /\ is_any (List ex_nummer) = false.
Proof. exact ex_cast_plain_hyp. Qed.

Theorem C14_cast_def_distinct :
  forall i j u, wf_types [Def i u; Def j u] = true -> i <> j -> cast_ok (Def i u) (Def j u) = false.
Proof. intros i j u Hwf _. rewrite cast_ok_def by reflexivity. apply def_ruleb_distinct, Hwf. Qed.
Print Assumptions C14_cast_def_distinct.
Example C14_cast_def_distinct_nonvacuous : wf_types [Def 1 ex_zahl; Def 2 ex_zahl] = true /\ 1 <> 2.
Proof. exact ex_cast_distinct_hyp. Qed.

(* ---- reference context (`x als T` as assignment target / Referenz argument): the SAME rule ---------- *)
Theorem C14_cast_assignable_def_rule :
  forall lhs target,
    wf_types [lhs; target] = true -> is_type_def lhs || is_type_def target = true ->
    (cast_assignable_ok lhs target = true <->
     equal lhs target = true \/
     (exists b, cast_type_def lhs = Some b /\ equal b target = true) \/
     (exists b, cast_type_def target = Some b /\ equal b lhs = true)).
Proof.
  intros lhs target Hwf Hd. rewrite cast_assignable_def, orb_true_iff, def_ruleb_spec by assumption. reflexivity.
Qed.
Print Assumptions C14_cast_assignable_def_rule.
Example C14_cast_assignable_def_rule_nonvacuous :
  wf_types [ex_db; ex_zeiger] = true /\ is_type_def ex_db || is_type_def ex_zeiger = true /\
  cast_assignable_ok ex_db ex_zeiger = true /\ cast_assignable_ok ex_db ex_haus = false /\ cast_assignable_ok ex_haus ex_zeiger = false.
Proof. exact ex_cast_assignable_hyp. Qed.

(* the reference cast and the value cast agree wherever a definition is converted *)
Theorem C14_cast_assignable_matches_cast :
  forall lhs target,
    wf_types [lhs; target] = true -> is_any lhs = false -> is_any target = false ->
    is_type_def lhs || is_type_def target = true ->
    cast_assignable_ok lhs target = equal lhs target || cast_ok lhs target.
Proof. intros lhs target Hwf Hl Ht Hd. rewrite cast_assignable_def, cast_ok_def by assumption. reflexivity. Qed.
Print Assumptions C14_cast_assignable_matches_cast.

Theorem C14_cast_assignable_def_distinct :
  forall i j u, wf_types [Def i u; Def j u] = true -> i <> j -> cast_assignable_ok (Def i u) (Def j u) = false.
Proof.
  intros i j u Hwf Hij. rewrite cast_assignable_def, def_ruleb_distinct, def_equal_iff_same_id by (assumption || reflexivity).
  rewrite orb_false_r. apply N.eqb_neq, Hij.
Qed.
Print Assumptions C14_cast_assignable_def_distinct.

Theorem C14_cast_assignable_base_ok :
  forall i u, cast_assignable_ok (Def i u) u = true /\ cast_assignable_ok u (Def i u) = true.
Proof.
  intros i u. unfold cast_assignable_ok. cbn [true_underlying]. change (cast_type_def (Def i u)) with (Some u).
  rewrite !equal_refl. split.
  - match goal with |- (if ?c then _ else _) = _ => destruct c end; [|reflexivity]. apply orb_true_r.
  - match goal with |- (if ?c then _ else _) = _ => destruct c end; reflexivity.
Qed.
Print Assumptions C14_cast_assignable_base_ok.

(* it only ever relates types with the same representation *)
Theorem C14_cast_assignable_representation :
  forall a b, wf_types [a; b] = true -> cast_assignable_ok a b = true -> deep_equal a b = true.
Proof.
  intros a b Hwf H. apply cast_assignable_valid in H. unfold equal in H. rewrite !true_underlying_fixed in H.
  apply wf_types_spec in Hwf. cbn [flat_map] in Hwf. rewrite app_nil_r in Hwf.
  apply ty_eqb_eq_consistent in H.
  - unfold deep_equal. rewrite <- (tlu_true_underlying a), <- (tlu_true_underlying b), H. apply ty_eqb_refl.
  - intros x y Hx Hy. apply Hwf; apply in_or_app; [left|right]; apply nodes_true_underlying; assumption.
Qed.
Print Assumptions C14_cast_assignable_representation.

(* ---- ADDITIONAL positions (not part of the property's "initialisation and assignment" sentence): call
   arguments and returned values.  Which of {equivalent, numeric-for-numeric, anything-but-nothing for
   Variable} each accepts. -------------------------------------------------------------------------------- *)
(* value parameter: exactly the equivalent types *)
Theorem C14_arg_char :
  forall param arg assignable text_index, arg_ok false assignable text_index param arg = equal param arg.
Proof. intros param arg assignable text_index. unfold arg_ok. cbn. apply equal_sym. Qed.
Print Assumptions C14_arg_char.

(* Referenz parameter: an assignable argument of an EQUAL type (no numeric conversion, no Variable rule) *)
Theorem C14_ref_arg_needs_equal :
  forall param arg assignable text_index,
    arg_ok true assignable text_index param arg = true -> assignable = true /\ equal param arg = true.
Proof.
  intros param arg assignable text_index. unfold arg_ok. cbn [andb negb]. intros H.
  apply andb_true_iff in H. destruct H as [H E]. apply andb_true_iff in H. destruct H as [H _].
  rewrite equal_sym. split; [|exact E]. destruct assignable; [reflexivity| discriminate H].
Qed.
Print Assumptions C14_ref_arg_needs_equal.
Example C14_ref_arg_needs_equal_nonvacuous :
  arg_ok true true false ex_nummer (Prim PZahl) = true /\ arg_ok true true false (Prim PKommazahl) (Prim PZahl) = false.
Proof. vm_compute. split; reflexivity. Qed.

Theorem C14_ref_arg_char :
  forall param arg assignable text_index,
    arg_ok true assignable text_index param arg =
    assignable && negb (equal param (Prim PBuchstabe) && text_index) && equal param arg.
Proof. intros param arg assignable text_index. unfold arg_ok. rewrite (equal_sym arg param). destruct assignable; reflexivity. Qed.
Print Assumptions C14_ref_arg_char.

(* returned value: equivalent, or anything but nothing for Variable; no numeric-for-numeric *)
Theorem C14_return_char :
  forall ret v, return_ok true ret v = true <-> equal v Void = false /\ (equal ret v = true \/ equal ret Any = true).
Proof.
  intros ret v. unfold return_ok. rewrite is_void_equal.
  destruct (equal v Void), (equal ret v), (equal ret Any); cbn; split; intros H; try discriminate H; try reflexivity; intuition congruence.
Qed.
Print Assumptions C14_return_char.

Theorem C14_return_bare_char : forall ret, return_ok false ret Void = equal ret Void.
Proof.
  intros ret. unfold return_ok. cbn [andb orb]. change (equal Void Void) with true. rewrite orb_true_r.
  destruct (equal ret Void); reflexivity.
Qed.
Print Assumptions C14_return_bare_char.

Theorem C14_return_implies_assign : forall ret v, return_ok true ret v = true -> assign_ok ret v = true.
Proof.
  intros ret v H. apply C14_return_char in H. destruct H as [Hv [H|H]]; apply assign_char; [left; exact H| right; right; split; assumption].
Qed.
Print Assumptions C14_return_implies_assign.
Example C14_positions_differ :
  return_ok true (Prim PZahl) (Prim PKommazahl) = false /\ assign_ok (Prim PZahl) (Prim PKommazahl) = true /\ return_ok true Any (Prim PZahl) = true.
Proof. exact return_no_numeric_conversion. Qed.

(* ---- the structurally recursive model functions satisfy the recursion equations of the Go code ---- *)
Theorem C14_true_underlying_go_eq : forall t, true_underlying t = go_true_underlying_body t.
Proof. exact true_underlying_go_eq. Qed.
Print Assumptions C14_true_underlying_go_eq.

Theorem C14_true_list_underlying_go_eq :
  forall t, true_list_underlying t = match true_underlying t with List e => List (true_list_underlying e) | x => x end.
Proof. exact true_list_underlying_go_eq. Qed.
Print Assumptions C14_true_list_underlying_go_eq.

Theorem C14_list_true_underlying_go_eq :
  forall t, list_true_underlying t = match true_underlying t with List e => list_true_underlying e | x => x end.
Proof. exact list_true_underlying_go_eq. Qed.
Print Assumptions C14_list_true_underlying_go_eq.
