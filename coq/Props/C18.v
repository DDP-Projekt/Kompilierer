(* C18 — foreign C functions see the published value representation. *)
From Coq Require Import List Bool Arith NArith Lia.
Import ListNotations.
From DDP Require Import Gen.AbiTables Lower.Abi Lower.AbiProofs Lower.TypeSpelling Lower.TypeSpellingProofs.

(* The signature the compiler declares for a function (in the declaring module through VisitFuncDecl, in
   an importing module through declareImportedFuncDecl — the same transcription) is, parameter by
   parameter and for every arity, the signature a C compiler derives from the published header
   convention: same symbol, same ABI class of the result and of every parameter, including the layout
   of everything reachable through a pointer. *)
Theorem C18_sig_lowering_is_abi : forall s : signature,
  abi_of_ir (lower_sig s) = abi_of_c (c_sig s) /\ abi_of_ir (lower_sig_imported s) = abi_of_c (c_sig s).
Proof. intros s. rewrite imported_decl_agrees. split; apply sig_lowering_is_abi. Qed.
Print Assumptions C18_sig_lowering_is_abi.

(* Field positions: the index constants the compiler uses for (arr, len, cap), (str, cap) and (vtable_ptr, value)
   are the positions of these fields in the header structs (both re-extracted from /repo on every run). *)
Theorem C18_field_roles_agree :
  go_list_roles = hdr_list_roles /\ go_string_roles = hdr_string_roles /\ go_any_roles = hdr_any_roles.
Proof. repeat split. Qed.
Print Assumptions C18_field_roles_agree.

(* The published convention itself, as a readable statement about c_sig: primitives by value,
   everything else and every Referenz by pointer, a non-primitive result through a leading
   out-pointer with a void return. *)
Theorem C18_published_convention : forall s : signature,
  length (cs_params (c_sig s)) = length (s_params s) + (if ret_is_prim (s_ret s) then 0 else 1) /\
  (ret_is_prim (s_ret s) = false -> cs_ret (c_sig s) = CVoid /\
     exists r, s_ret s = Some r /\ nth_error (cs_params (c_sig s)) 0 = Some (CPtr (c_ty r))) /\
  (forall i p, nth_error (s_params s) i = Some p ->
     nth_error (cs_params (c_sig s)) (i + (if ret_is_prim (s_ret s) then 0 else 1)) =
       Some (if negb (p_ref p) && is_prim (p_ty p) then c_ty (p_ty p) else CPtr (c_ty (p_ty p)))).
Proof.
  intros [n ps r]. unfold c_sig, ret_is_prim. cbn [s_ret s_params s_name].
  destruct r as [r |]; [destruct (is_prim r) eqn:Hp |]; cbn [cs_params cs_ret length]; rewrite map_length.
  1, 3: split; [lia |]; split; [congruence |];
    intros i p H; rewrite Nat.add_0_r, nth_error_map, H; reflexivity.
  split; [lia |]. split.
  - intros _. split; [reflexivity |]. exists r. split; reflexivity.
  - intros i p H. rewrite Nat.add_1_r. cbn [nth_error]. rewrite nth_error_map, H. reflexivity.
Qed.
Print Assumptions C18_published_convention.

(* Around the call of an extern function, for every signature, arity and mix of temporary/variable
   arguments, the emitted plan runs without an ownership error and: every by-value non-primitive
   argument got its own value (copied from a variable, claimed from a temporary) before the call and
   that value is released exactly once after it, by the caller; nothing else is released; no claimed
   temporary stays registered with the scope; the callee receives primitives by value, the caller's own
   storage for a Referenz, the fresh slots otherwise, and the out-slot first; the result becomes an owned
   temporary exactly when it is not primitive. *)
Theorem C18_extern_call_ownership : forall (s : signature) (ks : list argkind),
  length ks = length (s_params s) ->
  exists st,
    run (init_state (temp_indices 0 (s_params s) ks)) (call_plan s ks) = Some st /\
    st_slots st = [] /\ NoDup (st_freed st) /\
    (forall i, In i (st_freed st) <->
       exists p, nth_error (s_params s) i = Some p /\ p_ref p = false /\ is_prim (p_ty p) = false) /\
    st_temps st = [] /\
    st_result_owned st = negb (ret_is_prim (s_ret s)) /\
    (forall i p, nth_error (s_params s) i = Some p ->
       nth_error (st_args st) (i + (if ret_is_prim (s_ret s) then 0 else 1)) =
         Some (if p_ref p then VRefTo i else if is_prim (p_ty p) then VPrim i else VSlot i)) /\
    (ret_is_prim (s_ret s) = false -> nth_error (st_args st) 0 = Some VRet) /\
    (forall i p k, nth_error (s_params s) i = Some p -> nth_error ks i = Some k ->
       p_ref p = false -> is_prim (p_ty p) = false ->
       In (match k with ArgTemp => Claim i | ArgVar => Copy i end) (call_plan s ks) /\
       ~ In (match k with ArgTemp => Copy i | ArgVar => Claim i end) (call_plan s ks)).
Proof. exact extern_call_ownership. Qed.
Print Assumptions C18_extern_call_ownership.

(* A Referenz argument is passed as the address of the caller's own storage and is neither copied,
   claimed nor released. *)
Theorem C18_reference_untouched : forall (s : signature) (ks : list argkind) (i : nat) (p : param),
  length ks = length (s_params s) ->
  nth_error (s_params s) i = Some p -> p_ref p = true ->
  ~ In (Copy i) (call_plan s ks) /\ ~ In (Claim i) (call_plan s ks) /\
  ~ In (FreeArg (i + (if ret_is_prim (s_ret s) then 0 else 1))) (call_plan s ks) /\
  In (PassRef i) (call_plan s ks).
Proof.
  intros s ks i p Hlen Hp Hr.
  assert (Hno : forall q, nth_error (s_params s) i = Some q -> owns q = true -> False).
  { intros q Hq Ho. apply owns_true in Ho. destruct Ho. congruence. }
  split; [| split; [| split]].
  - intros H. apply (plan_make s ks ArgVar) in H. destruct H as (q & Hq & _ & Ho). exact (Hno q Hq Ho).
  - intros H. apply (plan_make s ks ArgTemp) in H. destruct H as (q & Hq & _ & Ho). exact (Hno q Hq Ho).
  - intros H. apply plan_free in H. destruct H as (j & q & Hq & Ho & E).
    assert (j = i) by (destruct (ret_is_prim (s_ret s)); lia). subst j. exact (Hno q Hq Ho).
  - exact (plan_passref s ks i p Hlen Hp Hr).
Qed.
Print Assumptions C18_reference_untouched.

(* The symbol of an extern function is its declared name in every module, whatever the module hash. *)
Theorem C18_extern_not_mangled :
  forall (M : Type) (modhash : M -> str) (d : fdecl) (m : M),
    d_extern d = true -> mangled_name M modhash d m = d_name d.
Proof. intros M h d m H. unfold mangled_name. rewrite H. reflexivity. Qed.
Print Assumptions C18_extern_not_mangled.

(* Generic extern functions (declared once from the generic declaration; T only inside a Referenz or a list):
   the declared IR signature agrees with the published one (ddpgenericlist*, ddpgenericlistref, ddpgenericref) for
   every arity - exactly on parameters without T, up to untyped pointers on the others - and a declaration
   without type parameters is the non-generic case. *)
Theorem C18_generic_sig_lowering_compat : forall s : gsignature,
  ab_name (abi_of_ir (lower_gsig s)) = ab_name (abi_of_c (c_gsig s)) /\
  compat (ab_ret (abi_of_ir (lower_gsig s))) (ab_ret (abi_of_c (c_gsig s))) /\
  Forall2 compat (ab_params (abi_of_ir (lower_gsig s))) (ab_params (abi_of_c (c_gsig s))).
Proof.
  intros [n gs r]. unfold lower_gsig, c_gsig, abi_of_ir, abi_of_c. cbn [g_name g_params g_ret].
  destruct r as [[r |] |]; cbn [gret_is_prim ret_is_prim].
  - destruct (is_prim r) eqn:Hp; cbn [negb is_name is_ret is_params cs_name cs_ret cs_params ab_name ab_ret ab_params map].
    + split; [reflexivity |]. split; [left; apply ty_rep_agree | apply gparams_compat].
    + split; [reflexivity |]. split; [left; reflexivity |].
      constructor; [left; cbn [ll_rep c_rep]; rewrite ty_rep_agree; reflexivity | apply gparams_compat].
  - cbn [negb is_name is_ret is_params cs_name cs_ret cs_params ab_name ab_ret ab_params map].
    split; [reflexivity |]. split; [left; reflexivity | apply gparams_compat].
  - cbn [negb is_name is_ret is_params cs_name cs_ret cs_params ab_name ab_ret ab_params map].
    split; [reflexivity |]. split; [left; reflexivity |].
    constructor; [right; reflexivity | apply gparams_compat].
Qed.
Print Assumptions C18_generic_sig_lowering_compat.

Theorem C18_generic_declaration_generalises : forall s : signature,
  lower_gsig (gsig_of s) = lower_sig s /\ c_gsig (gsig_of s) = c_sig s.
Proof.
  intros [n ps r]. unfold lower_gsig, c_gsig, gsig_of, lower_sig, c_sig.
  cbn [g_name g_params g_ret s_name s_params s_ret gret_is_prim]. rewrite !map_map.
  destruct r as [r |]; cbn [ret_is_prim]; [destruct (is_prim r) |]; cbn [negb]; split; reflexivity.
Qed.
Print Assumptions C18_generic_declaration_generalises.

(* The call of a generic extern function: the by-value list argument that was passed as ddpgenericlist* is cast
   back and released from exactly its own slot (index shifted behind an out-pointer), and the plan ends in the same
   ownership state as the plain plan of C18_extern_call_ownership: every value made for the call released exactly
   once, nothing else, result owned. *)
Theorem C18_generic_extern_call_ownership : forall (s : signature) (gs : list bool) (ks : list argkind),
  length ks = length (s_params s) ->
  exists st,
    run (init_state (temp_indices 0 (s_params s) ks)) (call_plan_g s gs ks) = Some st /\
    run (init_state (temp_indices 0 (s_params s) ks)) (call_plan s ks) = Some st /\
    st_slots st = [] /\ NoDup (st_freed st) /\ st_temps st = [] /\
    st_result_owned st = negb (ret_is_prim (s_ret s)) /\
    (forall k, In (FreeArgCast k) (call_plan_g s gs ks) ->
       exists i p, nth_error (s_params s) i = Some p /\ p_ref p = false /\ is_list (p_ty p) = true /\
                   nth_error gs i = Some true /\
                   k = i + (if ret_is_prim (s_ret s) then 0 else 1) /\
                   nth_error (st_args st) k = Some (VSlot i)).
Proof.
  intros s gs ks Hlen.
  destruct (extern_call_ownership s ks Hlen) as [st [Hrun [Hs [Hnd [_ [Ht [Hr [Hargs _]]]]]]]].
  exists st. split; [rewrite run_erase, call_plan_g_erase; exact Hrun |].
  split; [exact Hrun |]. split; [exact Hs |]. split; [exact Hnd |]. split; [exact Ht |]. split; [exact Hr |].
  intros k H. destruct (plan_cast s gs ks k H) as (i & p & Hp & Href & Hprim & Hl & Hg & ->).
  exists i, p. repeat split; try assumption. rewrite (Hargs i p Hp), Href, Hprim. reflexivity.
Qed.
Print Assumptions C18_generic_extern_call_ownership.

(* Frontend tie: every spelling a declaration can use for a parameter type - singular/plural, Liste/Listen, with and
   without Referenz, parenthesised by-value forms, for the five primitives, Text, Variable and any named type (Kombination,
   typedef, alias, type parameter) - parses to exactly the type and the IsReference flag it spells, consumes exactly its own
   tokens and raises no diagnostic. (What the lowering receives is compared by the check, not stated
   here.) *)
Theorem C18_declared_spelling_parses : forall (b : sbase) (f : form) (rest : list tok),
  type_ends rest ->
  parse_reference_type (spelled b f ++ rest) =
    Some {| pr_ty := meant_ty b f; pr_ref := meant_ref f; pr_diag := 0; pr_rest := rest |}.
Proof.
  intros b f rest [E | [r E]]; subst rest;
    destruct b as [[| | | |] | | | n]; destruct f; reflexivity.
Qed.
Print Assumptions C18_declared_spelling_parses.

(* non-vacuity *)
Definition ex_paar : ty := TStruct [TPrim PZahl; TText].
Definition ex_sig : signature :=
  {| s_name := [102]%N;
     s_params := [ {| p_ty := TPrim PWahrheitswert; p_ref := false |};
                   {| p_ty := TText; p_ref := false |};
                   {| p_ty := TList TText; p_ref := true |};
                   {| p_ty := TNamed ex_paar; p_ref := false |};
                   {| p_ty := TPrim PByte; p_ref := true |} ];
     s_ret := Some TVariable |}.

Example C18_ex_lowering :
  abi_of_ir (lower_sig ex_sig) =
  {| ab_name := [102]%N; ab_ret := RVoid;
     ab_params := [ RPtr (RStruct [RPtr (RInt 8); RBlob 16]);                              (* ddpany *ret *)
                    RBool;                                                                  (* ddpbool *)
                    RPtr (RStruct [RPtr (RInt 8); RInt 64]);                                (* ddpstring * *)
                    RPtr (RStruct [RPtr (RStruct [RPtr (RInt 8); RInt 64]); RInt 64; RInt 64]); (* ddpstringlist * *)
                    RPtr (RStruct [RInt 64; RStruct [RPtr (RInt 8); RInt 64]]);             (* Paar * *)
                    RPtr (RInt 8) ] |}.                                                     (* ddpbyte * *)
Proof. reflexivity. Qed.

Example C18_ex_published : cs_ret (c_sig ex_sig) = CVoid /\ length (cs_params (c_sig ex_sig)) = 6 /\
  nth_error (cs_params (c_sig ex_sig)) 1 = Some CBool /\ nth_error (cs_params (c_sig ex_sig)) 5 = Some (CPtr CUInt8).
Proof. vm_compute. repeat split. Qed.

Example C18_ex_plan :
  call_plan ex_sig [ArgVar; ArgTemp; ArgVar; ArgVar; ArgVar] =
  [AllocRet; PassValue 0; Claim 1; PassRef 2; Copy 3; PassRef 4; Call; ResultTemp; FreeArg 2; FreeArg 4] /\
  exists st, run (init_state (temp_indices 0 (s_params ex_sig) [ArgVar; ArgTemp; ArgVar; ArgVar; ArgVar]))
                 (call_plan ex_sig [ArgVar; ArgTemp; ArgVar; ArgVar; ArgVar]) = Some st /\
             st_freed st = [1; 3] /\ st_result_owned st = true.
Proof. split; [reflexivity |]. eexists. split; [vm_compute; reflexivity |]. split; reflexivity. Qed.

Example C18_ex_reference : p_ref {| p_ty := TList TText; p_ref := true |} = true /\
  In (PassRef 2) (call_plan ex_sig [ArgVar; ArgTemp; ArgVar; ArgVar; ArgVar]).
Proof. split; [reflexivity |]. vm_compute. tauto. Qed.

(* the semantics does reject wrong plans: dropping the "+1" of the free loop releases the out-slot *)
Example C18_ex_wrong_index_rejected : run (init_state []) [AllocRet; Copy 0; Call; ResultTemp; FreeArg 0] = None.
Proof. reflexivity. Qed.

Example C18_ex_names :
  let h := fun m : nat => [N.of_nat m] in
  mangled_name nat h {| d_name := [102]%N; d_extern := true; d_extern_visible := false; d_generic_suffix := None |} 1 = [102]%N /\
  mangled_name nat h {| d_name := [102]%N; d_extern := false; d_extern_visible := false; d_generic_suffix := None |} 1
    = [102; 95; 109; 111; 100; 95; 1]%N.
Proof. split; reflexivity. Qed.

(* generic: "g mit l vom Typ T Liste, r vom Typ T Listen Referenz, e vom Typ T Referenz, gibt einen Text zurück" *)
Definition ex_gsig : gsignature :=
  {| g_name := [103]%N; g_params := [GConcrete {| p_ty := TPrim PZahl; p_ref := false |}; GListVal; GRef true; GRef false];
     g_ret := GRetConcrete (Some TText) |}.
Example C18_ex_generic_lowering :
  is_params (lower_gsig ex_gsig) =
    [LPtr (LStruct [LPtr LI8; LI64]); LI64; LPtr (LStruct [LPtr LI8; LI64; LI64]); LPtr LI8; LPtr LI8] /\
  cs_params (c_gsig ex_gsig) =
    [CPtr (CStruct [CPtr CChar; CInt64]); CInt64; CPtr (CStruct [CPtr CVoid; CInt64; CInt64]);
     CPtr (CStruct [CPtr CVoid; CInt64; CInt64]); CPtr CVoid].
Proof. split; reflexivity. Qed.

(* instantiated with T = Zahl, Text result: the cast-and-release hits args[2+1]; the un-shifted index is rejected *)
Definition ex_inst : signature :=
  {| s_name := [103]%N;
     s_params := [ {| p_ty := TPrim PZahl; p_ref := false |}; {| p_ty := TList (TPrim PZahl); p_ref := false |};
                   {| p_ty := TList (TPrim PZahl); p_ref := true |}; {| p_ty := TPrim PZahl; p_ref := true |} ];
     s_ret := Some TText |}.
Example C18_ex_generic_plan :
  call_plan_g ex_inst [false; true; true; true] [ArgVar; ArgVar; ArgVar; ArgVar] =
  [AllocRet; PassValue 0; Copy 1; PassRef 2; PassRef 3; Call; ResultTemp; FreeArgCast 2] /\
  run (init_state []) [AllocRet; PassValue 0; Copy 1; PassRef 2; PassRef 3; Call; ResultTemp; FreeArgCast 1] = None.
Proof. split; vm_compute; reflexivity. Qed.

(* "Variablen Listen Referenz" is a reference to a list of Variable; without the word Referenz it is diagnosed *)
Example C18_ex_spelling :
  parse_reference_type [TkVariablen; TkListen; TkReferenz; TkOther] =
    Some {| pr_ty := SList SVariable; pr_ref := true; pr_diag := 0; pr_rest := [TkOther] |} /\
  type_ends [TkOther] /\
  match parse_reference_type [TkVariablen; TkListen; TkOther] with Some p => pr_diag p = 1 | None => False end.
Proof. split; [reflexivity |]. split; [right; eexists; reflexivity | reflexivity]. Qed.
