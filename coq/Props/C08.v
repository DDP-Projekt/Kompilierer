(* C08 — values are copied; only Referenz parameters alias.
   Model: Lower/Opt2.v (machine with variable slots and buffers; `exec false` = every value parameter
   is a fresh copy: the language rule and what -O0/-O1 emit; `exec true` = the -O2 elision driven by
   the transcription `analyse` of const_func_param.go).
   The statements; the proofs are lemmas of Lower/Opt2*.v, or stand here where they are a few lines over those
   lemmas; each is followed by Print Assumptions. *)
From Coq Require Import List ZArith Bool.
Import ListNotations.
From DDP Require Import Lower.Opt2 Lower.Opt2Base Lower.Opt2Copy Lower.Opt2CopyThms Lower.Opt2Witness Lower.Opt2Safe Lower.Opt2Cons Lower.Opt2ElideThm Lower.Opt2Full.

(* copy_noninterference.  Sep X st: every variable that holds a Text/list holds a live buffer no
   other variable, temporary or other holder (X) shares.  Executing ANY single statement in copy
   mode — initialisation, assignment, element/character assignment, compound assignment, a call
   with value and Referenz arguments and a result, if, for-each — re-establishes Sep (so every
   copy-introducing construct yields a holder of its own) and changes the value seen through no
   variable other than the statement's targets (`targets`): the assigned variable; for a call only the
   destination, the Referenz arguments and the globals — never a variable passed by value.  For if and
   for-each the targets are all variables the statement can name: for these two the statement is the
   frame property of C08_copy_frame. *)
Theorem C08_copy_noninterference :
  forall mt funs genv fuel X e s st st',
    exec false mt funs genv fuel e [s] st = Ok st' ->
    Sep X st -> tmps st = [] -> env_ok genv e st ->
    Sep X st' /\
    forall b, b < length (vars st) -> ~ targets genv e s b -> value_of st' b = value_of st b.
Proof. exact copy_noninterference. Qed.
Print Assumptions C08_copy_noninterference.

(* the same for whole blocks (nested calls, loops, recursion up to the fuel): a block changes no
   variable it cannot name *)
Theorem C08_copy_frame :
  forall mt funs genv fuel X e ss st st',
    exec false mt funs genv fuel e ss st = Ok st' ->
    Sep X st -> tmps st = [] -> env_ok genv e st ->
    Sep X st' /\
    forall b, b < length (vars st) -> ~ In b (map snd e) -> value_of st' b = value_of st b.
Proof.
  intros mt funs genv fuel X e ss st st' H HS Ht He.
  destruct (exec_copy_ok mt funs genv fuel _ _ _ _ _ H HS Ht He) as [A1 A2 A0 A3 A4].
  split; auto. intros b Hb Hn. apply keeps_value. apply A4; auto.
Qed.
Print Assumptions C08_copy_frame.

(* a copy really is one: `Der Text y ist x.` gives y the value of x in a buffer of its own *)
Theorem C08_copy_init_value :
  forall X e y x a st e' st',
    do_decl e y (EVar x) st = Ok (e', st') -> Sep X st -> tmps st = [] -> lookup e x = Some a ->
    let b := length (vars st) in
    lookup e' y = Some b /\ value_of st' b = value_of st a /\ value_of st' a = value_of st a /\
    (forall l l', ptr_at st' a l -> ptr_at st' b l' -> l <> l').
Proof. exact copy_init_value. Qed.
Print Assumptions C08_copy_init_value.

(* the initial state and the initialisation of the globals establish the invariant *)
Theorem C08_start_separated :
  forall gs e' st',
    init_globals gs [] st0 = Ok (e', st') ->
    Sep [] st' /\ tmps st' = [] /\ (forall a, In a (map snd e') -> a < length (vars st')) /\ out st' = out st0.
Proof.
  exact (fun gs e' st' H => init_globals_spec gs [] st0 e' st' H Sep_st0 eq_refl (fun a (F : In a []) => match F with end)).
Qed.
Print Assumptions C08_start_separated.

(* ref_visible.  In a call, every Referenz parameter is bound to the storage of its argument
   variable (the same storage for every occurrence of one variable, the global's storage for a
   global); what the callee sees through the parameter when its body ends is what the caller sees
   in that variable after the call; and the call changes nothing else of the caller but globals
   and the destination. *)
Theorem C08_ref_visible :
  forall mt funs genv fuel X e dst f args st st',
    do_call false mt funs genv (exec false mt funs genv fuel) e dst f args st = Ok st' ->
    Sep X st -> tmps st = [] -> env_ok genv e st ->
    exists fd ce st1 st2,
      nth_error funs f = Some fd /\
      bind_params false mt args f 0 (fparams fd) args e genv st = Ok (ce, st1) /\
      exec false mt funs genv fuel ce (fbody fd) (set_fbase (set_tmps st1 []) (length (vars st))) = Ok st2 /\
      (NoDup (map pname (fparams fd)) ->
       forall k p x, nth_error (fparams fd) k = Some p -> pref p = true -> nth_error args k = Some (ARef x) ->
         exists a, lookup e x = Some a /\ lookup ce (pname p) = Some a /\
                   (match dst with Some y => lookup e y <> Some a | None => True end -> value_of st' a = value_of st2 a)) /\
      (forall b, b < length (vars st) ->
         ~ (match dst with Some y => lookup e y = Some b | None => False end) ->
         ~ In b (ref_addrs e args) -> ~ In b (map snd genv) -> value_of st' b = value_of st b).
Proof. exact ref_visible. Qed.
Print Assumptions C08_ref_visible.

(* The -O 2 elision.  Without the call-site predicate `may_elide` and the rule `seen_const` for self calls (in /repo:
   91b5d4a, which added mayElideArgCopy and made the analysis count a self call as a write)
   `run_elide fuel p = run_copy fuel p` fails on four programs found by checks/c08.py on the real compiler: f(t, t)
   with a value and a Referenz parameter (freed storage; changed storage), a callee writing a global it received by
   value, a value parameter handed on by Referenz in a self call.  On these four both modes agree: *)
Theorem C08_former_witnesses_repaired :
  run_elide 50 w_same_var = run_copy 50 w_same_var /\
  run_elide 50 w_same_var_inplace = run_copy 50 w_same_var_inplace /\
  run_elide 50 w_global = run_copy 50 w_global /\
  run_elide 50 w_recursion = run_copy 50 w_recursion.
Proof. exact witnesses_agree. Qed.
Print Assumptions C08_former_witnesses_repaired.

(* Generic instantiations.  With the table of an annotator that registers an instantiation with all parameters
   "constant" without visiting its body (/repo f920b86; replayed on the real compiler by checks/c08.py) the callee's
   element assignment lands in the caller's LOCAL list at -O 2 (first two facts).  `analyse` mirrors 9b42dd9 (the
   annotator visits the body of an instantiation): an instantiation made in the declaring module is analysed like
   any function; one made from another module has no table (`fnometa`) and is never elided.  `C08_elision_sound`
   below quantifies over both kinds. *)
Theorem C08_generic_instantiation_witness :
  run_with true [[true; true]; [true]] 50 (w_generic false) = Ok [OSeq [9; 2; 3]; OSeq [9; 2; 3]]%Z /\
  run_with false [[true; true]; [true]] 50 (w_generic false) = Ok [OSeq [1; 2; 3]; OSeq [9; 2; 3]]%Z /\
  analyse (pfuns (w_generic false)) = [[false; true]; [true]] /\
  run_elide 50 (w_generic false) = Ok [OSeq [1; 2; 3]; OSeq [9; 2; 3]]%Z /\
  analyse (pfuns (w_generic true)) = [[false; false]; [true]] /\
  run_elide 50 (w_generic true) = Ok [OSeq [1; 2; 3]; OSeq [9; 2; 3]]%Z.
Proof. repeat split; vm_compute; reflexivity. Qed.
Print Assumptions C08_generic_instantiation_witness.

(* Forward declared functions and overloaded operators.  With a table that keeps "constant" for the parameter of a
   forward declared function whose body writes it, the caller's local list is freed while it is still in use (first
   fact; on the real compiler a double free at -O 2, checks/c08.py).  `analyse` mirrors 394dd9c (the body of a
   forward declared function is analysed at its declaration: in the model the function stands at that position) and
   3530cc0 (the application of an overloaded operator counts as a call of the overloading function).
   `C08_elision_sound` covers such programs. *)
Theorem C08_forward_declaration_witness :
  run_with true [[true]; [true]; [true]] 50 w_forward = Er EUaf /\
  run_with false [[true]; [true]; [true]] 50 w_forward = Ok [OSeq [1; 2; 3]]%Z /\
  analyse (pfuns w_forward) = [[false]; [false]; [true]] /\
  run_elide 50 w_forward = Ok [OSeq [1; 2; 3]]%Z.
Proof. repeat split; vm_compute; reflexivity. Qed.
Print Assumptions C08_forward_declaration_witness.

(* elision_sound, without hypothesis.  The -O 2 parameter-copy elision never changes the behaviour: for every program
   and every fuel the run with elision equals the run in which every value parameter is a fresh copy.  What the proof
   rests on: the table of `analyse` is consistent for every program (C08_analyse_consistent below), and the predicate
   the compiler evaluates at each call site (`may_elide`: the argument is a variable of the running activation that
   is not also passed by Referenz in the call) establishes dynamically that no borrowed buffer can be reached by
   anything the callee may write (Opt2Full.callee_Ainv).  The third conjunct of `may_elide` (no other argument of
   the call mentions the variable) mirrors the compiler; the proof does not need it, since in the model an argument
   contains no call. *)
Theorem C08_elision_sound :
  forall fuel p, run_elide fuel p = run_copy fuel p.
Proof. exact elision_sound. Qed.
Print Assumptions C08_elision_sound.

(* the analysis (const_func_param.go with the recursive-call rule) is consistent for EVERY program: in the body of
   function j no statement assigns, uses as call destination, or passes by Referenz to a parameter position not
   judged constant, a name that the table of j judges a constant parameter *)
Theorem C08_analyse_consistent :
  forall funs j, j < length funs ->
    all_stmts (stmt_cons_b (analyse funs) funs (Some j)) (fbody (fn funs j)) = true.
Proof. exact analyse_consistent. Qed.
Print Assumptions C08_analyse_consistent.

(* the same conclusion for the programs that pass the decidable check `elide_safe` (Lower/Opt2Safe.v).  The
   hypothesis is not used: this is C08_elision_sound with a premise added. *)
Theorem C08_elision_sound_partial :
  forall fuel p, elide_safe p = true -> run_elide fuel p = run_copy fuel p.
Proof. exact elision_sound_partial. Qed.
Print Assumptions C08_elision_sound_partial.

(* `elide_safe` is satisfiable: `ok_elided`, whose function has a parameter judged constant that receives a local
   variable of the main program, passes it; three of the four witnesses above do not (w_recursion does) *)
Example C08_elision_partial_nonvacuous :
  elide_safe ok_elided = true /\ analyse (pfuns ok_elided) = [[true; false]] /\
  run_elide 50 ok_elided = Ok [OSeq [97%Z; 98%Z]; OSeq [97%Z; 98%Z]; OSeq [117%Z; 97%Z; 98%Z]].
Proof. split; [|split]; vm_compute; reflexivity. Qed.

Example C08_witnesses_violate_side_condition :
  elide_safe w_same_var = false /\ elide_safe w_same_var_inplace = false /\
  elide_safe w_global = false /\ elide_safe w_recursion = true.
Proof. repeat split; vm_compute; reflexivity. Qed.

(* non-vacuity of the hypotheses: a state with two holders of one value satisfies Sep, and the
   statements of the theorems run *)
Example C08_nonvacuous :
  exists e st st',
    init_globals [(0, ELit [97%Z; 98%Z])] [] st0 = Ok (e, st) /\
    Sep [] st /\ tmps st = [] /\ env_ok e e st /\
    exec false [] [] e 10 e [SDecl 1 (EVar 0); SAssignIdx 1 (EInt 1) (EInt 88%Z); SPrint (EVar 0); SPrint (EVar 1)] st = Ok st' /\
    out st' = [OSeq [97%Z; 98%Z]; OSeq [88%Z; 98%Z]].
Proof.
  eexists. eexists. eexists. split; [vm_compute; reflexivity|].
  split; [exact (proj1 (init_globals_spec [(0, ELit [97%Z; 98%Z])] [] st0 _ _ eq_refl Sep_st0 eq_refl (fun a (F : In a []) => match F with end)))|].
  split; [reflexivity|]. split; [split; [cbn; intros a [<-|[]]; auto | apply incl_refl]|].
  split; vm_compute; reflexivity.
Qed.
