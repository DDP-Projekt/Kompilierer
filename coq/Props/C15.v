(* C15 — a generic call behaves like its monomorphic specialisation.
   PROVED here: the type-level mechanism (model coq/Types/Generic.v of src/ddptypes/generic_types.go):
   what a successful unification returns, that a conflicting second binding rejects the call, that
   unification never panics, and that instantiations of a generic Kombination are canonical.
   NOT proved (covered by the program-level differential leg of checks/c15.py only): that the body
   re-parsed under the bindings behaves like the textually specialised function.
   The invariants and the longer arguments are in Types/GenericProofs.v and Types/GenericFunProofs.v. *)
From Coq Require Import List NArith Bool.
Import ListNotations.
From DDP Require Import Types.Ty Types.Generic Types.GenericProofs Types.GenericFun Types.GenericFunProofs.
Open Scope N_scope.

(* FRAGMENT: parameter types built from list-of, type parameters and closed non-Kombination types
   (`T`, `T Liste`, `Zahlen Liste`, ...), no generic Kombination in play (insts st = []).
   A successful UnifyGenericType returns exactly the parameter type with its type parameters replaced
   by their bindings; existing bindings are never changed (first binding wins); no cache is touched. *)
Theorem C15_unify_sound :
  forall arity st arg param σ r σ' st',
    insts st = [] -> simple_param param = true ->
    unify arity st arg param σ = (UOk r, σ', st') ->
    r = subst σ' param /\ env_extends σ σ' /\ st' = st.
Proof. exact unify_sound. Qed.
Print Assumptions C15_unify_sound.
Example C15_unify_sound_nonvacuous :
  insts (gstate0 100) = [] /\ simple_param (List (TParam 1)) = true /\
  fst (fst (unify (fun _ => 0%nat) (gstate0 100) (List (List (Prim PZahl))) (List (TParam 1)) [])) = UOk (List (List (Prim PZahl))).
Proof. vm_compute. repeat split; reflexivity. Qed.

(* SAME FRAGMENT, whole call (what the call sites do: Equal(UnifyGenericType(arg, param, σ), arg) for
   each parameter in order, sharing σ): in an accepted call every argument is equivalent to its
   parameter type after textual replacement of the type parameters by the final bindings. *)
Theorem C15_check_args_sound :
  forall arity args params st σ σ' st',
    insts st = [] -> forallb simple_param params = true ->
    check_args arity st args params σ = (true, σ', st') ->
    env_extends σ σ' /\ Forall2 (fun p a => equal (subst σ' p) a = true) params args.
Proof. exact check_args_sound. Qed.
Print Assumptions C15_check_args_sound.

(* SAME FRAGMENT: binding one type parameter to two different argument types makes the call
   ill-typed — in an accepted call two parameters of the same type received equivalent arguments. *)
Theorem C15_unify_conflict :
  forall arity args params st σ σ' st',
    insts st = [] -> forallb simple_param params = true ->
    check_args arity st args params σ = (true, σ', st') ->
    forall i j p a b, nth_error params i = Some p -> nth_error params j = Some p ->
                      nth_error args i = Some a -> nth_error args j = Some b -> equal a b = true.
Proof. exact unify_conflict. Qed.
Print Assumptions C15_unify_conflict.
Example C15_unify_conflict_nonvacuous :
  fst (fst (check_args (fun _ => 0%nat) (gstate0 100) [Prim PZahl; Prim PText] [TParam 1; TParam 1] [])) = false /\
  fst (fst (check_args (fun _ => 0%nat) (gstate0 100) [List (Prim PZahl); Alias 7 (Prim PZahl)] [List (TParam 1); TParam 1] [])) = true.
Proof. exact unify_conflict_example. Qed.

(* ALL parameter and argument types, ALL cache states in which every recorded instantiation has the
   arity of its generic Kombination (preserved by every operation): UnifyGenericType neither panics
   nor exhausts the fuel of the modelled loops. (False before /repo 36809d8.) *)
Theorem C15_unify_total :
  forall arity st arg param σ,
    inv_len arity st ->
    fst (fst (unify arity st arg param σ)) <> UPanic /\ fst (fst (unify arity st arg param σ)) <> UFuel /\
    inv_len arity (snd (unify arity st arg param σ)).
Proof. exact unify_total. Qed.
Print Assumptions C15_unify_total.
Example C15_unify_total_nonvacuous :
  inv_len (fun _ => 2%nat) (gstate0 100) /\
  (let ar := fun g : N => if g =? 1 then 2%nat else 1%nat in
   let st1 := snd (get_inst ar (gstate0 100) 1 [TParam 7; TParam 8]) in
   let st2 := snd (get_inst ar st1 2 [Prim PZahl]) in
   fst (fst (unify ar st2 (Struct 101) (Struct 100) [])) = UNil).
Proof. split; [apply inv_len_gstate0| exact unify_other_generic_is_nil]. Qed.

(* ALL histories of instantiation requests (GetInstantiatedStructType) from any consistent cache: two
   requests return the same Kombination object iff they name the same generic Kombination with
   pointwise equivalent type arguments ("equal type arguments denote one and the same type, different
   type arguments different types"). *)
Theorem C15_inst_canonical :
  forall arity st reqs1 g1 a1 s1 st1 reqs2 g2 a2 s2 st2,
    GenericProofs.inv st ->
    get_inst arity (state_after arity st reqs1) g1 a1 = (Some s1, st1) ->
    get_inst arity (state_after arity st1 reqs2) g2 a2 = (Some s2, st2) ->
    (s1 = s2 <-> g1 = g2 /\ args_equal a1 a2 = true).
Proof. exact inst_canonical. Qed.
Print Assumptions C15_inst_canonical.
Example C15_inst_canonical_nonvacuous : forall k, GenericProofs.inv (gstate0 k).
Proof. intros k. split; cbn; intros; contradiction. Qed.

(* ---- the per-module cache of generic FUNCTION instantiations (model Types/GenericFun.v of
   parser.InstantiateGenericFunction) ------------------------------------------------------------------------ *)

(* ALL functions (extern or not), ALL histories of requests and body failures from the empty cache: the same
   instantiation is only ever returned for the same generic function, the same key module (the requesting
   module; the declaring module for extern functions) and pointwise-equal parameter types. *)
Theorem C15_fun_inst_sound :
  forall is_extern decl_mod evs1 f1 g1 p1 ps1 r1 s1 evs2 f2 g2 p2 ps2 r2 s2 i,
    fstep is_extern decl_mod (frun is_extern decl_mod fstate0 evs1) (EReq f1 g1 p1 ps1) = (r1, s1) -> result_id r1 = Some i ->
    fstep is_extern decl_mod (frun is_extern decl_mod s1 evs2) (EReq f2 g2 p2 ps2) = (r2, s2) -> result_id r2 = Some i ->
    f1 = f2 /\ key_mod is_extern decl_mod f1 g1 p1 = key_mod is_extern decl_mod f2 g2 p2 /\ params_equal ps1 ps2 = true.
Proof. exact fun_inst_sound. Qed.
Print Assumptions C15_fun_inst_sound.

(* NON-EXTERN functions, all histories: two requests return the same instantiation IFF same generic function,
   same requesting module and pointwise-equal parameter types — provided the body of the first instantiation
   did not fail in between (a failed instantiation is removed, see below). *)
Theorem C15_fun_inst_canonical :
  forall is_extern decl_mod evs1 f1 g1 p1 ps1 r1 s1 i1 evs2 f2 g2 p2 ps2 r2 s2 i2,
    is_extern f1 = false ->
    fstep is_extern decl_mod (frun is_extern decl_mod fstate0 evs1) (EReq f1 g1 p1 ps1) = (r1, s1) -> result_id r1 = Some i1 ->
    no_fail i1 evs2 = true ->
    fstep is_extern decl_mod (frun is_extern decl_mod s1 evs2) (EReq f2 g2 p2 ps2) = (r2, s2) -> result_id r2 = Some i2 ->
    (i1 = i2 <-> f1 = f2 /\ key_mod is_extern decl_mod f1 g1 p1 = key_mod is_extern decl_mod f2 g2 p2 /\ params_equal ps1 ps2 = true).
Proof.
  intros is_extern decl_mod evs1 f1 g1 p1 ps1 r1 s1 i1 evs2 f2 g2 p2 ps2 r2 s2 i2 Hx S1 R1 Hn S2 R2. split.
  - intros E. subst i2. eapply fun_inst_sound; eassumption.
  - intros [Ef [Ek Ep]]. subst f2.
    rewrite (fun_inst_complete is_extern decl_mod evs1 f1 g1 p1 ps1 r1 s1 i1 evs2 g2 p2 ps2 Hx S1 R1 Hn Ek Ep) in S2.
    inversion S2; subst. cbn in R2. congruence.
Qed.
Print Assumptions C15_fun_inst_canonical.
Example C15_fun_inst_canonical_nonvacuous :
  let ie := fun _ : N => false in let dm := fun _ : N => 1 in
  let s1 := snd (fstep ie dm fstate0 (EReq 5 None 2 [(Prim PZahl, false)])) in
  fst (fstep ie dm fstate0 (EReq 5 None 2 [(Prim PZahl, false)])) = New 0 /\
  fst (fstep ie dm s1 (EReq 5 None 2 [(Alias 9 (Prim PZahl), false)])) = Hit 0 /\      (* equal through an alias: same instantiation *)
  fst (fstep ie dm s1 (EReq 5 None 3 [(Prim PZahl, false)])) = New 1 /\                (* another requesting module: another one *)
  fst (fstep ie dm s1 (EReq 5 None 2 [(Prim PZahl, true)])) = New 1.                   (* Referenz differs: another one *)
Proof. vm_compute. repeat split; reflexivity. Qed.

(* a failed instantiation leaves no entry *)
Theorem C15_fun_failed_leaves_no_entry :
  forall is_extern decl_mod st id e, In e (fins (snd (fstep is_extern decl_mod st (EFail id)))) -> fe_id e <> id.
Proof.
  intros is_extern decl_mod st id e. cbn [fstep snd fins]. intros H. apply filter_In in H. destruct H as [_ H].
  intros E. rewrite E, N.eqb_refl in H. discriminate H.
Qed.
Print Assumptions C15_fun_failed_leaves_no_entry.

(* EXTERN generic functions requested from a module other than the declaring one: the "if" direction FAILS on the
   pinned tree — `Instantiations[genericModule] = append(Instantiations[p.module], &decl)` resets the slice of the
   declaring module, so the same instantiation is made again (observable only as duplicated declarations). *)
Theorem C15_fun_inst_extern_refuted :
  exists is_extern decl_mod f pmod a b,
    is_extern f = true /\ pmod <> decl_mod f /\
    let ev x := EReq f None pmod [(x, false)] in
    let s1 := snd (fstep is_extern decl_mod fstate0 (ev a)) in
    let s2 := snd (fstep is_extern decl_mod s1 (ev b)) in
    fst (fstep is_extern decl_mod fstate0 (ev a)) = New 0 /\ fst (fstep is_extern decl_mod s2 (ev a)) = New 2.
Proof. exact fun_inst_extern_refuted. Qed.
Print Assumptions C15_fun_inst_extern_refuted.
