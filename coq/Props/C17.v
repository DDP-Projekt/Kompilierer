(* C17 — Duden list, text, number and sorting functions meet their specification.
   One refinement theorem per covered function: the Gallina transcription of the DDP body / C primitive (coq/Lib/*Fns.v)
   equals, on the documented domain, the Coq list-library expression of its doc comment or a reference function defined
   beside the proofs (_spec); loops are handled by invariants in coq/Lib/*Proofs.v, fuel exhaustion is excluded there.
   args_unchanged: value parameters cannot change in a functional model (a function cannot modify its argument);
   the harness checks it on the real code by printing every argument after the call.
   A theorem whose argument is long, or which other proofs use, is proved in coq/Lib/*Proofs.v and only cited here; the others
   are derived here from the loop invariants and reference functions of those files.  Every theorem with hypotheses is followed
   by a non-vacuity Example that applies it to concrete arguments with all hypotheses discharged. *)
From Coq Require Import List ZArith Bool Lia Permutation Sorted.
From DDP Require Import Lib.Base Lib.BaseProofs Lib.ListFns Lib.ListProofs Lib.NumFns Lib.NumProofs Lib.SortFns Lib.SortProofs Lib.TextFns Lib.TextProofs Lib.TextSearchProofs Lib.ExtraFns Lib.ExtraProofs.
Import ListNotations.
Open Scope Z_scope.

Ltac nv := cbn; first [lia | discriminate | reflexivity | (unfold len; cbn; lia) | (intros H; discriminate H) | (left; discriminate) | (right; discriminate)].

Theorem C17_leere_spec : forall (A : Type) (l : list A), Leere_Liste l = [].
Proof. reflexivity. Qed.
Print Assumptions C17_leere_spec.

Theorem C17_hinzufuegen_spec : forall (A : Type) (l : list A) (x : A), Hinzufuegen_Liste l x = l ++ [x].
Proof. reflexivity. Qed.
Print Assumptions C17_hinzufuegen_spec.

Theorem C17_hinzufuegen_liste_spec : forall (A : Type) (l o : list A), Hinzufuegen_Liste_Liste l o = l ++ o.
Proof. reflexivity. Qed.
Print Assumptions C17_hinzufuegen_liste_spec.

Theorem C17_voranstellen_spec : forall (A : Type) (l : list A) (x : A), Voranstellen_Liste l x = x :: l.
Proof. reflexivity. Qed.
Print Assumptions C17_voranstellen_spec.

Theorem C17_voranstellen_liste_spec : forall (A : Type) (l o : list A), Voranstellen_Liste_Liste l o = o ++ l.
Proof. reflexivity. Qed.
Print Assumptions C17_voranstellen_liste_spec.

Theorem C17_einfuegen_spec : forall (A : Type) (l : list A) (i : Z) (x : A), 1 <= i <= len l + 1 -> Einfuegen_Liste l i x = Ok (firstn (Z.to_nat (i - 1)) l ++ x :: skipn (Z.to_nat (i - 1)) l).
Proof.
  intros A l i x H. unfold Einfuegen_Liste, efficient_list_insert.
  destruct (Z.ltb_spec (i - 1) 0); [lia|]. destruct (Z.gtb_spec (i - 1) (len l)); [lia|reflexivity].
Qed.
Print Assumptions C17_einfuegen_spec.
Example C17_einfuegen_spec_nonvacuous := C17_einfuegen_spec Z [1;2] 2 9 ltac:(nv).

Theorem C17_einfuegen_err : forall (A : Type) (l : list A) (i : Z) (x : A), i < 1 \/ len l + 1 < i -> Einfuegen_Liste l i x = Err.
Proof.
  intros A l i x H. unfold Einfuegen_Liste, efficient_list_insert.
  destruct (Z.ltb_spec (i - 1) 0); [reflexivity|]. destruct (Z.gtb_spec (i - 1) (len l)); [reflexivity|lia].
Qed.
Print Assumptions C17_einfuegen_err.
Example C17_einfuegen_err_nonvacuous := C17_einfuegen_err Z [1;2] 0 9 ltac:(nv).

Theorem C17_einfuegen_bereich_spec : forall (A : Type) (l : list A) (i : Z) (r : list A), 1 <= i <= len l + 1 -> Einfuegen_Bereich_Liste l i r = Ok (firstn (Z.to_nat (i - 1)) l ++ r ++ skipn (Z.to_nat (i - 1)) l).
Proof.
  intros A l i r H. unfold Einfuegen_Bereich_Liste, efficient_list_insert_range.
  destruct (Z.ltb_spec (i - 1) 0); [lia|]. destruct (Z.gtb_spec (i - 1) (len l)); [lia|reflexivity].
Qed.
Print Assumptions C17_einfuegen_bereich_spec.
Example C17_einfuegen_bereich_spec_nonvacuous := C17_einfuegen_bereich_spec Z [1;2] 2 [7] ltac:(nv).

Theorem C17_einfuegen_bereich_err : forall (A : Type) (l : list A) (i : Z) (r : list A), i < 1 \/ len l + 1 < i -> Einfuegen_Bereich_Liste l i r = Err.
Proof.
  intros A l i r H. unfold Einfuegen_Bereich_Liste, efficient_list_insert_range.
  destruct (Z.ltb_spec (i - 1) 0); [reflexivity|]. destruct (Z.gtb_spec (i - 1) (len l)); [reflexivity|lia].
Qed.
Print Assumptions C17_einfuegen_bereich_err.
Example C17_einfuegen_bereich_err_nonvacuous := C17_einfuegen_bereich_err Z [1;2] 5 [7] ltac:(nv).

Theorem C17_loesche_element_spec : forall (A : Type) (l : list A) (i : Z), 1 <= i <= len l -> Loesche_Element l i = Ok (firstn (Z.to_nat (i - 1)) l ++ skipn (Z.to_nat i) l).
Proof.
  intros A l i H. apply (loesche_bereich_spec l i i); lia.
Qed.
Print Assumptions C17_loesche_element_spec.
Example C17_loesche_element_spec_nonvacuous := C17_loesche_element_spec Z [1;2] 2 ltac:(nv).

Theorem C17_loesche_element_err : forall (A : Type) (l : list A) (i : Z), i < 1 \/ len l < i -> Loesche_Element l i = Err.
Proof.
  intros A l i H. apply (loesche_bereich_err l i i). lia.
Qed.
Print Assumptions C17_loesche_element_err.
Example C17_loesche_element_err_nonvacuous := C17_loesche_element_err Z [1;2] 0 ltac:(nv).

Theorem C17_loesche_bereich_spec : forall (A : Type) (l : list A) (s e : Z), 1 <= s -> s <= e -> e <= len l -> Loesche_Bereich l s e = Ok (firstn (Z.to_nat (s - 1)) l ++ skipn (Z.to_nat e) l).
Proof. exact (@loesche_bereich_spec). Qed.
Print Assumptions C17_loesche_bereich_spec.
Example C17_loesche_bereich_spec_nonvacuous := C17_loesche_bereich_spec Z [1;2;3] 2 3 ltac:(nv) ltac:(nv) ltac:(nv).

Theorem C17_loesche_bereich_err : forall (A : Type) (l : list A) (s e : Z), ~ (1 <= s /\ s <= e <= len l) -> Loesche_Bereich l s e = Err.
Proof. exact (@loesche_bereich_err). Qed.
Print Assumptions C17_loesche_bereich_err.
Example C17_loesche_bereich_err_nonvacuous := C17_loesche_bereich_err Z [1;2;3] 2 5 ltac:(nv).

Theorem C17_fuellen_spec : forall (A : Type) (l : list A) (x : A), Fuellen_Liste l x = Ok (repeat x (length l)).
Proof. exact (@fuellen_spec). Qed.
Print Assumptions C17_fuellen_spec.

Theorem C17_index_von_spec : forall (A : Type) (eqb : A -> A -> bool) (l : list A) (x : A), exists r : Z, Index_Von_Element_Ref eqb l x = Ok r /\ (r = -1 /\ has eqb l x = false \/ (exists (s1 : list A) (e : A) (s2 : list A), l = s1 ++ e :: s2 /\ r = len s1 + 1 /\ eqb e x = true /\ has eqb s1 x = false)).
Proof.
  intros A eqb l x.
  exact (index_loop_inv eqb l [] x).
Qed.
Print Assumptions C17_index_von_spec.

Theorem C17_index_von_value_spec : forall (A : Type) (eqb : A -> A -> bool) (l : list A) (x : A), Index_Von_Element eqb l x = Index_Von_Element_Ref eqb l x.
Proof. reflexivity. Qed.
Print Assumptions C17_index_von_value_spec.

Theorem C17_enthaelt_spec : forall (A : Type) (eqb : A -> A -> bool) (l : list A) (x : A), Enthaelt_Wert_Ref eqb l x = has eqb l x.
Proof. exact (@enthaelt_spec). Qed.
Print Assumptions C17_enthaelt_spec.

Theorem C17_enthaelt_In : forall (A : Type) (eqb : A -> A -> bool) (l : list A) (x : A), (forall a b : A, eqb a b = true <-> a = b) -> Enthaelt_Wert eqb l x = true <-> In x l.
Proof. exact (@enthaelt_In). Qed.
Print Assumptions C17_enthaelt_In.
Example C17_enthaelt_In_nonvacuous := C17_enthaelt_In Z Z.eqb [1;2] 2 Z.eqb_eq.

Theorem C17_ist_leer_spec : forall (A : Type) (l : list A), Ist_Leer_Liste l = true <-> l = [].
Proof.
  intros A l.
  unfold Ist_Leer_Liste, Ist_Leer_Liste_Ref. rewrite len_eqb0. destruct l; cbn; split; congruence.
Qed.
Print Assumptions C17_ist_leer_spec.

Theorem C17_erste_n_spec : forall (A : Type) (l : list A) (n : Z), 1 <= n <= len l -> Erste_N_Elemente_Liste l n = Ok (firstn (Z.to_nat n) l).
Proof.
  intros A l n.
  apply slice_to_in.
Qed.
Print Assumptions C17_erste_n_spec.
Example C17_erste_n_spec_nonvacuous := C17_erste_n_spec Z [1;2;3] 2 ltac:(nv).

(* the doc comment defers to the operator `liste bis zum n. Element` for every n *)
Theorem C17_erste_n_is_operator : forall (A : Type) (l : list A) (n : Z), Erste_N_Elemente_Liste_Ref l n = slice_to l n.
Proof. reflexivity. Qed.
Print Assumptions C17_erste_n_is_operator.

Theorem C17_letzten_n_spec : forall (A : Type) (l : list A) (n : Z), 1 <= n <= len l -> Letzten_N_Elemente_Liste l n = Ok (skipn (Z.to_nat (len l - n)) l).
Proof.
  intros A l n H. unfold Letzten_N_Elemente_Liste, Letzten_N_Elemente_Liste_Ref.
  rewrite slice_from_in by lia. now replace (len l - n + 1 - 1) with (len l - n) by lia.
Qed.
Print Assumptions C17_letzten_n_spec.
Example C17_letzten_n_spec_nonvacuous := C17_letzten_n_spec Z [1;2;3] 2 ltac:(nv).

Theorem C17_spiegeln_spec : forall (A : Type) (junk : A) (l : list A), Liste_Spiegeln_Ref junk l = Ok (rev l).
Proof. exact (@spiegeln_spec). Qed.
Print Assumptions C17_spiegeln_spec.

Theorem C17_spiegeln_value_spec : forall (A : Type) (junk : A) (l : list A), Liste_Spiegeln junk l = Ok (rev l).
Proof.
  intros A junk l.
  apply spiegeln_spec.
Qed.
Print Assumptions C17_spiegeln_value_spec.

Theorem C17_summe_spec : forall l : list Z, Summe_Liste l = wrap64 (zsum l).
Proof. exact (@summe_spec). Qed.
Print Assumptions C17_summe_spec.

Theorem C17_summe_exact : forall l : list Z, in_i64 (zsum l) -> Summe_Liste l = zsum l.
Proof.
  intros l H. rewrite summe_spec. now apply wrap64_id.
Qed.
Print Assumptions C17_summe_exact.
Example C17_summe_exact_nonvacuous := C17_summe_exact [1;2] ltac:(unfold in_i64, two63; cbn; lia).

Theorem C17_produkt_spec : forall l : list Z, l <> [] -> Produkt_Liste l = wrap64 (ListProofs.zprod l).
Proof.
  intros l H. unfold Produkt_Liste. rewrite len_eqb0. destruct l as [|x r]; [congruence|]. cbv iota.
  rewrite (produkt_loop_inv (x :: r) 1 : produkt_loop (x :: r) 1 = _). f_equal. lia.
Qed.
Print Assumptions C17_produkt_spec.
Example C17_produkt_spec_nonvacuous := C17_produkt_spec [2;3] ltac:(nv).

Theorem C17_produkt_leer : Produkt_Liste [] = 0.
Proof. reflexivity. Qed.
Print Assumptions C17_produkt_leer.

Theorem C17_elementweise_summe_spec : forall l1 l2 : list Z, length l1 = length l2 -> Elementweise_Summe l1 l2 = Ok (zip_with Z.add l1 l2).
Proof.
  intros l1 l2 H. apply (elementweise_loop_inv Z.add l1 l2 [] [] H eq_refl).
Qed.
Print Assumptions C17_elementweise_summe_spec.
Example C17_elementweise_summe_spec_nonvacuous := C17_elementweise_summe_spec [1] [2] ltac:(nv).

Theorem C17_elementweise_differenz_spec : forall l1 l2 : list Z, length l1 = length l2 -> Elementweise_Differenz l1 l2 = Ok (zip_with Z.sub l1 l2).
Proof.
  intros l1 l2 H. apply (elementweise_loop_inv Z.sub l1 l2 [] [] H eq_refl).
Qed.
Print Assumptions C17_elementweise_differenz_spec.
Example C17_elementweise_differenz_spec_nonvacuous := C17_elementweise_differenz_spec [1] [2] ltac:(nv).

Theorem C17_elementweise_produkt_spec : forall l1 l2 : list Z, length l1 = length l2 -> Elementweise_Produkt l1 l2 = Ok (zip_with Z.mul l1 l2).
Proof.
  intros l1 l2 H. apply (elementweise_loop_inv Z.mul l1 l2 [] [] H eq_refl).
Qed.
Print Assumptions C17_elementweise_produkt_spec.
Example C17_elementweise_produkt_spec_nonvacuous := C17_elementweise_produkt_spec [1] [2] ltac:(nv).

Theorem C17_aufsteigende_spec : forall start ende : Z, start <= ende + 1 -> Aufsteigende_Zahlen start ende = Ok (zrange_up start (Z.to_nat (ende - start + 1))).
Proof.
  intros start ende H. unfold Aufsteigende_Zahlen. rewrite mal_ok by lia. apply aufsteigend_loop_spec.
Qed.
Print Assumptions C17_aufsteigende_spec.
Example C17_aufsteigende_spec_nonvacuous := C17_aufsteigende_spec 1 3 ltac:(nv).

Theorem C17_absteigende_spec : forall start ende : Z, ende <= start + 1 -> Absteigende_Zahlen start ende = Ok (zrange_down start (Z.to_nat (start - ende + 1))).
Proof.
  intros start ende H. unfold Absteigende_Zahlen. rewrite mal_ok by lia. cbn [bind].
  pose proof (absteigend_loop_inv (Z.to_nat (start - ende + 1)) [] start) as Hi.
  cbn [app] in Hi. now rewrite len_nil, Z.sub_0_r in Hi.
Qed.
Print Assumptions C17_absteigende_spec.
Example C17_absteigende_spec_nonvacuous := C17_absteigende_spec 3 1 ltac:(nv).

Theorem C17_verketten_spec : forall l : list (list Z), Verketten_Text_Liste l = concat l.
Proof.
  intros l.
  exact (verketten_loop_inv l []).
Qed.
Print Assumptions C17_verketten_spec.

Theorem C17_aneinandergehaengt_spec : forall l : list Z, Aneinandergehaengt_Buchstabe l = l.
Proof. reflexivity. Qed.
Print Assumptions C17_aneinandergehaengt_spec.

Theorem C17_elw_verketten_spec : forall l1 l2 : list (list Z), length l1 = length l2 -> Elementweise_Verketten_Text l1 l2 = Ok (zip_app l1 l2).
Proof.
  intros l1 l2 H. apply (elw_verketten_loop_inv l1 l2 [] [] [] H eq_refl eq_refl).
Qed.
Print Assumptions C17_elw_verketten_spec.
Example C17_elw_verketten_spec_nonvacuous := C17_elw_verketten_spec [[1]] [[2]] ltac:(nv).

Theorem C17_tausche_spec : forall a b : Z, Tausche a b = (b, a).
Proof. reflexivity. Qed.
Print Assumptions C17_tausche_spec.

Theorem C17_quicksort_ref_spec : forall l : list Z, exists l' : list Z, Quicksort_Ref l = Ok l' /\ Sorted Z.le l' /\ Permutation l' l.
Proof. exact (@quicksort_ref_spec). Qed.
Print Assumptions C17_quicksort_ref_spec.

Theorem C17_quicksort_spec : forall l : list Z, exists l' : list Z, Quicksort l = Ok l' /\ Sorted Z.le l' /\ Permutation l' l.
Proof. exact (@quicksort_spec). Qed.
Print Assumptions C17_quicksort_spec.

Theorem C17_max_spec : forall a b : Z, Max a b = Z.max a b.
Proof. exact (@max_spec). Qed.
Print Assumptions C17_max_spec.

Theorem C17_max3_spec : forall a b c : Z, Max3 a b c = Z.max a (Z.max b c).
Proof.
  intros a b c.
  unfold Max3. destruct (Z.geb_spec a b), (Z.geb_spec a c); cbn [andb]; try lia;
  destruct (Z.geb_spec b a), (Z.geb_spec b c); cbn [andb]; lia.
Qed.
Print Assumptions C17_max3_spec.

Theorem C17_min_spec : forall a b : Z, Min a b = Z.min a b.
Proof. exact (@min_spec). Qed.
Print Assumptions C17_min_spec.

Theorem C17_min3_spec : forall a b c : Z, Min3 a b c = Z.min a (Z.min b c).
Proof. exact (@min3_spec). Qed.
Print Assumptions C17_min3_spec.

Theorem C17_clamp_spec : forall w mx mn : Z, mn <= mx -> Clamp w mx mn = Z.max mn (Z.min w mx).
Proof.
  intros w mx mn H. unfold Clamp. destruct (Z.gtb_spec w mx); [lia|]. destruct (Z.ltb_spec w mn); lia.
Qed.
Print Assumptions C17_clamp_spec.
Example C17_clamp_spec_nonvacuous := C17_clamp_spec 5 3 1 ltac:(nv).

Theorem C17_sign_spec : forall w : Z, Sign w = Z.sgn w.
Proof.
  intros w.
  unfold Sign. destruct (Z.ltb_spec w 0); [lia|]. destruct (Z.gtb_spec w 0); lia.
Qed.
Print Assumptions C17_sign_spec.

Theorem C17_ggt_spec : forall a b : Z, Groesster_Gemeinsamer_Teiler a b = Ok (Z.gcd a b).
Proof. exact (@ggt_spec). Qed.
Print Assumptions C17_ggt_spec.

Theorem C17_kgv_spec : forall a b : Z, a <> 0 \/ b <> 0 -> in_i64 (a * b) -> Kleinster_Gemeinsamer_Teiler a b = Ok (Z.lcm a b).
Proof.
  intros a b Hne Hr. unfold Kleinster_Gemeinsamer_Teiler. rewrite ggt_spec. cbn [bind].
  pose proof (Z.gcd_nonneg a b) as Hg0.
  destruct (Z.eqb_spec (Z.gcd a b) 0) as [H0|Hg].
  { destruct Hne as [Ha|Hb]; [apply Z.gcd_eq_0_l in H0|apply Z.gcd_eq_0_r in H0]; contradiction. }
  rewrite wrap64_id by assumption.
  rewrite Z.quot_div_nonneg by lia.
  unfold Z.lcm. f_equal.
  destruct (Z.gcd_divide_r a b) as [k Hk].
  replace (b / Z.gcd a b) with k by (rewrite Hk at 1; now rewrite Z.div_mul).
  replace (a * b) with ((a * k) * Z.gcd a b) by (rewrite Hk at 2; ring).
  rewrite Z.abs_mul, (Z.abs_eq (Z.gcd a b)) by lia. now rewrite Z.div_mul.
Qed.
Print Assumptions C17_kgv_spec.
Example C17_kgv_spec_nonvacuous := C17_kgv_spec 4 (-6) ltac:(nv) ltac:(unfold in_i64, two63; cbn; lia).

Theorem C17_ist_teilbar_spec : forall a b : Z, b <> 0 -> exists r : bool, Ist_Teilbar a b = Ok r /\ (r = true <-> (b | a)).
Proof.
  intros a b Hb. unfold Ist_Teilbar, zrem. destruct (Z.eqb_spec b 0); [contradiction|].
  cbn [bind]. eexists. split; [reflexivity|]. rewrite Z.eqb_eq. now apply Z.rem_divide.
Qed.
Print Assumptions C17_ist_teilbar_spec.
Example C17_ist_teilbar_spec_nonvacuous := C17_ist_teilbar_spec 4 2 ltac:(nv).

Theorem C17_ist_teilbar_null : forall a : Z, Ist_Teilbar a 0 = Err.
Proof. reflexivity. Qed.
Print Assumptions C17_ist_teilbar_null.

Theorem C17_gerade_spec : forall x : Z, Gerade_Zahl x = true <-> (2 | x).
Proof.
  intros x.
  unfold Gerade_Zahl. rewrite Z.eqb_eq. apply Z.rem_divide. lia.
Qed.
Print Assumptions C17_gerade_spec.

Theorem C17_fakultaet_spec : forall x : Z, 0 <= x <= 20 -> Fakultaet x = Ok (zfact (Z.to_nat x)).
Proof.
  intros x H. unfold Fakultaet. rewrite <- (Z2Nat.id x) at 2 by lia. apply fakultaet_rec_spec; lia.
Qed.
Print Assumptions C17_fakultaet_spec.
Example C17_fakultaet_spec_nonvacuous := C17_fakultaet_spec 5 ltac:(nv).

Theorem C17_teiler_spec : forall z : Z, 1 <= z -> forall d : Z, In d (Teilerzerlegung z) <-> 1 <= d <= z /\ (d | z).
Proof.
  intros z Hz d. unfold Teilerzerlegung. rewrite teiler_loop_inv. cbn [app]. rewrite filter_In, in_map_iff, Z.eqb_eq. split.
  - intros [(k & <- & Hk) Hr]. apply in_seq in Hk. split; [lia|]. apply Z.rem_divide in Hr; [exact Hr|lia].
  - intros [Hd Hdiv]. split.
    + exists (Z.to_nat (z - d)). split; [lia|]. apply in_seq. lia.
    + apply Z.rem_divide; [lia|exact Hdiv].
Qed.
Print Assumptions C17_teiler_spec.
Example C17_teiler_spec_nonvacuous := C17_teiler_spec 6 ltac:(nv).

Theorem C17_teiler_sorted_desc : forall z : Z, Teilerzerlegung z = filter (fun d : Z => Z.rem z d =? 0) (map (fun k : nat => z - Z.of_nat k) (seq 0 (Z.to_nat z))).
Proof.
  intros z.
  apply (teiler_loop_inv _ z z []).
Qed.
Print Assumptions C17_teiler_sorted_desc.

Theorem C17_primfaktorzerlegung_spec : forall z : Z, 1 <= z -> exists l : list Z, Primfaktorzerlegung z = Ok l /\ zprod l = z /\ Forall ist_prim l.
Proof. exact (@primfaktorzerlegung_spec). Qed.
Print Assumptions C17_primfaktorzerlegung_spec.
Example C17_primfaktorzerlegung_spec_nonvacuous := C17_primfaktorzerlegung_spec 12 ltac:(nv).

Theorem C17_trunc_spec : forall n d : Z, Trunc n d = n ÷ d * d.
Proof. reflexivity. Qed.
Print Assumptions C17_trunc_spec.

Theorem C17_floor_spec : forall n d : Z, 0 < d -> Floor n d = n / d * d.
Proof. exact (@floor_spec). Qed.
Print Assumptions C17_floor_spec.
Example C17_floor_spec_nonvacuous := C17_floor_spec (-9) 4 ltac:(nv).

Theorem C17_floor_integers : forall n d : Z, 0 < d -> (d | n) -> Floor n d = n.
Proof.
  intros n d Hd [k ->]. rewrite floor_spec by assumption. now rewrite Z.div_mul by lia.
Qed.
Print Assumptions C17_floor_integers.
Example C17_floor_integers_nonvacuous := C17_floor_integers (-8) 4 ltac:(nv) ltac:(exists (-2); lia).

Theorem C17_ceil_spec : forall n d : Z, 0 < d -> Ceil n d = - (- n / d) * d.
Proof. exact (@ceil_spec). Qed.
Print Assumptions C17_ceil_spec.
Example C17_ceil_spec_nonvacuous := C17_ceil_spec (-9) 4 ltac:(nv).

Theorem C17_ceil_integers : forall n d : Z, 0 < d -> (d | n) -> Ceil n d = n.
Proof.
  intros n d Hd [k ->]. rewrite ceil_spec by assumption. replace (- (k * d)) with ((- k) * d) by ring. rewrite Z.div_mul by lia. ring.
Qed.
Print Assumptions C17_ceil_integers.
Example C17_ceil_integers_nonvacuous := C17_ceil_integers (-8) 4 ltac:(nv) ltac:(exists (-2); lia).

Theorem C17_hoechste_spec : forall l : list Z, l <> [] -> Forall in_i64 l -> In (Hoechste_ListeZ l) l /\ (forall x : Z, In x l -> x <= Hoechste_ListeZ l).
Proof.
  intros l Hne Hall.
  destruct (pick_fold Z.le Max Z.le_refl Z.le_trans ltac:(intros a b; rewrite max_spec; lia) l MinZahl) as (H1 & H2 & H3).
  change (fold_left (fun m z => Max z m) l MinZahl) with (Hoechste_ListeZ l) in *.
  split; [|exact H2]. destruct H3 as [H3|H3]; [|exact H3].
  (* the start value is only returned when it occurs in the list *)
  destruct l as [|y r]; [congruence|]. pose proof (H2 y (or_introl eq_refl)) as Hle.
  apply Forall_inv in Hall. unfold in_i64, two63 in Hall. rewrite H3 in *. change MinZahl with (-9223372036854775808) in *.
  left. lia.
Qed.
Print Assumptions C17_hoechste_spec.
Example C17_hoechste_spec_nonvacuous := C17_hoechste_spec [1;2] ltac:(nv) ltac:(repeat constructor; unfold in_i64, two63; lia).

Theorem C17_kleinste_spec : forall l : list Z, l <> [] -> Forall in_i64 l -> In (Kleinste_ListeZ l) l /\ (forall x : Z, In x l -> Kleinste_ListeZ l <= x).
Proof.
  intros l Hne Hall.
  destruct (pick_fold Z.ge Min ltac:(intros; lia) ltac:(intros; lia) ltac:(intros a b; rewrite min_spec; lia) l MaxZahl)
    as (H1 & H2 & H3).
  change (fold_left (fun m z => Min z m) l MaxZahl) with (Kleinste_ListeZ l) in *.
  split; [|intros x Hx; apply Z.ge_le, H2, Hx]. destruct H3 as [H3|H3]; [|exact H3].
  destruct l as [|y r]; [congruence|]. pose proof (H2 y (or_introl eq_refl)) as Hle.
  apply Forall_inv in Hall. unfold in_i64, two63 in Hall. rewrite H3 in *. unfold MaxZahl in *.
  left. lia.
Qed.
Print Assumptions C17_kleinste_spec.
Example C17_kleinste_spec_nonvacuous := C17_kleinste_spec [1;2] ltac:(nv) ltac:(repeat constructor; unfold in_i64, two63; lia).

(* "Summe der relativen Häufigkeiten aller Zahlen größer als, oder x" / "kleiner als, oder x" *)
Theorem C17_mindestens_spec : forall (x : Z) (l : list Z), Mindestens_Liste x l = (count (fun z : Z => z >=? x) l, len l).
Proof.
  intros x l.
  unfold Mindestens_Liste. now rewrite count_loop_spec.
Qed.
Print Assumptions C17_mindestens_spec.

Theorem C17_hoechstens_spec : forall (x : Z) (l : list Z), Hoechstens_Liste x l = (count (fun z : Z => z <=? x) l, len l).
Proof.
  intros x l.
  unfold Hoechstens_Liste. now rewrite count_loop_spec.
Qed.
Print Assumptions C17_hoechstens_spec.

Theorem C17_zwischen_spec : forall (x y : Z) (l : list Z), Zwischen_Liste x y l = (count (fun z : Z => (z >=? x) && (z <=? y)) l, len l).
Proof.
  intros x y l.
  unfold Zwischen_Liste. now rewrite count_loop_spec.
Qed.
Print Assumptions C17_zwischen_spec.

Theorem C17_absolute_haeufigkeit_spec : forall (l : list Z) (x : Z), Absolute_Haeufigkeit l x = Z.of_nat (count_occ Z.eq_dec l x).
Proof.
  intros l x.
  unfold Absolute_Haeufigkeit. now rewrite count_loop_spec, count_eqb_occ.
Qed.
Print Assumptions C17_absolute_haeufigkeit_spec.

Theorem C17_erster_buchstabe_spec : forall (c : Z) (r : list Z), Erster_Buchstabe (c :: r) = Ok c.
Proof.
  intros c r.
  apply rd_cons_1.
Qed.
Print Assumptions C17_erster_buchstabe_spec.

Theorem C17_letzter_buchstabe_spec : forall (r : list Z) (c : Z), Letzter_Buchstabe (r ++ [c]) = Ok c.
Proof.
  intros r c.
  apply (rd_at _ r c []); [reflexivity|apply len_snoc].
Qed.
Print Assumptions C17_letzter_buchstabe_spec.

Theorem C17_nter_buchstabe_spec : forall (n : Z) (t : list Z), 1 <= n <= len t -> Nter_Buchstabe n t = Ok (nth (Z.to_nat (n - 1)) t 0).
Proof.
  intros n t.
  apply rd_nth.
Qed.
Print Assumptions C17_nter_buchstabe_spec.
Example C17_nter_buchstabe_spec_nonvacuous := C17_nter_buchstabe_spec 1 [97] ltac:(nv).

Theorem C17_entferne_vorne_spec : forall (t : text) (n : Z), Entferne_Anzahl_Vorne t n = Ok (skipn (Z.to_nat n) t).
Proof.
  intros t n.
  unfold Entferne_Anzahl_Vorne. destruct (Z.leb_spec (len t) n) as [E|E].
  - rewrite skipn_all2; [reflexivity|]. unfold len in E. lia.
  - destruct t as [|c r]; [now rewrite skipn_nil|]. pose proof (len_pos (c :: r) ltac:(discriminate)).
    rewrite slice_from_clamp by assumption. do 2 f_equal.
    destruct (Z_lt_dec n 0); [rewrite clampZ_low by lia|rewrite clampZ_id by lia]; lia.
Qed.
Print Assumptions C17_entferne_vorne_spec.

Theorem C17_entferne_hinten_spec : forall (t : text) (n : Z), Entferne_Anzahl_Hinten t n = Ok (firstn (length t - Z.to_nat n) t).
Proof.
  intros t n.
  unfold Entferne_Anzahl_Hinten. destruct (Z.leb_spec (len t) n) as [E|E].
  - now replace (length t - Z.to_nat n)%nat with 0%nat by (unfold len in E; lia).
  - destruct t as [|c r]; [reflexivity|]. pose proof (len_pos (c :: r) ltac:(discriminate)).
    rewrite slice_to_clamp by assumption. do 2 f_equal.
    destruct (Z_lt_dec n 0); [rewrite clampZ_high by lia|rewrite clampZ_id by lia]; unfold len; lia.
Qed.
Print Assumptions C17_entferne_hinten_spec.

Theorem C17_trim_anfang_spec : forall (t : text) (z : Z), Trim_Anfang t z = Ok (drop_z z t).
Proof.
  intros t z.
  unfold Trim_Anfang. rewrite len_eqb0. destruct t as [|c r]; [reflexivity|].
  apply (trim_anfang_loop_inv z (c :: r) []); [discriminate|lia].
Qed.
Print Assumptions C17_trim_anfang_spec.

Theorem C17_trim_ende_spec : forall (t : text) (z : Z), Trim_Ende t z = Ok (rev (drop_z z (rev t))).
Proof.
  intros t z.
  unfold Trim_Ende. rewrite len_eqb0. destruct t as [|c r]; [reflexivity|]. cbv beta iota zeta.
  rewrite <- (app_nil_r (c :: r)) at 2. apply trim_ende_loop_inv; [discriminate|lia].
Qed.
Print Assumptions C17_trim_ende_spec.

Theorem C17_trim_spec : forall (t : text) (z : Z), Trim t z = Ok (strip_ref z t).
Proof. exact (@trim_spec). Qed.
Print Assumptions C17_trim_spec.

Theorem C17_text_enthaelt_buchstabe_In : forall (t : text) (z : Z), Text_Enthaelt_Buchstabe t z = true <-> In z t.
Proof.
  intros t z.
  exact (enthaelt_In Z.eqb t z Z.eqb_eq).
Qed.
Print Assumptions C17_text_enthaelt_buchstabe_In.

Theorem C17_text_anzahl_buchstabe_spec : forall (t : text) (z : Z), Text_Anzahl_Buchstabe t z = Z.of_nat (count_occ Z.eq_dec t z).
Proof. exact (@text_anzahl_buchstabe_spec). Qed.
Print Assumptions C17_text_anzahl_buchstabe_spec.

Theorem C17_text_enthaelt_text_spec : forall (t : text) (s : list Z), s <> [] -> Text_Enthaelt_Text t s = Ok (existsb (occ_b t s) (positions t s)).
Proof.
  intros t s Hs. unfold Text_Enthaelt_Text. rewrite positions_nat. destruct (text_eqbP t s) as [->|Hne].
  - replace (length s + 1 - length s)%nat with 1%nat by lia. cbn [seq existsb]. now rewrite occ_b_full, text_eqb_refl.
  - cbv zeta. rewrite !len_eqb0. destruct s as [|x s']; [congruence|]. destruct t as [|c t']; [reflexivity|]. cbn [orb].
    apply (enthaelt_text_loop_inv _ _ _ _ Hs (fits_positions _ _) _ 0); cbn [length]; lia.
Qed.
Print Assumptions C17_text_enthaelt_text_spec.
Example C17_text_enthaelt_text_spec_nonvacuous := C17_text_enthaelt_text_spec [97;98] [98] ltac:(nv).

Theorem C17_occurs_iff : forall t s : text, existsb (occ_b t s) (positions t s) = true <-> (exists pre suf : list Z, t = pre ++ s ++ suf).
Proof.
  intros t s.
  unfold positions. rewrite existsb_exists. split.
  - intros (k & Hk & E). unfold occ_b in E. apply text_eqb_spec in E.
    exists (firstn k t), (skipn (length s) (skipn k t)).
    rewrite <- E at 1. now rewrite firstn_skipn, firstn_skipn.
  - intros (pre & suf & ->). exists (length pre). split.
    + apply in_seq. rewrite !len_app. unfold len. lia.
    + unfold occ_b. rewrite skipn_app_len, firstn_app_len. apply text_eqb_refl.
Qed.
Print Assumptions C17_occurs_iff.

(* the number of (possibly overlapping) positions at which s occurs *)
Theorem C17_text_anzahl_text_spec : forall (t : text) (s : list Z), s <> [] -> Text_Anzahl_Text t s = Ok (len (filter (occ_b t s) (positions t s))).
Proof.
  intros t s Hs. unfold Text_Anzahl_Text. rewrite positions_nat. cbv zeta. rewrite !len_eqb0.
  destruct t as [|c t']; [now destruct s|]. destruct s as [|x s']; [congruence|].
  apply (anzahl_text_loop_inv _ _ _ _ Hs (fits_positions _ _) _ 0 0); cbn [length]; lia.
Qed.
Print Assumptions C17_text_anzahl_text_spec.
Example C17_text_anzahl_text_spec_nonvacuous := C17_text_anzahl_text_spec [97;98] [98] ltac:(nv).

Theorem C17_nicht_ueberlappend_spec : forall (t : text) (s : list Z), s <> [] -> Text_Anzahl_Text_Nicht_Ueberlappend t s = Ok (nonoverlap_ref (length t + 1) s t).
Proof. exact (@nicht_ueberlappend_spec). Qed.
Print Assumptions C17_nicht_ueberlappend_spec.
Example C17_nicht_ueberlappend_spec_nonvacuous := C17_nicht_ueberlappend_spec [97;98] [98] ltac:(nv).

Theorem C17_beginnt_mit_buchstabe_spec : forall (t : text) (b : Z), Beginnt_Mit_Buchstabe t b = Ok match t with | [] => false | c :: _ => c =? b end.
Proof.
  intros t b.
  unfold Beginnt_Mit_Buchstabe. rewrite len_eqb0. destruct t as [|c r]; [reflexivity|]. now rewrite rd_cons_1.
Qed.
Print Assumptions C17_beginnt_mit_buchstabe_spec.

Theorem C17_endet_mit_buchstabe_spec : forall (t : text) (b : Z), Endet_Mit_Buchstabe t b = Ok match rev t with | [] => false | c :: _ => c =? b end.
Proof.
  intros t b.
  unfold Endet_Mit_Buchstabe. destruct t as [|c r _] using rev_ind; [reflexivity|].
  rewrite rev_unit, len_snoc. destruct (Z.eqb_spec (len r + 1) 0) as [E|_]; [pose proof (len_nonneg r); lia|].
  now rewrite rd_mid.
Qed.
Print Assumptions C17_endet_mit_buchstabe_spec.

Theorem C17_beginnt_mit_text_spec : forall (t : text) (s : list Z), s <> [] -> Beginnt_Mit_Text t s = Ok (text_eqb (firstn (length s) t) s).
Proof.
  intros t s Hs. unfold Beginnt_Mit_Text. rewrite !len_eqb0. destruct s as [|x s']; [congruence|].
  destruct t as [|c t']; [reflexivity|]. cbn [orb]. set (s := x :: s'). set (t := c :: t').
  rewrite slice_to_clamp by (now apply len_pos). cbn [bind]. do 2 f_equal. pose proof (len_pos s Hs). pose proof (len_pos t ltac:(discriminate)).
  destruct (Z_le_gt_dec (len s) (len t)) as [Hle|Hgt].
  - now rewrite clampZ_id, to_nat_len by lia.
  - rewrite clampZ_high, to_nat_len, firstn_all by lia. rewrite firstn_all2; [reflexivity|unfold len in *; lia].
Qed.
Print Assumptions C17_beginnt_mit_text_spec.
Example C17_beginnt_mit_text_spec_nonvacuous := C17_beginnt_mit_text_spec [97;98] [97] ltac:(nv).

Theorem C17_prefix_iff : forall t s : list Z, text_eqb (firstn (length s) t) s = true <-> (exists suf : list Z, t = s ++ suf).
Proof.
  intros t s.
  rewrite text_eqb_spec. split.
  - intros E. exists (skipn (length s) t). rewrite <- E at 1. symmetry. apply firstn_skipn.
  - intros (suf & ->). apply firstn_app_len.
Qed.
Print Assumptions C17_prefix_iff.

Theorem C17_endet_mit_text_spec : forall (t : text) (s : list Z), s <> [] -> Endet_Mit_Text t s = Ok (text_eqb (skipn (length t - length s) t) s).
Proof.
  intros t s Hs. unfold Endet_Mit_Text. rewrite !len_eqb0. destruct s as [|x s']; [congruence|].
  destruct t as [|c t']; [reflexivity|]. cbn [orb].
  rewrite slice_from_clamp by (now apply len_pos). cbn [bind]. do 3 f_equal. rewrite clampZ_minmax. unfold len. cbn [length]. lia.
Qed.
Print Assumptions C17_endet_mit_text_spec.
Example C17_endet_mit_text_spec_nonvacuous := C17_endet_mit_text_spec [97;98] [98] ltac:(nv).

Theorem C17_suffix_iff : forall t s : list Z, text_eqb (skipn (length t - length s) t) s = true <-> (exists pre : list Z, t = pre ++ s).
Proof.
  intros t s.
  rewrite text_eqb_spec. split.
  - intros E. exists (firstn (length t - length s) t). rewrite <- E at 2. symmetry. apply firstn_skipn.
  - intros (pre & ->). rewrite app_length, Nat.add_sub. apply skipn_app_len.
Qed.
Print Assumptions C17_suffix_iff.

Theorem C17_text_an_text_spec : forall t e : text, Text_An_Text_Fuegen t e = t ++ e.
Proof. reflexivity. Qed.
Print Assumptions C17_text_an_text_spec.

Theorem C17_buchstabe_an_text_spec : forall (t : text) (e : Z), Buchstabe_An_Text_Fuegen t e = t ++ [e].
Proof. reflexivity. Qed.
Print Assumptions C17_buchstabe_an_text_spec.

Theorem C17_text_vor_text_spec : forall t e : text, Text_Vor_Text_Stellen t e = e ++ t.
Proof. reflexivity. Qed.
Print Assumptions C17_text_vor_text_spec.

Theorem C17_buchstabe_vor_text_spec : forall (t : text) (e : Z), Buchstabe_Vor_Text_Stellen t e = e :: t.
Proof. reflexivity. Qed.
Print Assumptions C17_buchstabe_vor_text_spec.

Theorem C17_text_leeren_spec : forall t : text, Text_Leeren t = [].
Proof. reflexivity. Qed.
Print Assumptions C17_text_leeren_spec.

Theorem C17_text_einfuegen_spec : forall (t : text) (i : Z) (e : text), Text_In_Text_Einfuegen t i e = Ok (firstn (Z.to_nat (clampZ i 1 (len t + 1) - 1)) t ++ e ++ skipn (Z.to_nat (clampZ i 1 (len t + 1) - 1)) t).
Proof. exact (@text_einfuegen_spec). Qed.
Print Assumptions C17_text_einfuegen_spec.

(* inserting a letter is inserting the text of that letter *)
Theorem C17_buchstabe_einfuegen_spec : forall (t : text) (i e : Z), Buchstabe_In_Text_Einfuegen t i e = Ok (firstn (Z.to_nat (clampZ i 1 (len t + 1) - 1)) t ++ e :: skipn (Z.to_nat (clampZ i 1 (len t + 1) - 1)) t).
Proof.
  intros t i e.
  exact (text_einfuegen_spec t i [e]).
Qed.
Print Assumptions C17_buchstabe_einfuegen_spec.

Theorem C17_loesche_text_spec : forall (t : list Z) (i : Z), 1 <= i <= len t -> Loesche_Text t i = Ok (firstn (Z.to_nat (i - 1)) t ++ skipn (Z.to_nat i) t).
Proof.
  intros t i H. unfold Loesche_Text. rewrite len_eqb0. destruct t as [|c r]; [cbn in H; lia|]. set (t := c :: r) in *.
  destruct (Z.eqb_spec i 1) as [->|E1]; cbn [andb].
  - destruct (Z.eqb_spec (len t) 1) as [E2|E2].
    + rewrite skipn_all2; [reflexivity|unfold len in E2; lia].
    + now rewrite slice_from_in by lia.
  - destruct (Z.eqb_spec i (len t)) as [->|E].
    + rewrite slice_to_in by lia. rewrite (skipn_all2 t); [now rewrite app_nil_r|unfold len; lia].
    + rewrite slice_to_in, slice_from_in by lia. cbn [bind]. now replace (i + 1 - 1) with i by lia.
Qed.
Print Assumptions C17_loesche_text_spec.
Example C17_loesche_text_spec_nonvacuous := C17_loesche_text_spec [97;98] 1 ltac:(nv).

Theorem C17_loesche_text_bereich_spec : forall (t : list Z) (s e : Z), 1 <= s -> s <= e -> e <= len t -> Loesche_Text_Bereich t s e = Ok (firstn (Z.to_nat (s - 1)) t ++ skipn (Z.to_nat e) t).
Proof.
  intros t s e H1 H2 H3. unfold Loesche_Text_Bereich. destruct (Z.geb_spec e (len t)) as [Ee|Ee].
  - rewrite (skipn_all2 t) by (unfold len in *; lia). rewrite app_nil_r.
    destruct (Z.leb_spec s 1); [now replace (Z.to_nat (s - 1)) with 0%nat by lia|now rewrite slice_to_in by lia].
  - destruct (Z.eqb_spec s 1) as [->|E].
    + rewrite slice_from_in by lia. now replace (e + 1 - 1) with e by lia.
    + rewrite slice_to_in, slice_from_in by lia. cbn [bind]. now replace (e + 1 - 1) with e by lia.
Qed.
Print Assumptions C17_loesche_text_bereich_spec.
Example C17_loesche_text_bereich_spec_nonvacuous := C17_loesche_text_bereich_spec [97;98;99] 2 3 ltac:(nv) ltac:(nv) ltac:(nv).

(* the loop of Fülle_Text is the loop of Füllen at T = Buchstabe *)
Theorem C17_fuelle_text_spec : forall (t : text) (x : Z), Fuelle_Text t x = Ok (repeat x (length t)).
Proof.
  intros t x.
  exact (fuellen_spec t x).
Qed.
Print Assumptions C17_fuelle_text_spec.

Theorem C17_buchstaben_liste_spec : forall t : text, Buchstaben_TextRef_BuchstabenListe t = Ok t.
Proof. exact (@buchstaben_liste_spec). Qed.
Print Assumptions C17_buchstaben_liste_spec.

Theorem C17_buchstaben_textliste_spec : forall t : text, Buchstaben_TextRef_TextListe t = Ok (map (fun b : Z => [b]) t).
Proof.
  intros t.
  unfold Buchstaben_TextRef_TextListe. rewrite mal_len. cbn [bind].
  exact (buchstaben_loop_inv (fun b => [b]) [] t []).
Qed.
Print Assumptions C17_buchstaben_textliste_spec.

Theorem C17_text_index_von_buchstabe_spec : forall (t : text) (z : Z), Text_Index_Von_Buchstabe_Ref t z = -1 /\ ~ In z t \/ (exists pre suf : list Z, t = pre ++ z :: suf /\ ~ In z pre /\ Text_Index_Von_Buchstabe_Ref t z = len pre + 1).
Proof. exact (@text_index_von_buchstabe_spec). Qed.
Print Assumptions C17_text_index_von_buchstabe_spec.

Theorem C17_text_index_von_text_spec : forall (t : text) (s : list Z), s <> [] -> Text_Index_Von_Text t s = Ok (ref_index t s).
Proof. exact (@text_index_von_text_spec). Qed.
Print Assumptions C17_text_index_von_text_spec.
Example C17_text_index_von_text_spec_nonvacuous := C17_text_index_von_text_spec [99;99;99;97] [97;98] ltac:(nv).

Theorem C17_text_index_von_text_leer : forall s : text, Text_Index_Von_Text [] s = Ok (-1).
Proof. reflexivity. Qed.
Print Assumptions C17_text_index_von_text_leer.

Theorem C17_ist_text_leer_spec : forall t : text, Ist_Text_Leer t = true <-> t = [].
Proof.
  intros t.
  unfold Ist_Text_Leer, Ist_Text_Leer_Ref. rewrite len_eqb0. destruct t; cbn; split; congruence.
Qed.
Print Assumptions C17_ist_text_leer_spec.

Theorem C17_grossschreiben_text_spec : forall t : text, Grossschreiben_Wert t = map gross_ref t.
Proof.
  intros t.
  unfold Grossschreiben_Wert. rewrite schreiben_loop_inv. apply map_ext. intros c. apply schreibung_spec.
Qed.
Print Assumptions C17_grossschreiben_text_spec.

Theorem C17_kleinschreiben_text_spec : forall t : text, Kleinschreiben_Wert t = map klein_ref t.
Proof.
  intros t.
  unfold Kleinschreiben_Wert. rewrite schreiben_loop_inv. apply map_ext. intros c. apply schreibung_spec.
Qed.
Print Assumptions C17_kleinschreiben_text_spec.

Theorem C17_polster_links_spec : forall (t : text) (z n : Z), Polster_Links t z n = repeat z (Z.to_nat (n - len t)) ++ t.
Proof.
  intros t z n.
  unfold Polster_Links. cbv zeta. destruct (Z.leb_spec (n - len t) 0); [|apply wiederhole_vor].
  now replace (Z.to_nat (n - len t)) with 0%nat by lia.
Qed.
Print Assumptions C17_polster_links_spec.

Theorem C17_polster_rechts_spec : forall (t : text) (z n : Z), Polster_Rechts t z n = t ++ repeat z (Z.to_nat (n - len t)).
Proof.
  intros t z n.
  unfold Polster_Rechts. cbv zeta. destruct (Z.leb_spec (n - len t) 0); [|apply wiederhole_an].
  replace (Z.to_nat (n - len t)) with 0%nat by lia. now rewrite app_nil_r.
Qed.
Print Assumptions C17_polster_rechts_spec.

(* the pieces between the separators, in order (for the empty text the code answers the empty list) *)
Theorem C17_spalte_spec : forall (t : list Z) (z : Z), t <> [] -> Spalte t z = Ok (split_ref z t).
Proof.
  intros t z Hne. unfold Spalte. rewrite len_eqb0. destruct t as [|c r]; [congruence|]. cbv zeta.
  apply (spalte_loop_spec [z] (fun t => Ok (Text_Index_Von_Buchstabe_Ref t z)) (fun e t => e =? len t) (split_ref z) (fun t => Text_Anzahl_Buchstabe t z));
    [discriminate|intros t; apply anzahl_nonneg| |lia|lia].
  intros t. destruct (text_index_von_buchstabe_spec t z) as [[-> Hn]|(pre & suf & -> & Hn & ->)].
  - left. split; [reflexivity|now apply split_ref_notin].
  - right. exists pre, suf. split; [reflexivity|]. split; [reflexivity|]. split; [|split; [now apply split_ref_app|now apply anzahl_app]].
    rewrite len_app, len_cons. pose proof (len_nonneg suf). destruct (Z.eqb_spec (len pre + 1) (len pre + (len suf + 1))), (Z.eqb_spec (len suf) 0); lia || reflexivity.
Qed.
Print Assumptions C17_spalte_spec.
Example C17_spalte_spec_nonvacuous := C17_spalte_spec [97;44] 44 ltac:(nv).

Theorem C17_spalte_leer : forall z : Z, Spalte [] z = Ok [].
Proof. reflexivity. Qed.
Print Assumptions C17_spalte_leer.

Theorem C17_spalte_text_spec : forall (t : text) (s : list Z), 1 < len s -> Spalte_Text t s = Ok (split_iter (length t + 1) s t).
Proof. exact (@spalte_text_spec). Qed.
Print Assumptions C17_spalte_text_spec.
Example C17_spalte_text_spec_nonvacuous := C17_spalte_text_spec [97;98;99;98;99] [98;99] ltac:(nv).

(* a separator of one letter is Spalte *)
Theorem C17_spalte_text_einzeln : forall (t : text) (c : Z), Spalte_Text t [c] = Spalte t c.
Proof. reflexivity. Qed.
Print Assumptions C17_spalte_text_einzeln.

Theorem C17_finde_subtext_spec : forall (t : text) (s : list Z), s <> [] -> Finde_Subtext t s = Ok (finde_iter (length t + 1) s t 1).
Proof.
  intros t s Hs. pose proof (len_pos s Hs) as Hls. pose proof (len_nonneg t) as HLt.
  unfold Finde_Subtext. cbv zeta. replace (length t + 1)%nat with (S (length t)) by lia.
  destruct (Z.eqb_spec (len s) 0); [lia|]. cbn [orb].
  destruct (Z.eqb_spec (len t) 0) as [E0|E0]; cbn [orb].
  { cbn [finde_iter]. cbv zeta. now rewrite ref_index_short by (unfold len in *; lia). }
  destruct (Z.gtb_spec (len s) (len t)) as [E1|E1].
  { cbn [finde_iter]. cbv zeta. now rewrite ref_index_short by (unfold len in *; lia). }
  destruct (Z.eqb_spec (len t) (len s)) as [E2|E2].
  - (* the whole text or nothing *)
    cbn [finde_iter]. cbv zeta. rewrite ref_index_full by (unfold len in E2; lia).
    destruct (text_eqb t s); [|reflexivity]. cbn [Z.eqb Z.sub Z.add Z.to_nat Pos.to_nat Pos.iter_op Nat.add].
    rewrite (skipn_all2 t) by (unfold len in E2; lia).
    destruct (length t); [reflexivity|]. cbn [finde_iter]. cbv zeta. now rewrite ref_index_short by (destruct s; [congruence|cbn; lia]).
  - exact (finde_loop_inv s t (S (length t)) Hs 1 [] ltac:(lia) ltac:(unfold len; lia)).
Qed.
Print Assumptions C17_finde_subtext_spec.
Example C17_finde_subtext_spec_nonvacuous := C17_finde_subtext_spec [97;98;97;97] [97] ltac:(nv).

Theorem C17_verbinden_text_spec : forall (l : list text) (z : Z), Verbinden_Text l z = Ok (join (fun t : text => t) z l).
Proof.
  intros l z.
  apply (verbinden_loop_inv (fun t : text => t) z l [] []).
Qed.
Print Assumptions C17_verbinden_text_spec.

Theorem C17_verbinden_buchstabe_spec : forall (l : list Z) (z : Z), Verbinden_Buchstabe l z = Ok (join (fun b : Z => [b]) z l).
Proof.
  intros l z.
  apply (verbinden_loop_inv (fun b : Z => [b]) z l [] []).
Qed.
Print Assumptions C17_verbinden_buchstabe_spec.

Theorem C17_verbinden_zahl_spec : forall (l : list Z) (z : Z), Verbinden_Zahl l z = Ok (join zahl_als_text z l).
Proof.
  intros l z.
  apply (verbinden_loop_inv zahl_als_text z l [] []).
Qed.
Print Assumptions C17_verbinden_zahl_spec.

Theorem C17_zahl_als_text_wert : forall z : Z, in_i64 z -> exists ds : list Z, zahl_als_text z = (if z <? 0 then [45] else []) ++ ds /\ ziffern_wert ds 0 = Z.abs z.
Proof.
  intros z Hz. unfold in_i64, two63 in Hz. unfold zahl_als_text.
  destruct (Z.ltb_spec z 0) as [E|E]; [exists (dezimal 20 (- z) [])|exists (dezimal 20 z [])]; (split; [reflexivity|]);
    (* the 20 rounds of `dezimal 20` suffice: |z| <= 2^63 < 10^20 *)
    rewrite dezimal_wert by (change (10 ^ Z.of_nat 20) with 100000000000000000000; lia); cbn; lia.
Qed.
Print Assumptions C17_zahl_als_text_wert.
Example C17_zahl_als_text_wert_nonvacuous := C17_zahl_als_text_wert (-42) ltac:(unfold in_i64, two63; lia).

Theorem C17_levenshtein_spec : forall t1 t2 : text, Levenshtein_Distanz t1 t2 = Ok (lev_ref t1 t2).
Proof. exact (@levenshtein_spec). Qed.
Print Assumptions C17_levenshtein_spec.

(* the edit distance (of the reversed texts, which is where the table starts) for all texts of realistic length *)
Theorem C17_levenshtein_lev : forall t1 t2 : list Z, len t1 + len t2 < two63 -> Levenshtein_Distanz t1 t2 = Ok (lev (rev t1) (rev t2)).
Proof.
  intros t1 t2 Hb. now rewrite levenshtein_spec, lev_ref_lev.
Qed.
Print Assumptions C17_levenshtein_lev.
Example C17_levenshtein_lev_nonvacuous := C17_levenshtein_lev [107;105] [115;105] ltac:(unfold two63; cbn; lia).

Theorem C17_text_zu_byteliste_spec : forall t : text, Text_Zu_ByteListe t = concat (map utf8_enc t).
Proof. exact (@text_zu_byteliste_spec). Qed.
Print Assumptions C17_text_zu_byteliste_spec.

(* the bytes of a text, read as a text again, are that text *)
Theorem C17_byteliste_roundtrip : forall t : list Z, Forall skalar t -> ByteListe_Zu_Text (Text_Zu_ByteListe t) = t.
Proof.
  intros t Ht. rewrite text_zu_byteliste_spec. unfold ByteListe_Zu_Text. rewrite len_eqb0.
  pose proof (concat_enc_length t) as Hl. destruct (concat (map utf8_enc t)) as [|b bs] eqn:E.
  - destruct t; [reflexivity|cbn in Hl; lia].
  - rewrite <- E. apply utf8_roundtrip; [exact Ht|now rewrite E].
Qed.
Print Assumptions C17_byteliste_roundtrip.
Example C17_byteliste_roundtrip_nonvacuous := C17_byteliste_roundtrip [97;228;8364;128512] ltac:(repeat constructor; unfold skalar; lia).

Theorem C17_hamming_spec : forall a b : list Z, length a = length b -> Hamming_Distanz a b = Ok (mismatches a b).
Proof.
  intros a b H. unfold Hamming_Distanz. destruct (Z.eqb_spec (len a) (len b)) as [_|E]; [|unfold len in E; lia].
  exact (hamming_loop_inv a b [] [] 0 H eq_refl).
Qed.
Print Assumptions C17_hamming_spec.
Example C17_hamming_spec_nonvacuous := C17_hamming_spec [97] [98] ltac:(nv).

Theorem C17_hamming_ungleich : forall a b : list Z, length a <> length b -> Hamming_Distanz a b = Ok (-1).
Proof.
  intros a b H. unfold Hamming_Distanz. destruct (Z.eqb_spec (len a) (len b)) as [E|_]; [unfold len in E; lia|reflexivity].
Qed.
Print Assumptions C17_hamming_ungleich.
Example C17_hamming_ungleich_nonvacuous := C17_hamming_ungleich [97] [] ltac:(nv).

(* 0 if equal; the code-point difference at the first mismatch; -1 / 1 if one text is a proper prefix of the other *)
Theorem C17_vergleiche_spec : forall t1 t2 : text, exists r : Z, Vergleiche_Text t1 t2 = Ok r /\ (t1 = t2 -> r = 0) /\ (forall (q : list Z) (a b : Z) (r1 r2 : list Z), t1 = q ++ a :: r1 -> t2 = q ++ b :: r2 -> a <> b -> r = a - b) /\ (forall (c : Z) (r2 : list Z), t2 = t1 ++ c :: r2 -> r = -1) /\ (forall (c : Z) (r1 : list Z), t1 = t2 ++ c :: r1 -> r = 1).
Proof.
  intros t1 t2.
  unfold Vergleiche_Text. destruct (text_eqbP t1 t2) as [<-|Hne].
  - exists 0. split; [reflexivity|]. repeat split.
    + intros q a b r1 r2 -> E Hab. apply app_inv_head in E. congruence.
    + intros c r2 E. apply (f_equal (@length Z)) in E. rewrite app_length in E. cbn [length] in E. lia.
    + intros c r2 E. apply (f_equal (@length Z)) in E. rewrite app_length in E. cbn [length] in E. lia.
  - exists (vgl t1 t2). split; [|split; [contradiction|]].
    + rewrite !len_eqb0. destruct t1 as [|a1 t1']; [reflexivity|]. destruct t2 as [|a2 t2']; [reflexivity|].
      apply (vergleiche_loop_inv (a1 :: t1') [] (a2 :: t2')); [discriminate|discriminate|lia].
    + repeat split.
      * intros q a b r1 r2 -> ->. apply vgl_diff.
      * intros c r2 ->. apply vgl_prefix.
      * intros c r1 ->. apply vgl_extends.
Qed.
Print Assumptions C17_vergleiche_spec.

Theorem C17_spaltmenge_spec : forall m : list Z, inm m 0 = false -> forall t : text, Spalten_Spaltmenge_Text_Ref t m = Ok (fields_ref m t []).
Proof. exact (@spaltmenge_spec). Qed.
Print Assumptions C17_spaltmenge_spec.
Example C17_spaltmenge_spec_nonvacuous := C17_spaltmenge_spec [98] ltac:(reflexivity) [97;98].

Theorem C17_spaltmenge_text_spec : forall (t : text) (mt : list Z), inm mt 0 = false -> Spalten_SpaltmengeText_Text t mt = Ok (fields_ref mt t []).
Proof.
  intros t mt H. unfold Spalten_SpaltmengeText_Text, Buchstaben_Text_BuchstabenListe. rewrite buchstaben_liste_spec. cbn [bind].
  now apply spaltmenge_spec.
Qed.
Print Assumptions C17_spaltmenge_text_spec.
Example C17_spaltmenge_text_spec_nonvacuous := C17_spaltmenge_text_spec [97;98] [98] ltac:(reflexivity).

(* Leerzeichen: ' ', '\n', '\t', '\r', 13, 14 *)
Theorem C17_text_worte_spec : forall t : text, Text_Worte t = Ok (fields_ref leerzeichen t []).
Proof.
  intros t.
  apply spaltmenge_spec. reflexivity.
Qed.
Print Assumptions C17_text_worte_spec.

