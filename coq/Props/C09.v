(* C09 — calls resolve to the longest type-matching alias; arguments bind by name; operator
   overloads by the exact-type rule; negated aliases negate.
   Each theorem is followed by Print Assumptions; the lemmas are in Alias/SelectProofs.v and
   Alias/OverloadProofs.v. Non-vacuity examples: Alias/C09Model.v (imported so that coqchk over the Props
   modules reaches them). *)
From Coq Require Import List ZArith Bool Permutation.
Import ListNotations.
From DDP Require Import Gen.Tokens Alias.Trie Alias.TokKey Alias.Select Alias.SelectProofs
  Alias.Overload Alias.OverloadProofs Alias.C09Model.
Local Open Scope nat_scope.

(* the comparator sortAliases hands to sort.Slice is a strict weak order: irreflexive, transitive,
   incomparability transitive - the contract under which ANY correct sort returns a permutation
   in which no element sorts strictly before an earlier one *)
Theorem C09_sort_comparator_strict_weak_order :
  (forall a, alias_less a a = false) /\
  (forall a b c, alias_less a b = true -> alias_less b c = true -> alias_less a c = true) /\
  (forall a b c, incomparable a b -> incomparable b c -> incomparable a c).
Proof.
  split; [exact alias_less_irrefl|]. split; [exact alias_less_trans|].
  intros a b c [H1 H2] [H3 H4]. split; eapply alias_less_negtrans; eauto.
Qed.
Print Assumptions C09_sort_comparator_strict_weak_order.

(* such permutations exist for every candidate list (the stable insertion sort is one) *)
Theorem C09_sorted_permutation_exists : forall l, sorted_perm l (isort l).
Proof. exact isort_sorted_perm. Qed.
Print Assumptions C09_sorted_permutation_exists.

(* the candidates of a call site are exactly the declared aliases whose pattern matches the
   tokens at that position (Trie.Search with the cursor-per-node key generator, over every
   trie the parser's declaration protocol can build) *)
Theorem C09_candidates_are_declared_matching :
  forall (s : list tok) (decls : list alias) (start : nat) (a : alias),
    In a (candidates s (declare_all decls) start) <->
    exists ks, ks <> [] /\ lookup tok_eq tok_less (declare_all decls) ks = Some a /\ matches s ks start = true.
Proof. exact (fun s decls start a => candidates_spec s (declare_all decls) start a (declare_all_wf decls)). Qed.
Print Assumptions C09_candidates_are_declared_matching.

Theorem C09_declared_matching_is_candidate :
  forall (s : list tok) (l1 : list alias) (a : alias) (l2 : list alias) (start : nat),
    a_toks a <> [] ->
    lookup tok_eq tok_less (declare_all l1) (a_toks a) = None ->
    matches s (a_toks a) start = true ->
    In a (candidates s (declare_all (l1 ++ a :: l2)) start).
Proof. exact declared_is_candidate. Qed.
Print Assumptions C09_declared_matching_is_candidate.

(* maximality by the sort key: for every population, stream, position, argument typing, and
   for EVERY permutation a correct (stable or unstable) sort may return, the selected alias is
   declared, matches, type-matches, and no declared, matching, type-matching alias is longer, or
   equally long with fewer generic parameters, or equal in both with more Referenz parameters.
   Ties: some maximal candidate. *)
Theorem C09_select_maximal_by_key :
  forall (s : list tok) (argty : bool -> nat -> option ty) (text_index : nat -> bool)
         (inst_ok : alias -> genv -> bool) (ty_buchstabe : ty)
         (decls : list alias) (start : nat) (l : list alias) (a : alias) (b : list binding) (e : genv),
    sorted_perm (candidates s (declare_all decls) start) l ->
    select_from s argty text_index inst_ok ty_buchstabe l start = Selected a b e ->
    (exists ks, ks <> [] /\ lookup tok_eq tok_less (declare_all decls) ks = Some a /\ matches s ks start = true) /\
    check_alias s argty text_index inst_ok ty_buchstabe a start = Some (b, e) /\
    forall c ks, ks <> [] -> lookup tok_eq tok_less (declare_all decls) ks = Some c -> matches s ks start = true ->
      check_ok s argty text_index inst_ok ty_buchstabe c start = true ->
      alias_len c <= alias_len a /\
      (alias_len c = alias_len a ->
         gen_count a <= gen_count c /\ (gen_count c = gen_count a -> ref_count c <= ref_count a)).
Proof.
  intros s argty text_index inst_ok ty_buchstabe decls start l a b e Hsp Hsel. destruct (select_maximal s argty text_index inst_ok ty_buchstabe _ _ _ _ _ _ Hsp Hsel) as (Hin & Hc & Hmax).
  split; [apply (candidates_spec s _ start a (declare_all_wf decls)); exact Hin|]. split; [exact Hc|].
  intros c ks Hne Hl Hm Hok. apply not_less_explicit. apply Hmax; [|exact Hok].
  apply (candidates_spec s _ start c (declare_all_wf decls)). eauto.
Qed.
Print Assumptions C09_select_maximal_by_key.

(* maximality in the property's wording: longest; on equal length a non-generic
   declaration before a generic one; among non-generic ones more Referenz parameters *)
Theorem C09_select_maximal :
  forall (s : list tok) (argty : bool -> nat -> option ty) (text_index : nat -> bool)
         (inst_ok : alias -> genv -> bool) (ty_buchstabe : ty)
         (decls : list alias) (start : nat) (l : list alias) (a : alias) (b : list binding) (e : genv),
    sorted_perm (candidates s (declare_all decls) start) l ->
    select_from s argty text_index inst_ok ty_buchstabe l start = Selected a b e ->
    In a (candidates s (declare_all decls) start) /\
    check_alias s argty text_index inst_ok ty_buchstabe a start = Some (b, e) /\
    forall c, In c (candidates s (declare_all decls) start) ->
      check_ok s argty text_index inst_ok ty_buchstabe c start = true ->
      alias_len c <= alias_len a /\
      (alias_len c = alias_len a ->
         (a_generic a = true -> a_generic c = true) /\
         (a_generic a = false -> a_generic c = false -> ref_count c <= ref_count a)).
Proof.
  intros s argty text_index inst_ok ty_buchstabe decls start l a b e Hsp Hsel. destruct (select_maximal s argty text_index inst_ok ty_buchstabe _ _ _ _ _ _ Hsp Hsel) as (Hin & Hc & Hmax).
  split; [exact Hin|]. split; [exact Hc|]. intros c Hcin Hok.
  apply maximal_in_property_terms; auto.
Qed.
Print Assumptions C09_select_maximal.

(* the defect repaired in /repo 3e80d99, on an instance: counting a parameter as generic only if its type IS a
   type parameter (gen_count_direct, the count of the pinned tree; its comparator is not modelled) gives
   "foo <a>" for a Zahlen Liste and the generic "foo <a>" for a T Liste the same count; the key of /repo
   (alias_less) sorts the non-generic one first and it is selected in both declaration orders *)
Theorem C09_old_sort_key_tied :
  gen_count_direct w_conc = gen_count_direct w_gen /\ a_generic w_gen = true /\ a_generic w_conc = false /\
  alias_less w_conc w_gen = true /\
  (exists b e, w_select [w_conc; w_gen] = Selected w_conc b e) /\
  (exists b e, w_select [w_gen; w_conc] = Selected w_conc b e).
Proof. vm_compute. repeat split; eauto. Qed.
Print Assumptions C09_old_sort_key_tied.

(* if some candidate type-matches, one is selected ... *)
Theorem C09_select_complete :
  forall (s : list tok) (argty : bool -> nat -> option ty) (text_index : nat -> bool)
         (inst_ok : alias -> genv -> bool) (ty_buchstabe : ty) (cands l : list alias) (start : nat),
    sorted_perm cands l ->
    (exists c, In c cands /\ check_ok s argty text_index inst_ok ty_buchstabe c start = true) ->
    exists a b e, select_from s argty text_index inst_ok ty_buchstabe l start = Selected a b e.
Proof. exact select_complete. Qed.
Print Assumptions C09_select_complete.

(* ... otherwise a maximal candidate (the longest) is "called" without type checks so that the
   typechecker reports; a generic one is an error and no call *)
Theorem C09_select_fallback :
  forall (s : list tok) (argty : bool -> nat -> option ty) (text_index : nat -> bool)
         (inst_ok : alias -> genv -> bool) (ty_buchstabe : ty) (cands l : list alias) (start : nat),
    sorted_perm cands l -> cands <> [] ->
    (forall c, In c cands -> check_ok s argty text_index inst_ok ty_buchstabe c start = false) ->
    exists f, In f cands /\ (forall c, In c cands -> alias_less c f = false) /\
      select_from s argty text_index inst_ok ty_buchstabe l start =
      (if a_generic f then GenericError f else Fallback f (bind_go s f (a_toks f) start [])).
Proof. exact select_fallback. Qed.
Print Assumptions C09_select_fallback.

(* after a successful check, parameter `name` holds the argument unit standing at
   the placeholder <name> (parsed as assignable iff the parameter is a Referenz), wherever that
   placeholder stands in the pattern; parameters without a placeholder hold nothing *)
Theorem C09_bind_by_name :
  forall (s : list tok) (argty : bool -> nat -> option ty) (text_index : nat -> bool)
         (inst_ok : alias -> genv -> bool) (ty_buchstabe : ty)
         (a : alias) (start : nat) (b : list binding) (e : genv) (name : list N),
    check_alias s argty text_index inst_ok ty_buchstabe a start = Some (b, e) ->
    bind_get b name =
    match place s (a_toks a) start name with
    | Some cn => Some (param_ref a name, cn, unit_extent s cn)
    | None => None
    end.
Proof. exact bind_by_name. Qed.
Print Assumptions C09_bind_by_name.

(* ... and the ORDER in which the parameters were declared plays no role *)
Theorem C09_bind_param_order_irrelevant :
  forall (s : list tok) (argty : bool -> nat -> option ty) (text_index : nat -> bool) (ty_buchstabe : ty)
         (a a' : alias) (toks : list tok) (c : nat) (e : genv) (b : list binding),
    Permutation (a_params a) (a_params a') -> NoDup (map p_name (a_params a)) ->
    check_go s argty text_index ty_buchstabe a toks c e b = check_go s argty text_index ty_buchstabe a' toks c e b.
Proof.
  intros s argty text_index ty_buchstabe a a' toks c e b Hp Hnd. revert c e b.
  induction toks as [|t r IH]; intros c e b; cbn [Select.check_go]; [reflexivity|].
  destruct (N.eqb (tt t) tt_EOF); [reflexivity|].
  destruct (is_placeholder t); [|apply IH].
  rewrite <- (find_param_perm _ _ (lit t) Hp Hnd).
  destruct (find_param (a_params a) (lit t)) as [p|]; [|reflexivity].
  destruct (p_ref p && negb (is_ref_start (peek_tt s c))); [reflexivity|].
  destruct (argty (p_ref p) c) as [typ|]; [|reflexivity].
  destruct (unify typ (p_ty p) e) as [u e1]. destruct u as [pt|]; [|reflexivity].
  destruct (negb (ty_eqb typ pt)); [reflexivity|].
  destruct (p_ref p && ty_eqb pt ty_buchstabe && text_index c); [reflexivity|].
  apply IH.
Qed.
Print Assumptions C09_bind_param_order_irrelevant.

(* the expression built for a negated alias is the logical negation of the call *)
Theorem C09_negated_is_not :
  forall (callv : N -> list binding -> bool) (a : alias) (b : list binding),
    eval callv (call_of a b) = if a_neg a then negb (callv (a_fn a) b) else callv (a_fn a) b.
Proof. exact negated_is_not. Qed.
Print Assumptions C09_negated_is_not.

(* a marker <!x> declares two aliases: the text with x (Negated) and the text without (plain) *)
Theorem C09_negation_marker_forms :
  forall pre x post : list N,
    no_marker_in pre -> ~ In c_gt x ->
    expand_marker (pre ++ c_lt :: c_bang :: x ++ c_gt :: post) =
    Some [(pre ++ x ++ post, true); (pre ++ post, false)].
Proof. exact expand_marker_forms. Qed.
Print Assumptions C09_negation_marker_forms.

(* findOverload returns the FIRST table entry whose parameter types equal the
   operand types (after unification for a generic entry), whose Referenz parameters face
   assignable operands and (als) whose return type is the target; a generic entry only if an
   operand has a user-defined type and its instantiation succeeded *)
Theorem C09_overload_exact :
  forall (is_struct : ty -> bool) (oinst_ok : odecl -> genv -> bool)
         (table : list odecl) (ops : list operand) (target : option ty) (d : odecl) (e : genv) (args : list (list N * nat)),
    find_overload is_struct oinst_ok table ops target = Overloaded d e args ->
    exists l1 l2, table = l1 ++ d :: l2 /\ fits d ops target e args /\
      (od_generic d = true -> contains_user is_struct ops = true /\ oinst_ok d e = true) /\
      Forall (fun x => forall e' a', ~ fits x ops target e' a') l1.
Proof. exact overload_exact. Qed.
Print Assumptions C09_overload_exact.

Theorem C09_overload_exact_nongeneric :
  forall (is_struct : ty -> bool) (oinst_ok : odecl -> genv -> bool)
         (table : list odecl) (ops : list operand) (d : odecl) (e : genv) (args : list (list N * nat)),
    find_overload is_struct oinst_ok table ops None = Overloaded d e args -> od_generic d = false ->
    In d table /\ Forall2 exact (firstn (length ops) (od_params d)) ops /\
    args = combine (map p_name (firstn (length ops) (od_params d))) (seq 0 (length ops)).
Proof.
  intros is_struct oinst_ok table ops d e args H G. destruct (overload_exact is_struct oinst_ok _ _ _ _ _ _ H) as (l1 & l2 & -> & [Hm _] & _ & _).
  rewrite G in Hm. destruct (match_operands_exact _ _ _ _ _ _ _ Hm) as (_ & Hf & _ & ->).
  split; [apply in_or_app; right; left; reflexivity|]. auto.
Qed.
Print Assumptions C09_overload_exact_nongeneric.

(* the built-in meaning applies when no entry's parameters match the operands (the other ways to it are not stated) *)
Theorem C09_overload_builtin_otherwise :
  forall (is_struct : ty -> bool) (oinst_ok : odecl -> genv -> bool) (table : list odecl) (ops : list operand) (target : option ty),
    Forall (fun x => match_operands (od_generic x) (od_params x) ops 0 [] [] = MNo) table ->
    find_overload is_struct oinst_ok table ops target = Builtin.
Proof.
  intros is_struct oinst_ok table ops target. induction 1 as [|x r Hx Hr IH]; cbn; [reflexivity|].
  destruct (negb (contains_user is_struct ops) && od_generic x); [reflexivity|]. rewrite Hx. exact IH.
Qed.
Print Assumptions C09_overload_builtin_otherwise.

(* the overload table: every insertion keeps it sorted (fewer generic parameters first, then
   more Referenz parameters) and a permutation of what was accepted *)
Theorem C09_overload_table_sorted :
  forall (is_cast : bool) (table : list odecl) (d : odecl),
    osorted table ->
    osorted (fst (insert_overload is_cast table d)) /\
    (snd (insert_overload is_cast table d) = true -> Permutation (d :: table) (fst (insert_overload is_cast table d))) /\
    (snd (insert_overload is_cast table d) = false -> fst (insert_overload is_cast table d) = table).
Proof.
  exact (fun c t d H => conj (insert_overload_sorted c t d H) (conj (insert_overload_perm c t d) (insert_overload_rejected c t d))).
Qed.
Print Assumptions C09_overload_table_sorted.

(* so the early exit at the first generic entry never hides a later non-generic overload *)
Theorem C09_overload_generic_only_for_user_types :
  forall (is_struct : ty -> bool) (oinst_ok : odecl -> genv -> bool) (table : list odecl) (ops : list operand) (target : option ty),
    osorted table -> Forall odecl_wf table -> contains_user is_struct ops = false ->
    find_overload is_struct oinst_ok table ops target =
    find_overload is_struct oinst_ok (filter (fun d => negb (od_generic d)) table) ops target.
Proof. exact generic_only_for_user_types. Qed.
Print Assumptions C09_overload_generic_only_for_user_types.
