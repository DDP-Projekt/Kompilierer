(* C03 — the frontend is total (PARTIAL by nature: see DESIGN.md §5 C03).
   What Coq carries here: progress/termination of the driving loops of the parser over an abstract
   declaration parser that satisfies the stated progress contract. Crash-freedom of the
   recursive-descent code itself (nil dereferences, failed type assertions, Go stack exhaustion)
   has no counterpart in a total Gallina model and is explored by the check, not proved. *)
From Coq Require Import List.
Import ListNotations.
From DDP Require Import Front.Loop Front.LoopProofs.

Theorem C03_main_loop_terminates_partial :
  forall (tok : Type) (is_dot : tok -> bool) (starts_stmt : tok -> tok -> bool) (toks : list tok)
         (decl : nat -> nat * bool),
    (forall cur, cur < len tok toks -> cur < fst (decl cur) <= len tok toks) ->
    parse_loop tok is_dot starts_stmt toks decl (S (len tok toks)) 0 = Some (len tok toks).
Proof. exact parse_loop_terminates. Qed.
Print Assumptions C03_main_loop_terminates_partial.

Theorem C03_synchronize_stays_in_stream :
  forall (tok : Type) (is_dot : tok -> bool) (starts_stmt : tok -> tok -> bool) (toks : list tok) fuel cur,
    cur <= len tok toks ->
    cur <= synchronize tok is_dot starts_stmt toks fuel cur <= len tok toks.
Proof. exact synchronize_bounds. Qed.
Print Assumptions C03_synchronize_stays_in_stream.

(* an instance where dropping the contract keeps the loop from ending: a declaration parser that stays put, tokens at
   which synchronize returns at once *)
Theorem C03_contract_necessary :
  exists (toks : list nat) (decl : nat -> nat * bool),
    parse_loop nat (fun _ => false) (fun _ _ => true) toks decl 1000 0 = None.
Proof. exact (ex_intro _ [7; 8] (ex_intro _ (fun cur => (cur, true)) stuck_declaration_spins)). Qed.
Print Assumptions C03_contract_necessary.
