(* C12 — a Text is a sequence of Unicode code points.
   The refinement proofs are in Rt/Str*.v.
   Vocabulary (Rt/Str.v = model of utf8.c / operators.c / ddptypes.c / the compiler's text loop,
   Rt/StrSpec.v = specification):
     scalarb c        c is a Unicode scalar value;  tchar c = scalar and not U+0000
     utf8_enc, E      standard UTF-8 of a scalar value / of a list of them
     codec_ok enc dec the libc codec (c32rtomb, mbrtoc32) is standard UTF-8 on every scalar value
     repr s cs        the ddpstring s is well formed (cap = byte length + 1, one terminator, valid
                      UTF-8; the empty text is {NULL,0} or the allocated {"\0",1} that C producers of
                      the stdlib return) and holds exactly the code points cs
     rres r e         the result r of a runtime producer matches the specification result e:
                      both a Laufzeitfehler, or r = Ok s, e = Ok cs and repr s cs
     s_index, s_replace, s_slice, ++, list_eqb   the operations on code-point lists
     run / srun       histories of operations on four registers, model / specification *)
From Coq Require Import List ZArith Bool Lia.
Import ListNotations.
From DDP Require Import Rt.Str Rt.StrSpec Rt.StrBase Rt.StrUtf8 Rt.StrOps Rt.StrOps2 Rt.StrHistory Rt.StrOld Rt.Bounds Rt.StrBounds.
Open Scope Z_scope.

(* ---- encode / decode for EVERY scalar value (range lemmas, no sampling) ---------------------------------- *)
Theorem C12_codec_roundtrip_every_scalar :
  (forall c, scalarb c = true -> glibc_enc c = Some (utf8_enc c)) /\
  (forall c, scalarb c = true -> glibc_dec (utf8_enc c) = Some c).
Proof. exact glibc_codec_ok. Qed.
Print Assumptions C12_codec_roundtrip_every_scalar.

(* the encoding of every text character has one of the four UTF-8 shapes, which is what
   utf8_num_bytes / utf8_indicated_num_bytes classify *)
Theorem C12_num_bytes_every_char :
  forall c rest, tchar c = true -> In 0 rest ->
    utf8_num_bytes (utf8_enc c ++ rest) = Ok (cp_len c) /\ utf8_num_bytes_char c = cp_len c.
Proof.
  exact (fun c rest Hc Hin =>
    conj (num_bytes_enc c rest Hc Hin) (num_bytes_char_len c Hc)).
Qed.
Print Assumptions C12_num_bytes_every_char.

(* texts and byte strings: decoding is the two-sided inverse of encoding *)
Theorem C12_decode_inverse :
  (forall cs, forallb tchar cs = true -> decode (E cs) = Some cs) /\
  (forall l cs, decode l = Some cs -> l = E cs /\ forallb tchar cs = true).
Proof. exact (conj decode_E decode_sound). Qed.
Print Assumptions C12_decode_inverse.

Theorem C12_repr_is_wf_and_cps : forall s cs, repr s cs <-> wf s /\ cps s = Some cs.
Proof. exact repr_wf_cps. Qed.
Print Assumptions C12_repr_is_wf_and_cps.

(* ---- every operation refines the code-point operation and preserves well-formedness --------------------- *)
Theorem C12_literal : forall cs, forallb tchar cs = true -> rres (string_from_constant (E cs ++ [0])) (Ok cs).
Proof. exact from_constant_repr. Qed.
Print Assumptions C12_literal.

Theorem C12_copy : forall s cs, repr s cs -> deep_copy_string s = Ok s.
Proof. exact deep_copy_repr. Qed.
Print Assumptions C12_copy.

Theorem C12_length : forall s cs, repr s cs -> string_length s = Ok (clen cs).
Proof. exact string_length_repr. Qed.
Print Assumptions C12_length.

(* nth code point for 1 <= i <= length, Laufzeitfehler otherwise *)
Theorem C12_index : forall enc dec, codec_ok enc dec ->
  forall s cs i, repr s cs -> string_index dec s i = s_index cs i.
Proof.
  exact (fun enc dec C => string_index_repr dec (codec_dec_tchar enc dec C)).
Qed.
Print Assumptions C12_index.

Theorem C12_slice : forall s cs i j, repr s cs -> rres (string_slice s i j) (s_slice cs i j).
Proof. exact string_slice_repr. Qed.
Print Assumptions C12_slice.

Theorem C12_concat : forall s1 s2 cs1 cs2,
  repr s1 cs1 -> repr s2 cs2 -> rres (string_string_verkettet s1 s2) (Ok (cs1 ++ cs2)).
Proof. exact string_string_verkettet_repr. Qed.
Print Assumptions C12_concat.

(* for EVERY ddpchar c: s_char c = [c] for a text character (scalar value other than U+0000), [] otherwise *)
Theorem C12_concat_char : forall enc dec, codec_ok enc dec ->
  forall s cs c, repr s cs ->
    rres (string_char_verkettet enc s c) (Ok (cs ++ s_char c)) /\
    rres (char_string_verkettet enc c s) (Ok (s_char c ++ cs)).
Proof.
  exact (fun enc dec C s cs c H =>
    conj (string_char_verkettet_all enc (proj1 C) s cs c H) (char_string_verkettet_all enc (proj1 C) c s cs H)).
Qed.
Print Assumptions C12_concat_char.

Theorem C12_char_to_text : forall enc dec, codec_ok enc dec ->
  forall c, rres (char_to_string enc c) (Ok (s_char c)).
Proof. exact (fun enc dec C => char_to_string_all enc (proj1 C)). Qed.
Print Assumptions C12_char_to_text.

(* two well-formed texts are equal exactly when their code-point sequences are equal *)
Theorem C12_equal : forall s1 s2 cs1 cs2,
  repr s1 cs1 -> repr s2 cs2 ->
  string_equal false s1 s2 = Ok (list_eqb cs1 cs2) /\ (list_eqb cs1 cs2 = true <-> cs1 = cs2).
Proof.
  exact (fun s1 s2 cs1 cs2 H1 H2 =>
    conj (string_equal_repr false s1 s2 cs1 cs2 H1 H2 (fun E0 => False_ind _ (Bool.diff_false_true E0))) (list_eqb_eq cs1 cs2)).
Qed.
Print Assumptions C12_equal.

(* the empty Text has two representations, {NULL,0} (literal, every runtime operation) and the allocated
   {"\0",1} (C producers of the stdlib: env.c, string_builder.c, filesystem.c, strings.c ...): both are
   well formed with no code points, every theorem of this file covers both (repr admits both), and in
   particular they are equal to each other in both operand orders.  The definition before the fix
   (Rt/StrOld.v: memcmp over str1->cap bytes) read through NULL when the allocated one came first. *)
Theorem C12_two_empty_texts :
  repr owned_empty [] /\ repr empty_string [] /\
  (forall s, repr s [] -> s = empty_string \/ s = owned_empty) /\
  string_equal false owned_empty empty_string = Ok true /\
  string_equal false empty_string owned_empty = Ok true /\
  string_equal_old false owned_empty empty_string = OOB /\
  string_equal_old false empty_string owned_empty = Ok true.
Proof.
  split; [apply repr_owned_empty|]. split; [apply repr_empty|]. split; [apply repr_nil|].
  vm_compute. auto.
Qed.
Print Assumptions C12_two_empty_texts.

(* `Für jeden Buchstaben b in t` visits the code points in order *)
Theorem C12_iterate : forall enc dec, codec_ok enc dec ->
  forall s cs, repr s cs -> string_iterate dec s = Ok cs.
Proof. exact (fun enc dec C => string_iterate_repr dec (codec_dec_tchar enc dec C)). Qed.
Print Assumptions C12_iterate.

Theorem C12_print : forall s cs, repr s cs -> print_text s = Ok (E cs).
Proof. exact print_text_repr. Qed.
Print Assumptions C12_print.

Theorem C12_casts :
  (forall c, scalarb c = true -> int_to_char (char_to_int c) = c) /\
  (forall z, -2^31 <= z < 2^31 -> char_to_int (int_to_char z) = z).
Proof.
  unfold scalarb, int_to_char, char_to_int. split; intros x H; rewrite Z.mod_small by lia; lia.
Qed.
Print Assumptions C12_casts.

(* in-place replacement by ANY text character (shorter, equal or longer in UTF-8): the code points
   are replaced, well-formedness is kept, Laufzeitfehler outside 1..length; storing a ddpchar that is
   not a text character is a Laufzeitfehler *)
Theorem C12_replace : forall enc dec, codec_ok enc dec ->
  forall s cs ch i, repr s cs ->
    rres (replace_char_in_string enc s ch i) (if tchar ch then s_replace cs ch i else Err).
Proof. exact (fun enc dec C => replace_char_all enc (proj1 C)). Qed.
Print Assumptions C12_replace.

(* EVERY history of operations is observed exactly as on code-point lists and ends in representations
   of the specification's texts — whatever mixture of literal, copy, concatenation, slice and
   replacement by shorter/equal/longer characters produced the values, and for EVERY ddpchar value
   (in_text only asks literals to be UTF-8 encodings of texts) *)
Theorem C12_history_refines : forall enc dec, codec_ok enc dec ->
  forall ops, along (fun _ => in_text) sinit ops = true ->
    fst (run enc dec init_state ops) = fst (srun sinit ops) /\
    fin_rel (snd (run enc dec init_state ops)) (snd (srun sinit ops)).
Proof. exact (fun enc dec C ops => history_refines enc dec C ops init_state sinit init_rel). Qed.
Print Assumptions C12_history_refines.

(* ---- composition with C06 (Rt/Bounds.v): the byte-level operations decide their domain and compute
   their value exactly as the code-point-level text_index / text_replace / text_slice, on every
   well-formed text; the capacity hypotheses of Props/C06.v are consequences of repr.
   of_option: Some v -> Ok v, None -> Laufzeitfehler;  of_slice: SliceOk l -> Ok l, SliceError -> Laufzeitfehler *)
Theorem C12_repr_gives_C06_capacity_hypotheses : forall s cs, repr s cs ->
  (cs <> [] -> Z.of_nat (length cs) + 1 <= cap s) /\ (cs = [] -> cap s = 0 \/ cap s = 1).
Proof. exact repr_cap_bounds. Qed.
Print Assumptions C12_repr_gives_C06_capacity_hypotheses.

Theorem C12_index_matches_bounds : forall enc dec, codec_ok enc dec ->
  forall s cs i, repr s cs -> string_index dec s i = of_option (text_index (cap s) cs i).
Proof.
  intros enc dec C s cs i H. rewrite (string_index_repr dec (codec_dec_tchar enc dec C) s cs i H).
  apply s_index_text_index, H.
Qed.
Print Assumptions C12_index_matches_bounds.

Theorem C12_replace_matches_bounds : forall enc dec, codec_ok enc dec ->
  forall s cs ch i, repr s cs -> tchar ch = true ->
    rres (replace_char_in_string enc s ch i) (of_option (text_replace (cap s) cs i ch)).
Proof.
  intros enc dec C s cs ch i H Hc. rewrite <- (s_replace_text_replace s cs i ch H).
  exact (replace_char_repr enc (proj1 C) s cs ch i H Hc).
Qed.
Print Assumptions C12_replace_matches_bounds.

Theorem C12_slice_matches_bounds : forall s cs i j,
  repr s cs -> rres (string_slice s i j) (of_slice (text_slice cs i j)).
Proof. exact slice_matches_bounds. Qed.
Print Assumptions C12_slice_matches_bounds.

(* documentation of the repaired defect (/repo 629848a): the replacement as it was BEFORE the fix
   (Rt/StrOld.v, capacity kept) left a string that is not well formed; concatenation then lost the
   appended text, iteration did not terminate and equality read outside the block.  The current
   definition returns the well-formed {"ab", 3} on the same input. *)
Theorem C12_old_replace_shorter_refuted :
  exists s cs ch i s', repr s cs /\ tchar ch = true /\
    replace_char_in_string_old glibc_enc s ch i = Ok s' /\ ~ wf s' /\
    (r <- string_string_verkettet s' (mkstr [88; 0] 2) ;; print_text r) = Ok (E [97; 98]) /\
    string_iterate glibc_dec s' = Stuck /\
    string_equal_old false s' (mkstr [97; 98; 0] 3) = OOB /\
    replace_char_in_string glibc_enc s ch i = Ok (mkstr [97; 98; 0] 3).
Proof.
  exists (mkstr (E [228; 98] ++ [0]) 4), [228; 98], 97, 1, (mkstr [97; 98; 0; 0] 4).
  split; [exact (repr_cstr [228; 98] eq_refl ltac:(discriminate))|]. split; [reflexivity|].
  split; [vm_compute; reflexivity|]. split; [|vm_compute; auto].
  intros W. apply wf_strlen in W; [|reflexivity]. vm_compute in W. discriminate W.
Qed.
Print Assumptions C12_old_replace_shorter_refuted.

(* well-formedness is an invariant of EVERY operation for EVERY ddpchar: after any history every
   register is well formed (or the program stopped with a Laufzeitfehler); never OOB/Undef/Stuck *)
Theorem C12_wf_preserved_all_chars : forall enc dec, codec_ok enc dec ->
  forall ops, along (fun _ => in_text) sinit ops = true ->
    match snd (run enc dec init_state ops) with
    | Ok st => Forall wf st
    | Err => True
    | _ => False
    end.
Proof.
  intros enc dec C ops G. destruct (history_refines enc dec C ops init_state sinit init_rel G) as [_ F].
  destruct (snd (run enc dec init_state ops)), (snd (srun sinit ops)); cbn in F; try contradiction; auto.
  eapply srel_wf, F.
Qed.
Print Assumptions C12_wf_preserved_all_chars.

(* limitation, not a violation: U+0000 is a Unicode scalar value, but no well-formed Text has it among
   its code points (the byte array is NUL-terminated); the runtime treats it like a value that is
   not a character: converting gives the empty Text, appending appends nothing, storing is a Laufzeitfehler *)
Theorem C12_nul_not_representable :
  scalarb 0 = true /\ (forall s cs, wf s -> cps s = Some cs -> ~ In 0 cs) /\
  char_to_string glibc_enc 0 = Ok empty_string /\
  string_char_verkettet glibc_enc (mkstr [97; 0] 2) 0 = Ok (mkstr [97; 0] 2) /\
  char_string_verkettet glibc_enc 0 (mkstr [97; 0] 2) = Ok (mkstr [97; 0] 2) /\
  replace_char_in_string glibc_enc (mkstr [97; 0] 2) 0 1 = Err.
Proof.
  split; [reflexivity|]. split; [|vm_compute; auto].
  intros s cs W Hc Hin. assert (R : repr s cs) by (apply repr_wf_cps; auto).
  pose proof (repr_tchars _ _ R) as T. unfold tchars in T. rewrite forallb_forall in T.
  specialize (T 0 Hin). discriminate T.
Qed.
Print Assumptions C12_nul_not_representable.

Definition sample_text : list Z := [72; 228; 8364; 128512].          (* "Hä€😀": 1, 2, 3 and 4 bytes *)
Definition sample_string : ddpstring := mkstr (E sample_text ++ [0]) 11.
Example C12_sample_repr : repr sample_string sample_text.
Proof. exact (repr_cstr sample_text eq_refl ltac:(discriminate)). Qed.
Example C12_codec_nonvacuous : codec_ok glibc_enc glibc_dec /\ scalarb 128512 = true /\ tchar 8364 = true.
Proof. exact (conj glibc_codec_ok (conj eq_refl eq_refl)). Qed.
Example C12_operations_nonvacuous :
  string_index glibc_dec sample_string 4 = Ok 128512 /\ string_index glibc_dec sample_string 5 = Err /\
  s_slice sample_text 2 9 = Ok [228; 8364; 128512] /\ s_slice sample_text 3 2 = Err /\
  replace_char_in_string glibc_enc sample_string 97 3 = Ok (mkstr (E [72; 228; 97; 128512] ++ [0]) 9).
Proof. repeat split; vm_compute; reflexivity. Qed.
Definition sample_history : list op :=
  [OLit 0 (E sample_text); OReplace 0 8364 2; OReplace 0 97 3; OSlice 1 0 2 3; OConcatSC 1 1 0; OConcatCS 1 55296 1; OConcat 2 1 0; OConcatSC 3 2 128512;
   OEmptyOwned 1; OLit 2 []; OEqual 1 2; OConcat 1 1 0; OEqual 0 1; OIndex 3 2; OIter 3; OIndex 3 99].
Example C12_history_nonvacuous :
  along (fun _ => in_text) sinit sample_history = true /\
  fst (srun sinit sample_history) =
    [VNone; VNone; VNone; VNone; VNone; VNone; VNone; VNone; VNone; VNone; VBool true; VNone; VBool true; VInt 97;
     VChars [8364; 97; 72; 8364; 97; 128512; 128512]] /\
  snd (srun sinit sample_history) = Err.
Proof. vm_compute. auto. Qed.
